(** Real inner-product spaces, abstractly.

    Only the laws that the Gram reading of PEPit's objects can observe are required: bilinearity,
    symmetry and positivity of [inner].  Points are only ever observed through inner products, so
    "equality" of vectors is [veq] (indistinguishable by every inner product).  No vector-space
    equation with Leibniz equality is assumed, which lets [nat -> R] truncated at any dimension [n]
    be an instance without functional extensionality (see [Rn] below). *)
From Coq Require Import Reals Lra List.
Import ListNotations.
Local Open Scope R_scope.

Record ips : Type := {
  V :> Type;
  vzero : V;
  vadd : V -> V -> V;
  vscal : R -> V -> V;
  inner : V -> V -> R;
  inner_sym : forall u v, inner u v = inner v u;
  inner_add_l : forall u v w, inner (vadd u v) w = inner u w + inner v w;
  inner_scal_l : forall a u w, inner (vscal a u) w = a * inner u w;
  inner_zero_l : forall w, inner vzero w = 0;
  inner_pos : forall u, 0 <= inner u u
}.

Arguments vzero {_}.
Arguments vadd {_}.
Arguments vscal {_}.
Arguments inner {_}.

Section Laws.
  Context {E : ips}.
  Implicit Types u v w : E.

  Definition vneg u : E := vscal (-1) u.
  Definition vsub u v : E := vadd u (vneg v).
  Definition nrm2 u : R := inner u u.
  Definition veq u v : Prop := forall w, inner u w = inner v w.

  Lemma inner_add_r u v w : inner w (vadd u v) = inner w u + inner w v.
  Proof. rewrite (inner_sym E w), inner_add_l, !(inner_sym E w). reflexivity. Qed.
  Lemma inner_scal_r a u w : inner w (vscal a u) = a * inner w u.
  Proof. rewrite (inner_sym E w), inner_scal_l, (inner_sym E w). reflexivity. Qed.
  Lemma inner_zero_r w : inner w vzero = 0.
  Proof. rewrite (inner_sym E w). apply inner_zero_l. Qed.
  Lemma inner_neg_l u w : inner (vneg u) w = - inner u w.
  Proof. unfold vneg. rewrite inner_scal_l. lra. Qed.
  Lemma inner_neg_r u w : inner w (vneg u) = - inner w u.
  Proof. unfold vneg. rewrite inner_scal_r. lra. Qed.
  Lemma inner_sub_l u v w : inner (vsub u v) w = inner u w - inner v w.
  Proof. unfold vsub. rewrite inner_add_l, inner_neg_l. lra. Qed.
  Lemma inner_sub_r u v w : inner w (vsub u v) = inner w u - inner w v.
  Proof. unfold vsub. rewrite inner_add_r, inner_neg_r. lra. Qed.

  Lemma nrm2_sub u v : nrm2 (vsub u v) = nrm2 u - 2 * inner u v + nrm2 v.
  Proof. unfold nrm2. rewrite inner_sub_l, !inner_sub_r, (inner_sym E v u). lra. Qed.
  Lemma nrm2_sub_sym u v : nrm2 (vsub u v) = nrm2 (vsub v u).
  Proof. rewrite !nrm2_sub, (inner_sym E v u). lra. Qed.

  Lemma veq_refl u : veq u u. Proof. intro; reflexivity. Qed.
  Lemma veq_sym u v : veq u v -> veq v u. Proof. intros H w; symmetry; apply H. Qed.
  Lemma veq_trans u v w : veq u v -> veq v w -> veq u w.
  Proof. intros H1 H2 z; rewrite H1; apply H2. Qed.
  Lemma veq_inner_l u v w : veq u v -> inner u w = inner v w. Proof. intro H; apply H. Qed.
  Lemma veq_inner_r u v w : veq u v -> inner w u = inner w v.
  Proof. intro H; rewrite !(inner_sym E w); apply H. Qed.
  Lemma veq_inner u u' v v' : veq u u' -> veq v v' -> inner u v = inner u' v'.
  Proof. intros H1 H2. rewrite (veq_inner_l _ _ _ H1). apply veq_inner_r, H2. Qed.
  Lemma veq_add u u' v v' : veq u u' -> veq v v' -> veq (vadd u v) (vadd u' v').
  Proof. intros H1 H2 w. rewrite !inner_add_l, H1, H2. reflexivity. Qed.
  Lemma veq_scal a u u' : veq u u' -> veq (vscal a u) (vscal a u').
  Proof. intros H w. rewrite !inner_scal_l, H. reflexivity. Qed.
  Lemma veq_neg u u' : veq u u' -> veq (vneg u) (vneg u').
  Proof. apply veq_scal. Qed.
  Lemma veq_sub u u' v v' : veq u u' -> veq v v' -> veq (vsub u v) (vsub u' v').
  Proof. intros; apply veq_add; [|apply veq_neg]; assumption. Qed.

  Lemma nrm2_comb s t u v :
    nrm2 (vadd (vscal s u) (vscal t v)) = s * s * nrm2 u + 2 * s * t * inner u v + t * t * nrm2 v.
  Proof.
    unfold nrm2. rewrite inner_add_l, !inner_add_r, !inner_scal_l, !inner_scal_r, (inner_sym E v u). lra.
  Qed.

  (** Cauchy-Schwarz, from positivity alone (no definiteness needed).  With a = <u,u>, b = <u,v>,
      c = <v,v>: positivity at c u - b v says 0 <= c (a c - b b), at b u - a v it says
      0 <= a (a c - b b), and when a = c = 0 positivity at u - b v leaves 0 <= - 2 b b. *)
  Lemma cauchy_schwarz u v : inner u v * inner u v <= inner u u * inner v v.
  Proof.
    assert (P : forall s t, 0 <= s * s * inner u u + 2 * s * t * inner u v + t * t * inner v v).
    { intros s t. change (0 <= s * s * nrm2 u + 2 * s * t * inner u v + t * t * nrm2 v).
      rewrite <- nrm2_comb. apply inner_pos. }
    pose proof (P (inner v v) (- inner u v)) as P1.
    pose proof (P (inner u v) (- inner u u)) as P2.
    pose proof (P 1 (- inner u v)) as P3.
    pose proof (inner_pos E u) as Hu. pose proof (inner_pos E v) as Hv.
    destruct (Req_dec (inner v v) 0) as [Hc|Hc]; [destruct (Req_dec (inner u u) 0) as [Ha|Ha]|].
    - rewrite Ha, Hc in *. nra.
    - nra.
    - nra.
  Qed.

  Lemma nrm2_pos u : 0 <= nrm2 u.
  Proof. apply inner_pos. Qed.
  Lemma nrm2_veq u v : veq u v -> nrm2 u = nrm2 v.
  Proof. intros H. apply veq_inner; exact H. Qed.
  (** a vector of zero norm is invisible to every inner product (Cauchy-Schwarz) *)
  Lemma nrm2_zero_veq u : nrm2 u = 0 -> veq u vzero.
  Proof.
    intros Hu w. rewrite inner_zero_l.
    pose proof (cauchy_schwarz u w) as CS. unfold nrm2 in Hu. rewrite Hu in CS. nra.
  Qed.
End Laws.

(** Finite linear combinations. *)
Section Comb.
  Context {E : ips}.
  Fixpoint lincomb (l : list (R * E)) : E :=
    match l with
    | [] => vzero
    | (a, u) :: l' => vadd (vscal a u) (lincomb l')
    end.
  Lemma inner_lincomb_l l w :
    inner (lincomb l) w = fold_right (fun '(a, u) acc => a * inner u w + acc) 0 l.
  Proof.
    induction l as [|[a u] l IH]; cbn [lincomb fold_right].
    - apply inner_zero_l.
    - rewrite inner_add_l, inner_scal_l, IH. reflexivity.
  Qed.
End Comb.

(** Instance 1: the real line. *)
Definition R1 : ips.
Proof.
  refine {| V := R; vzero := 0; vadd := Rplus; vscal := Rmult; inner := Rmult |}; intros; try lra.
  nra.
Defined.

(** Instance 2: R^n as functions [nat -> R] observed on coordinates [< n].  No functional
    extensionality is needed since no Leibniz equation between vectors is part of [ips]. *)
Section Rn.
  Variable n : nat.
  Fixpoint dotn (k : nat) (u v : nat -> R) : R :=
    match k with O => 0 | S k' => dotn k' u v + u k' * v k' end.
  Lemma dotn_sym k u v : dotn k u v = dotn k v u.
  Proof. induction k; cbn; [reflexivity|rewrite IHk; lra]. Qed.
  Lemma dotn_add k u v w : dotn k (fun i => u i + v i) w = dotn k u w + dotn k v w.
  Proof. induction k; cbn; [lra|rewrite IHk; lra]. Qed.
  Lemma dotn_scal k a u w : dotn k (fun i => a * u i) w = a * dotn k u w.
  Proof. induction k; cbn; [lra|rewrite IHk; lra]. Qed.
  Lemma dotn_zero k w : dotn k (fun _ => 0) w = 0.
  Proof. induction k; cbn; [lra|rewrite IHk; lra]. Qed.
  Lemma dotn_pos k u : 0 <= dotn k u u.
  Proof. induction k; cbn; [lra|nra]. Qed.
  Definition Rn : ips :=
    {| V := nat -> R; vzero := fun _ => 0; vadd := fun u v i => u i + v i;
       vscal := fun a u i => a * u i; inner := dotn n;
       inner_sym := dotn_sym n; inner_add_l := dotn_add n; inner_scal_l := dotn_scal n;
       inner_zero_l := dotn_zero n; inner_pos := dotn_pos n |}.
End Rn.
