(** What Props/C07.v states beside the invariant: the op sequences that refute the unguarded statement (the
    known findings), and [step_old] / [run_old] that build weights as PEPit did before /repo 5162ea4;
    [wlin] / [wsum] and I3 read in them ([read_I3]); what [oracle] returns is recorded
    ([oracle_returns_recorded]); the two lemmas behind "lookup by dictionary is lookup by vector"
    ([dict_eqb_dsum], [ip_indicator]). *)
From Coq Require Import List Reals Qreals Lra.
From PV Require Import Base.IPS Model.Dict Model.Terms Model.Func Spec.Sem
  Proofs.DictLemmas Proofs.SemLemmas Proofs.C07Dict Proofs.C07Inv Proofs.C07Main.
Import ListNotations.
Local Open Scope R_scope.

(** ** Refutations: the unguarded statement "every well-scoped op sequence keeps the invariant" fails.
    Since /repo 5162ea4 ([Function.__add__] prunes) the only composites that still carry a zero weight
    are zero functions: a bare zero scaling [0*f] = [{f: 0}], or everything cancelled [f - f] = [{}]. *)

(** F-C07d: [F = 0*f; F.oracle(x)] with [f] not yet evaluated at [x]: classification runs on the unpruned
    [{f: 0}] ("f needs gradient and value"), two fresh leaves are recorded for the ZERO function. *)
Definition ops_zero_scaling : list op :=
  [NewPoint; NewLeaf true; Combine [(0%nat, 0%Q)]; Oracle 1%nat (PVar 0)].

(** F-C07c: [F = f - f; F.stationary_point()] records a free function value for the zero function. *)
Definition ops_all_cancel : list op :=
  [NewLeaf true; Combine [(0%nat, 1%Q); (0%nat, (-1)%Q)]; Stationary 1%nat].

(** F-C07e (the old F-C07a, still reachable through the constructor): [f1.oracle(x);
    F = Function(is_leaf=False, decomposition_dict={f1: 1, f2: 0}); F.oracle(x)] gives the non-differentiable
    LEAF [f1] a second function value at [x]. *)
Definition ops_ctor_zero_weight : list op :=
  [NewPoint; NewLeaf false; NewLeaf true; Oracle 0%nat (PVar 0);
   Direct [(0%nat, 1%Q); (1%nat, 0%Q)] false; Oracle 2%nat (PVar 0)].

(** F-C07b: [f.oracle(0*y); f.oracle(0*y)] records two samples at the point [{}] with different values. *)
Definition ops_zero_query : list op :=
  [NewPoint; NewLeaf true; Oracle 0%nat (PScal (SNum 0) (PVar 0)); Oracle 0%nat (PScal (SNum 0) (PVar 0))].

(** Regression sequences (the triggers of the repaired F-C07a): [f1.oracle(x); F = f1 + f2 - f2; F.oracle(x)]
    with [f1] non-differentiable / differentiable.  With the current construction they are accepted by the
    guard and keep the invariant; with the construction before 5162ea4 they break it ([step_old]). *)
Definition ops_cancel_nondiff : list op :=
  [NewPoint; NewLeaf false; NewLeaf true; Oracle 0%nat (PVar 0);
   Combine [(0%nat, 1%Q); (1%nat, 1%Q); (1%nat, (-1)%Q)]; Oracle 2%nat (PVar 0)].
Definition ops_cancel_diff : list op :=
  [NewPoint; NewLeaf true; NewLeaf true; Oracle 0%nat (PVar 0);
   Combine [(0%nat, 1%Q); (1%nat, 1%Q); (1%nat, (-1)%Q)]; Oracle 2%nat (PVar 0)].

Definition step_old (s : state) (o : op) : state :=
  match o with
  | Combine terms =>
      mkS (pt_ctr s) (ex_ctr s)
          (funs s ++ [mkF false (combine_reuse s terms) (combine_weights_old s terms) [] []])
  | _ => step s o
  end.
Definition run_old (ops : list op) : state := fold_left step_old ops init.

Definition phi01 : nat -> R := fun e => match e with O => 1 | _ => 0 end.

Lemma two_values_refute s i x1 g1 x2 g2 :
  (i < nfun s)%nat ->
  In (x1, g1, [(KF 0, 1%Q)]) (f_pts (getf s i)) -> In (x2, g2, [(KF 1, 1%Q)]) (f_pts (getf s i)) ->
  dict_eqb Nat.eqb x1 x2 = true -> ~ inv s.
Proof.
  intros Hi H1 H2 He Hinv.
  pose proof (inv_I1 s Hinv i _ _ Hi H1 H2 He R1 (fun _ => 0) phi01) as H.
  unfold vof in H; cbn in H. unfold Q2R in H; cbn in H. lra.
Qed.

(** a composite with no weight left and a sample whose value is the leaf expression 0 *)
Lemma free_value_of_zero_function_refute s F x g :
  (F < nfun s)%nat -> f_leaf (getf s F) = false -> f_w (getf s F) = [] ->
  In (x, g, [(KF 0, 1%Q)]) (f_pts (getf s F)) -> ~ inv s.
Proof.
  intros HF Hl HW Hin Hinv.
  destruct (inv_I3 s Hinv F _ HF Hl Hin) as (ch & _ & _ & HsV).
  rewrite HW in HsV. specialize (HsV R1 (fun _ => 0) phi01).
  unfold vof in HsV; cbn in HsV. unfold Q2R in HsV; cbn in HsV. lra.
Qed.

(** weighted combination of the chosen gradients, as a vector of the inner-product space *)
Definition wlin {E : ips} (rho : nat -> E) (W : wdict) (pick : nat -> pdict) : E :=
  lincomb (map (fun '(i, q) => (Q2R q, evalP rho (pick i))) W).
(** weighted combination of the chosen values *)
Definition wsum {E : ips} (rho : nat -> E) (phi : nat -> R) (W : wdict) (pick : nat -> edict) : R :=
  fold_right (fun '(i, q) acc => Q2R q * evalE rho phi (pick i) + acc) 0 W.

Lemma inner_wlin {E : ips} (rho : nat -> E) W pick w :
  inner (wlin rho W pick) w = dsum nat (fun i => ip rho w (pick i)) W.
Proof.
  unfold wlin. rewrite inner_lincomb_l.
  induction W as [|[i q] W IH]; cbn [map fold_right dsum]; [reflexivity|]. rewrite IH. reflexivity.
Qed.

Lemma wsum_dsum {E : ips} (rho : nat -> E) phi W pick :
  wsum rho phi W pick = dsum nat (fun i => evalE rho phi (pick i)) W.
Proof. induction W as [|[i q] W IH]; cbn [wsum fold_right dsum]; [reflexivity|]. fold (wsum rho phi W pick). rewrite IH. reflexivity. Qed.

(** I3 in the vocabulary of the property: every sample of a composite is the weighted sum of samples
    recorded AT THAT POINT for its terms *)
Lemma read_I3 s (Hinv : inv s) F t :
  (F < nfun s)%nat -> f_leaf (getf s F) = false -> In t (f_pts (getf s F)) ->
  exists ch : nat -> sample,
    (forall i q, In (i, q) (f_w (getf s F)) ->
       In (ch i) (f_pts (getf s i)) /\ dict_eqb Nat.eqb (xof (ch i)) (xof t) = true) /\
    forall (E : ips) (rho : nat -> E) (phi : nat -> R),
      veq (evalP rho (gof t)) (wlin rho (f_w (getf s F)) (fun i => gof (ch i))) /\
      evalE rho phi (vof t) = wsum rho phi (f_w (getf s F)) (fun i => vof (ch i)).
Proof.
  intros HF Hl Ht. destruct (inv_I3 s Hinv F t HF Hl Ht) as (ch & Hc & HsG & HsV).
  exists ch. split; [exact Hc|]. intros E rho phi. split.
  - intros w. rewrite inner_wlin. apply HsG.
  - rewrite wsum_dsum. apply HsV.
Qed.

(** ** What the calls return: a sample recorded for the function at (a point equal to) the query *)
Lemma comp_add_point_records s F x g v :
  (F < nfun s)%nat -> In (prune x, prune g, prune v) (f_pts (getf (comp_add_point s F (x, g, v)) F)).
Proof.
  intros HF.
  apply (ext_pts _ _ _ (ext_record_comp_add_point s F (x, g, v))), (pts_record_new s F (x, g, v) HF).
Qed.

Lemma add_point_records s F x g v :
  (F < nfun s)%nat -> In (prune x, prune g, prune v) (f_pts (getf (add_point s F (x, g, v)) F)).
Proof.
  intros HF. unfold add_point.
  destruct (f_leaf (getf s F)); [exact (pts_record_new s F (x, g, v) HF)|exact (comp_add_point_records s F x g v HF)].
Qed.

Lemma co_body_records s F x assoc :
  (F < nfun s)%nat -> wfq s x ->
  exists x0, In (x0, fst (snd (co_body s F x assoc)), snd (snd (co_body s F x assoc)))
                (f_pts (getf (fst (co_body s F x assoc)) F)) /\ dict_eqb Nat.eqb x0 x = true.
Proof.
  intros HF Hq. unfold co_body. destruct (classify s (f_w (getf s F)) x) as [[n go] gvl].
  pose proof (ext_nfun _ _ _ (ext_co_value s (f_w (getf s F)) x gvl assoc)) as H1.
  destruct (co_value s (f_w (getf s F)) x gvl assoc) as [s1 v].
  pose proof (ext_nfun _ _ _ (ext_co_grad s1 (f_w (getf s F)) x go gvl)) as H2.
  destruct (co_grad s1 (f_w (getf s F)) x go gvl) as [s2 g]. cbn [fst snd] in *.
  exists (prune x). split; [apply comp_add_point_records; rewrite H2, H1; exact HF|exact (wfq_self s x Hq)].
Qed.

Lemma oracle_returns_recorded s f p :
  (f < nfun s)%nat -> wfq s p ->
  let s' := fst (oracle s f p) in
  let g := fst (snd (oracle s f p)) in
  let v := snd (snd (oracle s f p)) in
  exists x0, In (x0, g, v) (f_pts (getf s' f)) /\ dict_eqb Nat.eqb x0 p = true.
Proof.
  intros Hf Hq. cbv zeta. unfold oracle.
  destruct (f_leaf (getf s f)); [exact (leaf_oracle_records s f p Hf Hq)|].
  rewrite comp_oracle_unfold.
  destruct (find_pt (f_pts (getf s f)) p) as [[g0 v0]|] eqn:Hfp; [destruct (f_reuse (getf s f))|];
    [exact (find_pt_Some _ _ _ _ Hfp)|apply co_body_records; assumption..].
Qed.

(** ** Lookup by raw dictionary = lookup by vector equality, for points in pruned normal form
    ([C07_lookup_is_vector_equality]): equal dictionaries have equal weighted sums, and a coefficient can
    be read off a vector. *)
Lemma dict_eqb_dsum (val : nat -> R) (a b : pdict) :
  pND a -> pND b -> dict_eqb Nat.eqb a b = true -> dsum nat val a = dsum nat val b.
Proof.
  intros Na Nb He.
  pose proof (proj1 (dict_eqb_char nat Nat.eqb nat_eqb_spec a b Na Nb) He) as Hc.
  rewrite (dsum_split nat Nat.eqb nat_eqb_spec val a b Na Nb).
  assert (Hf : filter (fun '(k, _) => negb (mem Nat.eqb k a)) b = []).
  { destruct (filter (fun '(k, _) => negb (mem Nat.eqb k a)) b) as [|[k v] l] eqn:Hfl; [reflexivity|exfalso].
    assert (Hin : In (k, v) (filter (fun '(k, _) => negb (mem Nat.eqb k a)) b)) by (rewrite Hfl; left; reflexivity).
    apply filter_In in Hin as [Hin Hm]. apply negb_true_iff in Hm.
    apply (In_lookup nat Nat.eqb nat_eqb_spec k v b Nb) in Hin. specialize (Hc k). rewrite Hin in Hc.
    unfold mem in Hm. destruct (lookup Nat.eqb k a); [discriminate|]. exact Hc. }
  rewrite Hf. cbn [dsum]. rewrite Rplus_0_r.
  assert (Hg : forall l, (forall k v, In (k, v) l -> In (k, v) a) ->
                 fold_right (fun '(k, _) acc => get nat Nat.eqb k b * val k + acc) 0 l = dsum nat val l).
  { induction l as [|[k v] l IH]; intros Hl; cbn [fold_right dsum]; [reflexivity|].
    rewrite IH by (intros k' v' H'; apply Hl; right; exact H'). f_equal. f_equal.
    pose proof (In_lookup nat Nat.eqb nat_eqb_spec k v a Na (Hl k v (or_introl eq_refl))) as Hla.
    specialize (Hc k). rewrite Hla in Hc. unfold get. destruct (lookup Nat.eqb k b) as [vb|]; [|contradiction].
    symmetry. apply Qeq_eqR. exact Hc. }
  symmetry. apply Hg. auto.
Qed.

(** the coefficient of leaf [k] is read off in R with the indicator valuation of [k] *)
Lemma ip_indicator (d : pdict) (k : nat) :
  pND d -> inner (@evalP R1 (fun j => if Nat.eqb j k then 1 else 0) d) 1 = get nat Nat.eqb k d.
Proof.
  intros Nd. rewrite inner_evalP. unfold get.
  induction d as [|[j q] d IH]; cbn [dsum lookup]; [reflexivity|].
  destruct (proj1 (NoDup_cons_iff j (keys d)) Nd) as [Hni Nd'].
  rewrite (IH Nd'). cbn [inner R1]. destruct (Nat.eqb_spec k j) as [->|Hne].
  - rewrite Nat.eqb_refl.
    assert (Hl : lookup Nat.eqb j d = None) by (apply (lookup_None nat Nat.eqb nat_eqb_spec); exact Hni).
    rewrite Hl. lra.
  - destruct (Nat.eqb_spec j k) as [->|_]; [congruence|]. lra.
Qed.
