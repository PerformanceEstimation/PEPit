(** The algebra of the finite sums [KKT.sumn], the matrix pairing [mdot] written with them, and positive
    semidefiniteness: the pairing of a multiplier that is a finite sum of rank-one matrices
    with a primal matrix whose quadratic form is non-negative is non-negative; Gram matrices of
    vectors of any inner-product space are PSD in the quadratic-form sense; against a symmetric matrix only
    the symmetric part of a multiplier counts.
    (Choice named in the trusted base of C01: multipliers = rank-one sums, primal = quadratic form;
    the spectral theorem is not needed.) *)
From Coq Require Import List Reals Qreals Lra Lia.
From PV Require Import Base.IPS Model.Dict Model.Terms Model.Sent Model.Cvxpy Spec.GramSem Spec.KKT.
Import ListNotations.
Local Open Scope R_scope.

Lemma sumn_ext n f g : (forall i, (i < n)%nat -> f i = g i) -> sumn n f = sumn n g.
Proof.
  induction n as [|n IH]; intro H; cbn [sumn]; [reflexivity|].
  rewrite IH, H by (intros; try apply H; lia). reflexivity.
Qed.

Lemma sumn_plus n f g : sumn n (fun i => f i + g i) = sumn n f + sumn n g.
Proof. induction n as [|n IH]; cbn [sumn]; [lra|rewrite IH; lra]. Qed.

Lemma sumn_zero n : sumn n (fun _ => 0) = 0.
Proof. induction n as [|n IH]; cbn [sumn]; [lra|rewrite IH; lra]. Qed.

Lemma sumn_all_zero n f : (forall i, (i < n)%nat -> f i = 0) -> sumn n f = 0.
Proof. intro H. rewrite (sumn_ext n f (fun _ => 0)) by exact H. apply sumn_zero. Qed.

Lemma sumn_scal n c f : sumn n (fun i => c * f i) = c * sumn n f.
Proof. induction n as [|n IH]; cbn [sumn]; [lra|rewrite IH; lra]. Qed.

Lemma sumn_scal_r n c f : sumn n (fun i => f i * c) = sumn n f * c.
Proof. induction n as [|n IH]; cbn [sumn]; [lra|rewrite IH; lra]. Qed.

Lemma sumn_minus n f g : sumn n (fun i => f i - g i) = sumn n f - sumn n g.
Proof. induction n as [|n IH]; cbn [sumn]; [lra|rewrite IH; lra]. Qed.

Lemma sumn_le n f g : (forall i, (i < n)%nat -> f i <= g i) -> sumn n f <= sumn n g.
Proof.
  induction n as [|n IH]; intro H; cbn [sumn]; [lra|].
  pose proof (IH (fun i Hi => H i (Nat.lt_lt_succ_r _ _ Hi))). pose proof (H n (Nat.lt_succ_diag_r n)). lra.
Qed.

Lemma sumn_abs n f : Rabs (sumn n f) <= sumn n (fun i => Rabs (f i)).
Proof.
  induction n as [|n IH]; cbn [sumn]; [rewrite Rabs_R0; lra|].
  eapply Rle_trans; [apply Rabs_triang|]. lra.
Qed.

Lemma sumn_shift n f : sumn (S n) f = f 0%nat + sumn n (fun i => f (S i)).
Proof. induction n as [|n IH]; [cbn [sumn]; lra|]. cbn [sumn] in *. rewrite IH. lra. Qed.

Lemma sumn_swap n m (f : nat -> nat -> R) :
  sumn n (fun i => sumn m (fun j => f i j)) = sumn m (fun j => sumn n (fun i => f i j)).
Proof.
  induction n as [|n IH]; cbn [sumn]; [symmetry; apply sumn_zero|].
  rewrite IH, <- sumn_plus. reflexivity.
Qed.

Lemma rdot_sumn row a : forall j0,
  rdot row a j0 = sumn (length row) (fun j => Q2R (nth j row 0%Q) * a (j0 + j)%nat).
Proof.
  induction row as [|q row IH]; intro j0; cbn [rdot length]; [reflexivity|].
  rewrite IH, sumn_shift. cbn [nth]. rewrite Nat.add_0_r. f_equal.
  apply sumn_ext. intros j _. rewrite Nat.add_succ_r. reflexivity.
Qed.

Lemma mdot_from_sumn Sm A m : Forall (fun row => length row = m) Sm -> forall i0,
  mdot_from Sm A i0 = sumn (length Sm) (fun i => sumn m (fun j => matR Sm i j * A (i0 + i)%nat j)).
Proof.
  induction 1 as [|row Sm Hrow _ IH]; intro i0; cbn [mdot_from length]; [reflexivity|].
  rewrite IH, rdot_sumn, sumn_shift, Hrow, Nat.add_0_r. f_equal.
  apply sumn_ext. intros i _. rewrite Nat.add_succ_r. reflexivity.
Qed.

Lemma mdot_sumn Sm A n m : shape Sm n m ->
  mdot Sm A = sumn n (fun i => sumn m (fun j => matR Sm i j * A i j)).
Proof. intros [<- Hf]. apply (mdot_from_sumn Sm A m Hf 0). Qed.

(** the pairing of a sum of rank-one matrices with A is a sum of values of the quadratic form of A *)
Lemma rank1_pair_nonneg n vs A :
  psd_qf n A -> 0 <= sumn n (fun i => sumn n (fun j => rank1_at vs i j * A i j)).
Proof.
  intros [_ Hqf]. induction vs as [|v vs IH]; cbn [rank1_at].
  - rewrite sumn_all_zero; [lra|]. intros i _. apply sumn_all_zero. intros j _. lra.
  - rewrite (sumn_ext n _ (fun i => sumn n (fun j => v i * A i j * v j) + sumn n (fun j => rank1_at vs i j * A i j))).
    + rewrite sumn_plus. specialize (Hqf v). lra.
    + intros i _. rewrite <- sumn_plus. apply sumn_ext. intros j _. lra.
Qed.

Theorem psd_pairing_nonneg Sm A n : rank1sum Sm n -> psd_qf n A -> 0 <= mdot Sm A.
Proof.
  intros [Hshape [vs Hvs]] HA. rewrite (mdot_sumn Sm A n n Hshape).
  rewrite (sumn_ext n _ (fun i => sumn n (fun j => rank1_at vs i j * A i j))); [apply rank1_pair_nonneg, HA|].
  intros i Hi. apply sumn_ext. intros j Hj. rewrite Hvs by assumption. reflexivity.
Qed.

Section Gram.
  Context {E : ips}.
  Variable rho : nat -> E.

  Fixpoint lcomb (n : nat) (c : nat -> R) : E :=
    match n with O => vzero | S k => vadd (lcomb k c) (vscal (c k) (rho k)) end.

  Lemma inner_lcomb_l n c w : inner (lcomb n c) w = sumn n (fun i => c i * inner (rho i) w).
  Proof.
    induction n as [|n IH]; cbn [lcomb sumn]; [apply inner_zero_l|].
    rewrite inner_add_l, inner_scal_l, IH. reflexivity.
  Qed.

  (** |sum_i c_i rho_i|^2 is the quadratic form of the Gram matrix at c *)
  Theorem gram_psd n : psd_qf n (fun i j => inner (rho i) (rho j)).
  Proof.
    split; [intros i j _ _; apply inner_sym|]. intro c.
    pose proof (inner_pos E (lcomb n c)) as H.
    rewrite inner_lcomb_l in H.
    erewrite sumn_ext in H; [exact H|]. intros i _. cbn beta.
    rewrite inner_sym, inner_lcomb_l, <- sumn_scal. apply sumn_ext. intros j _.
    rewrite (inner_sym E (rho j)). lra.
  Qed.
End Gram.

(** against a symmetric matrix only the symmetric part of the multiplier counts *)
Lemma sym_pairing n (X A : nat -> nat -> R) :
  (forall i j, (i < n)%nat -> (j < n)%nat -> A i j = A j i) ->
  sumn n (fun i => sumn n (fun j => (X i j + X j i) * A i j))
  = 2 * sumn n (fun i => sumn n (fun j => X i j * A i j)).
Proof.
  intro HA.
  rewrite (sumn_ext n _ (fun i => sumn n (fun j => X i j * A i j) + sumn n (fun j => X j i * A i j)))
    by (intros i _; rewrite <- sumn_plus; apply sumn_ext; intros j _; lra).
  rewrite sumn_plus, (sumn_swap n n (fun i j => X j i * A i j)).
  rewrite (sumn_ext n (fun j => sumn n (fun i => X j i * A i j)) (fun j => sumn n (fun i => X j i * A j i)))
    by (intros j Hj; apply sumn_ext; intros i Hi; rewrite (HA i j Hi Hj); reflexivity).
  lra.
Qed.

Lemma mdot_sym_part u Sm (A : nat -> nat -> R) n :
  shape u n n -> shape Sm n n -> same_sym_part u Sm n ->
  (forall i j, (i < n)%nat -> (j < n)%nat -> A i j = A j i) ->
  mdot u A = mdot Sm A.
Proof.
  intros Hu HS Hsym HA. rewrite (mdot_sumn u A n n Hu), (mdot_sumn Sm A n n HS).
  apply (Rmult_eq_reg_l 2); [|lra]. rewrite <- !sym_pairing by exact HA.
  apply sumn_ext. intros i Hi. apply sumn_ext. intros j Hj. rewrite (Hsym i j Hi Hj). reflexivity.
Qed.

Definition outer (v : list Q) : list (list Q) := map (fun a => map (Qmult a) v) v.

Lemma rank1sum_outer v : rank1sum (outer v) (length v).
Proof.
  split.
  - split; [apply map_length|]. apply Forall_forall. intros row Hin.
    apply in_map_iff in Hin as [a [<- _]]. apply map_length.
  - exists [fun i => Q2R (nth i v 0%Q)]. intros i j Hi Hj. unfold matR, matq, outer. cbn [rank1_at].
    rewrite (nth_indep _ [] (map (Qmult 0) v)) by (rewrite map_length; exact Hi).
    rewrite (map_nth (fun a => map (Qmult a) v)).
    rewrite (nth_indep _ 0%Q (nth i v 0 * 0)%Q) by (rewrite map_length; exact Hj).
    rewrite (map_nth (Qmult (nth i v 0%Q))), Q2R_mult. lra.
Qed.

Lemma below_2 (P : nat -> nat -> Prop) :
  P 0%nat 0%nat -> P 0%nat 1%nat -> P 1%nat 0%nat -> P 1%nat 1%nat ->
  forall i j, (i < 2)%nat -> (j < 2)%nat -> P i j.
Proof. intros H00 H01 H10 H11 i j Hi Hj. destruct i as [|[|i]], j as [|[|j]]; try lia; assumption. Qed.

(** a symmetric 2x2 matrix [[a, b], [b, 1]] with b^2 <= a: its quadratic form is (b x + y)^2 + (a - b^2) x^2 *)
Lemma psd_qf_unit_corner A :
  A 0%nat 1%nat = A 1%nat 0%nat -> A 1%nat 1%nat = 1 -> A 0%nat 1%nat * A 0%nat 1%nat <= A 0%nat 0%nat ->
  psd_qf 2 A.
Proof.
  intros Hs H1 Hd. split; [apply below_2; congruence|]. intro c. cbn [sumn]. rewrite <- Hs, H1.
  pose proof (Rle_0_sqr (A 0%nat 1%nat * c 0%nat + c 1%nat)) as Hsq.
  assert (Hx : 0 <= (A 0%nat 0%nat - A 0%nat 1%nat * A 0%nat 1%nat) * (c 0%nat * c 0%nat))
    by (apply Rmult_le_pos; [lra|apply Rle_0_sqr]).
  unfold Rsqr in Hsq. lra.
Qed.
