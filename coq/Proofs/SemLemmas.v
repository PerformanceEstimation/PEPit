(** The algebra is faithful: every operator overload, as modelled by the dictionary operations of Model/Terms.v,
    denotes the corresponding vector-space / inner-product operation under every valuation of the leaves; hence a
    syntax tree compiled by [compileP], [compileX], [compileC] evaluates to what it denotes. *)
From Coq Require Import List Reals Qreals Lra FinFun.
From PV Require Import Base.IPS Model.Dict Model.Terms Spec.Sem Proofs.DictLemmas.
Import ListNotations.
Local Open Scope R_scope.

Lemma nat_eqb_spec a b : reflect (a = b) (Nat.eqb a b).
Proof. apply Nat.eqb_spec. Qed.

Lemma ekey_eqb_spec a b : reflect (a = b) (ekey_eqb a b).
Proof.
  destruct a as [x|i j|], b as [y|i' j'|]; cbn; try (constructor; congruence).
  - destruct (Nat.eqb_spec x y); constructor; congruence.
  - destruct (Nat.eqb_spec i i'), (Nat.eqb_spec j j'); cbn; constructor; congruence.
Qed.

Notation pND := (NoDupKeys nat).
Notation eND := (NoDupKeys ekey).

Lemma Q2R_one_div c : ~ (c == 0)%Q -> Q2R (1 / c) = 1 / Q2R c.
Proof. intros H. unfold Qdiv. rewrite Q2R_mult, Q2R_inv, Q2R_1 by exact H. reflexivity. Qed.

Lemma Q2R_qpow q n : Q2R (qpow q n) = Q2R q ^ n.
Proof. induction n as [|n IH]; cbn [qpow pow]; [apply Q2R_1|rewrite Q2R_mult, IH; reflexivity]. Qed.

Lemma Q2R_nz q : Q2R q <> 0 -> ~ (q == 0)%Q.
Proof. intros H Hz. apply H. apply Qeq_eqR in Hz. rewrite Hz. apply Q2R_0. Qed.

(** Every operator keeps the keys of its result distinct. *)
Lemma pND_scal c a : pND a -> pND (p_scal c a).
Proof. apply NoDupKeys_scale. Qed.
Lemma pND_neg a : pND a -> pND (p_neg a).
Proof. apply pND_scal. Qed.
Lemma pND_add a b : pND a -> pND b -> pND (p_add a b).
Proof.
  intros Ha Hb. unfold p_add, pmerge. apply NoDupKeys_prune.
  apply (NoDupKeys_merge nat Nat.eqb nat_eqb_spec); assumption.
Qed.
Lemma pND_sub a b : pND a -> pND b -> pND (p_sub a b).
Proof. intros; apply pND_add; [|apply pND_neg]; assumption. Qed.
Lemma pND_div a c : pND a -> pND (p_div a c).
Proof. apply pND_scal. Qed.

(** the keys of a product are the pairs [KG i j], [i] a key of [a] and [j] a key of [b] *)
Lemma keys_multiply a b :
  keys (multiply a b) = flat_map (fun i => map (KG i) (keys b)) (keys a).
Proof.
  unfold keys, multiply. induction a as [|[i v] a IH]; cbn [flat_map map fst]; [reflexivity|].
  rewrite map_app, IH, !map_map. apply (f_equal (fun l => l ++ _)), map_ext. intros [j w]. reflexivity.
Qed.

Lemma keys_multiply_NoDup a b : pND a -> pND b -> eND (multiply a b).
Proof.
  unfold NoDupKeys. rewrite keys_multiply. intros Ha Hb.
  induction (keys a) as [|i l IH]; cbn [flat_map]; [constructor|].
  apply NoDup_cons_iff in Ha as [Hi Ha]. apply NoDup_app_disjoint; [|exact (IH Ha)|].
  - apply Injective_map_NoDup; [intros j j' [= H]; exact H|exact Hb].
  - intros k H1 H2. apply in_map_iff in H1 as [j [<- _]].
    apply in_flat_map in H2 as [i' [Hi' H2]]. apply in_map_iff in H2 as [j' [[= <- _] _]].
    exact (Hi Hi').
Qed.

Lemma eND_scal c a : eND a -> eND (x_scal c a).
Proof. apply NoDupKeys_scale. Qed.
Lemma eND_neg a : eND a -> eND (x_neg a).
Proof. apply eND_scal. Qed.
Lemma eND_add a b : eND a -> eND b -> eND (x_add a b).
Proof.
  intros Ha Hb. unfold x_add, emerge. apply NoDupKeys_prune.
  apply (NoDupKeys_merge ekey ekey_eqb ekey_eqb_spec); assumption.
Qed.
Lemma eND_adds a c : eND a -> eND (x_adds a c).
Proof. intros Ha. exact (eND_add a [(K1, c)] Ha (NoDupKeys_single ekey K1 c)). Qed.
Lemma eND_sub a b : eND a -> eND b -> eND (x_sub a b).
Proof. intros; apply eND_add; [|apply eND_neg]; assumption. Qed.
Lemma eND_subs a c : eND a -> eND (x_subs a c).
Proof. apply eND_adds. Qed.
Lemma eND_ssub c a : eND a -> eND (x_ssub c a).
Proof. intros; apply eND_neg, eND_subs; assumption. Qed.
Lemma eND_div a c : eND a -> eND (x_div a c).
Proof. apply eND_scal. Qed.

(** The expression operators under any valuation [val] of the keys; [evalE] and the Gram reading
    [evalGF] are both [dsum ekey val], by conversion. *)
Section Val.
  Variable val : ekey -> R.
  Notation xval := (dsum ekey val).

  Lemma xval_add a b : eND a -> eND b -> xval (x_add a b) = xval a + xval b.
  Proof.
    intros Ha Hb. unfold x_add, emerge. rewrite dsum_prune.
    apply (dsum_merge ekey ekey_eqb ekey_eqb_spec); assumption.
  Qed.
  Lemma xval_scal c a : xval (x_scal c a) = Q2R c * xval a.
  Proof. apply dsum_scale. Qed.
  Lemma xval_sub a b : eND a -> eND b -> xval (x_sub a b) = xval a - xval b.
  Proof.
    intros Ha Hb. unfold x_sub, x_neg.
    rewrite xval_add, xval_scal, Q2R_m1 by (assumption || apply NoDupKeys_scale; assumption). lra.
  Qed.
End Val.

Section Ops.
  Context {E : ips}.
  Variable rho : nat -> E.
  Variable phi : nat -> R.

  Notation evalP := (evalP rho).
  Notation evalE := (evalE rho phi).
  Notation evalK := (evalK rho phi).

  Lemma inner_evalP d w : inner (evalP d) w = dsum nat (fun k => inner (rho k) w) d.
  Proof.
    induction d as [|[k q] d IH]; cbn [Sem.evalP dsum].
    - apply inner_zero_l.
    - rewrite inner_add_l, inner_scal_l, IH. reflexivity.
  Qed.

  Lemma evalE_dsum d : evalE d = dsum ekey evalK d.
  Proof. reflexivity. Qed.

  Lemma evalP_prune d : veq (evalP (prune d)) (evalP d).
  Proof. intros w. rewrite !inner_evalP. apply dsum_prune. Qed.
  Lemma evalE_prune d : evalE (prune d) = evalE d.
  Proof. rewrite !evalE_dsum. apply dsum_prune. Qed.

  (** points: the operators under [evalP] *)
  Lemma evalP_add a b : pND a -> pND b -> veq (evalP (p_add a b)) (vadd (evalP a) (evalP b)).
  Proof.
    intros Ha Hb w. unfold p_add, pmerge. rewrite inner_add_l, !inner_evalP, dsum_prune.
    apply (dsum_merge nat Nat.eqb nat_eqb_spec); assumption.
  Qed.

  Lemma evalP_scal c a : veq (evalP (p_scal c a)) (vscal (Q2R c) (evalP a)).
  Proof. intros w. unfold p_scal. rewrite inner_scal_l, !inner_evalP, dsum_scale. reflexivity. Qed.

  Lemma evalP_neg a : veq (evalP (p_neg a)) (vneg (evalP a)).
  Proof. intros w. unfold p_neg. rewrite (evalP_scal (-1) a w), Q2R_m1. reflexivity. Qed.

  Lemma evalP_sub a b : pND a -> pND b -> veq (evalP (p_sub a b)) (vsub (evalP a) (evalP b)).
  Proof.
    intros Ha Hb. unfold p_sub. eapply veq_trans; [apply evalP_add; [assumption|apply pND_neg; assumption]|].
    apply veq_add; [apply veq_refl|apply evalP_neg].
  Qed.

  Lemma evalP_div a c : ~ (c == 0)%Q -> veq (evalP (p_div a c)) (vscal (1 / Q2R c) (evalP a)).
  Proof. intros H w. unfold p_div. rewrite (evalP_scal (1 / c) a w), Q2R_one_div by exact H. reflexivity. Qed.

  (** inner products: [multiply] under [evalE] *)
  Lemma evalE_multiply a b : evalE (multiply a b) = inner (evalP a) (evalP b).
  Proof.
    unfold multiply. induction a as [|[k1 v1] a IH]; cbn [flat_map Sem.evalP].
    - rewrite inner_zero_l. reflexivity.
    - rewrite evalE_dsum, dsum_app, <- !evalE_dsum, IH, inner_add_l, inner_scal_l. apply Rplus_eq_compat_r.
      clear IH. induction b as [|[k2 v2] b IHb]; cbn [map Sem.evalE Sem.evalP].
      + rewrite inner_zero_r. lra.
      + rewrite IHb, inner_add_r, inner_scal_r, Q2R_mult. cbn [Sem.evalK]. lra.
  Qed.

  (** expressions: the operators under [evalE] *)
  Lemma evalE_add a b : eND a -> eND b -> evalE (x_add a b) = evalE a + evalE b.
  Proof. exact (xval_add evalK a b). Qed.
  Lemma evalE_adds a c : eND a -> evalE (x_adds a c) = evalE a + Q2R c.
  Proof.
    intros Ha. change (x_adds a c) with (x_add a [(K1, c)]).
    rewrite evalE_add by (assumption || apply NoDupKeys_single). cbn. lra.
  Qed.
  Lemma evalE_scal c a : evalE (x_scal c a) = Q2R c * evalE a.
  Proof. exact (xval_scal evalK c a). Qed.
  Lemma evalE_neg a : evalE (x_neg a) = - evalE a.
  Proof. unfold x_neg. rewrite evalE_scal, Q2R_m1. lra. Qed.

  Lemma evalE_sub a b : eND a -> eND b -> evalE (x_sub a b) = evalE a - evalE b.
  Proof. exact (xval_sub evalK a b). Qed.
  Lemma evalE_subs a c : eND a -> evalE (x_subs a c) = evalE a - Q2R c.
  Proof. intros Ha. unfold x_subs. rewrite evalE_adds, Q2R_opp by assumption. lra. Qed.
  Lemma evalE_ssub c a : eND a -> evalE (x_ssub c a) = Q2R c - evalE a.
  Proof. intros Ha. unfold x_ssub. rewrite evalE_neg, evalE_subs by assumption. lra. Qed.
  Lemma evalE_div a c : ~ (c == 0)%Q -> evalE (x_div a c) = evalE a / Q2R c.
  Proof. intros H. unfold x_div. rewrite evalE_scal, Q2R_one_div by exact H. lra. Qed.

  (** comparisons, one lemma per overload: the expression is left-minus-right (resp. right-minus-left for >=) *)
  Lemma evalE_c_le a b : eND a -> eND b -> evalE (fst (c_le a b)) = evalE a - evalE b.
  Proof. apply evalE_sub. Qed.
  Lemma evalE_c_ge a b : eND a -> eND b -> evalE (fst (c_ge a b)) = evalE b - evalE a.
  Proof.
    intros Ha Hb. unfold c_ge, c_le; cbn [fst].
    rewrite evalE_sub, !evalE_neg by (apply eND_neg; assumption). lra.
  Qed.
  Lemma evalE_c_eq a b : eND a -> eND b -> evalE (fst (c_eq a b)) = evalE a - evalE b.
  Proof. apply evalE_sub. Qed.
  Lemma evalE_c_les a c : eND a -> evalE (fst (c_les a c)) = evalE a - Q2R c.
  Proof. apply evalE_subs. Qed.
  Lemma evalE_c_ges a c : eND a -> evalE (fst (c_ges a c)) = Q2R c - evalE a.
  Proof.
    intros Ha. unfold c_ges, c_les; cbn [fst].
    rewrite evalE_subs, evalE_neg, Q2R_opp by (apply eND_neg; assumption). lra.
  Qed.
  Lemma evalE_c_eqs a c : eND a -> evalE (fst (c_eqs a c)) = evalE a - Q2R c.
  Proof. apply evalE_subs. Qed.
End Ops.

(** syntax trees: [compileP] then [evalP] is [denoteP], [compileX] then [evalE] is [denoteX]; comparisons below *)
Section Trees.
  Context {E : ips}.
  Variable rho : nat -> E.
  Variable phi : nat -> R.
  Variable penv : nat -> Q.
  Variable vp : nat -> pdict.
  Variable vx : nat -> edict.
  Hypothesis vp_wf : forall v, pND (vp v).
  Hypothesis vx_wf : forall v, eND (vx v).

  Let penvR := fun p => Q2R (penv p).
  Let up := fun v => evalP rho (vp v).
  Let ux := fun v => evalE rho phi (vx v).

  Notation sden := (sdenote penvR).
  Notation sdf := (sdef penvR).

  Lemma seval_denote s : sdf s -> Q2R (seval penv s) = sden s.
  Proof.
    induction s as [q|p|a IHa b IHb|a IHa b IHb|a IHa b IHb|a IHa b IHb|a IHa|a IHa n];
      cbn [seval sdenote sdef]; intros H.
    - reflexivity.
    - reflexivity.
    - destruct H. rewrite Q2R_plus, IHa, IHb by assumption. reflexivity.
    - destruct H. rewrite Q2R_minus, IHa, IHb by assumption. reflexivity.
    - destruct H. rewrite Q2R_mult, IHa, IHb by assumption. reflexivity.
    - destruct H as (Ha & Hb & Hnz). rewrite Q2R_div, IHa, IHb; try assumption.
      + reflexivity.
      + apply Q2R_nz. rewrite IHb by assumption. exact Hnz.
    - rewrite Q2R_opp, IHa by assumption. reflexivity.
    - rewrite Q2R_qpow, IHa by assumption. reflexivity.
  Qed.

  Lemma compileP_wf t : pND (compileP penv vp t).
  Proof. induction t; cbn [compileP]; auto using pND_add, pND_sub, pND_neg, pND_scal, pND_div. Qed.

  Lemma compileP_denote t :
    pdef penvR t -> veq (evalP rho (compileP penv vp t)) (denoteP penvR up t).
  Proof.
    induction t as [v|a IHa b IHb|a IHa b IHb|a IHa|s a IHa|a IHa s];
      cbn [compileP denoteP pdef]; intros H.
    - apply veq_refl.
    - destruct H. eapply veq_trans; [apply evalP_add; apply compileP_wf|]. apply veq_add; auto.
    - destruct H. eapply veq_trans; [apply evalP_sub; apply compileP_wf|]. apply veq_sub; auto.
    - eapply veq_trans; [apply evalP_neg|]. apply veq_neg; auto.
    - destruct H as [Hs Ha]. eapply veq_trans; [apply evalP_scal|].
      rewrite seval_denote by assumption. apply veq_scal; auto.
    - destruct H as (Ha & Hs & Hnz). eapply veq_trans; [apply evalP_div|].
      + apply Q2R_nz. rewrite seval_denote by assumption. exact Hnz.
      + rewrite seval_denote by assumption. apply veq_scal; auto.
  Qed.

  Lemma compileX_wf t : eND (compileX penv vp vx t).
  Proof.
    induction t; cbn [compileX];
      auto using eND_add, eND_adds, eND_sub, eND_subs, eND_ssub, eND_neg, eND_scal, eND_div,
                 keys_multiply_NoDup, compileP_wf.
  Qed.

  Lemma compileX_denote t :
    xdef penvR t -> evalE rho phi (compileX penv vp vx t) = denoteX penvR up ux t.
  Proof.
    induction t as [v|a b|a|a IHa b IHb|a IHa s|a IHa b IHb|a IHa s|s a IHa|a IHa|s a IHa|a IHa s];
      cbn [compileX denoteX xdef]; intros H.
    - reflexivity.
    - destruct H. rewrite evalE_multiply. apply veq_inner; apply compileP_denote; assumption.
    - rewrite evalE_multiply. apply veq_inner; apply compileP_denote; assumption.
    - destruct H. rewrite evalE_add, IHa, IHb by (assumption || apply compileX_wf). reflexivity.
    - destruct H. rewrite evalE_adds, IHa, seval_denote by (assumption || apply compileX_wf). reflexivity.
    - destruct H. rewrite evalE_sub, IHa, IHb by (assumption || apply compileX_wf). reflexivity.
    - destruct H. rewrite evalE_subs, IHa, seval_denote by (assumption || apply compileX_wf). reflexivity.
    - destruct H. rewrite evalE_ssub, IHa, seval_denote by (assumption || apply compileX_wf). reflexivity.
    - rewrite evalE_neg, IHa by assumption. reflexivity.
    - destruct H. rewrite evalE_scal, IHa, seval_denote by assumption. reflexivity.
    - destruct H as (Ha & Hs & Hnz). rewrite evalE_div, IHa, seval_denote; try assumption.
      + reflexivity.
      + apply Q2R_nz. rewrite seval_denote by assumption. exact Hnz.
  Qed.

  (** A comparison compiles to the subtraction it abbreviates: Python builds [Constraint(self - other)],
      turns [>=] into [<=] between the negations, and a scalar on the left into the mirrored comparison. *)
  Definition diffC (t : cterm) : xterm * sense :=
    match t with
    | CLe a b => (XSub a b, Ineq)
    | CGe a b => (XSub (XNeg a) (XNeg b), Ineq)
    | CEq a b => (XSub a b, Equ)
    | CLeS a s | CSGe s a => (XSubS a s, Ineq)
    | CGeS a s | CSLe s a => (XSubS (XNeg a) (SNeg s), Ineq)
    | CEqS a s | CSEq s a => (XSubS a s, Equ)
    end.

  Lemma compileC_diffC t :
    compileC penv vp vx t = (compileX penv vp vx (fst (diffC t)), snd (diffC t)).
  Proof. destruct t; reflexivity. Qed.

  (** The constraint object built by a comparison: its expression is left-minus-right (right-minus-
      left for >=) and its sense is the one written. *)
  Lemma compileC_denote t :
    cdef penvR t ->
    (evalE rho phi (fst (compileC penv vp vx t)), snd (compileC penv vp vx t))
    = lhs_minus_rhs penvR up ux t.
  Proof.
    intros H. rewrite compileC_diffC. cbn [fst snd]. rewrite compileX_denote by (destruct t; exact H).
    destruct t; cbn [diffC fst snd lhs_minus_rhs denoteX sdenote]; try reflexivity;
      apply (f_equal (fun r => (r, _))); lra.
  Qed.

  Lemma compileC_wf t : eND (fst (compileC penv vp vx t)).
  Proof. rewrite compileC_diffC. apply compileX_wf. Qed.

  (** A compiled constraint holds at a valuation iff the comparison written in the source holds. *)
  Theorem compileC_holds t :
    cdef penvR t -> (holds rho phi (compileC penv vp vx t) <-> denoteC penvR up ux t).
  Proof.
    intros H. pose proof (compileC_denote t H) as D.
    pose proof (f_equal fst D) as D1. pose proof (f_equal snd D) as D2. cbn [fst snd] in D1, D2.
    unfold holds. rewrite D1, D2.
    destruct t; cbn [lhs_minus_rhs denoteC fst snd]; lra.
  Qed.
End Trees.
