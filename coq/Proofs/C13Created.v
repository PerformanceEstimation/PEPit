(** C13: the guard of C13_fresh_partial, on the state BEFORE the solve.  The objects the
    pipeline creates at a solve (class constraints, class LMIs and their entries, partition
    constraints, metric rows) hold no cache and refer to freshly created expressions only ([grows]); the
    old objects are untouched.  Hence an object that is [clean] stays [clean] up to the solver call, and
    every new one is.  The guard has a decidable form, [cleanb]. *)
From Coq Require Import List Bool.
From PV Require Import Model.Dict Model.Terms Model.Dump Model.Sent Model.Eval Model.Resolve
  Proofs.C02Cache Proofs.C13Sent.
Import ListNotations.
Local Open Scope nat_scope.

Lemma clean_new_obj st k x : clean st x -> Forall (fresh_expr st) (refs_of k) -> clean (new_obj st k) x.
Proof.
  intros C F.
  assert (K : forall r' o', (get_obj st r' = Some o' -> ocache o' = None) ->
              get_obj (new_obj st k) r' = Some o' -> ocache o' = None).
  { intros r' o' H Ho'. apply get_obj_new_obj in Ho' as [Ho'|[_ ->]]; [auto|reflexivity]. }
  intros o Ho. apply get_obj_new_obj in Ho as [Ho|[-> ->]].
  - destruct (C o Ho) as [Hc Hr]. split; [exact Hc|]. intros r' Hin o'. apply K, Hr, Hin.
  - split; [reflexivity|]. intros r' Hin o'. apply K. rewrite Forall_forall in F.
    apply fresh_expr_cache, F, Hin.
Qed.

Lemma grows_clean st st' x : grows st st' -> clean st x -> clean st' x.
Proof. induction 1 as [|st' k G IH F]; intro C; [exact C|]. apply clean_new_obj; auto. Qed.

(** the guard is decidable *)
Definition cache_none (st : est) (r : nat) : bool :=
  match get_obj st r with Some o => match ocache o with None => true | Some _ => false end | None => true end.
Definition cleanb (st : est) (x : nat) : bool :=
  match get_obj st x with
  | None => true
  | Some o => cache_none st x &&
              forallb (fun e => match e with ERef r' => cache_none st r' | ELeaf _ => true end) (refs_of (okind_of o))
  end.
Lemma cleanb_clean st x : cleanb st x = true -> clean st x.
Proof.
  unfold cleanb, clean. intros H o Ho. rewrite Ho in H. apply andb_true_iff in H as [H1 H2].
  unfold cache_none in H1. rewrite Ho in H1. split; [destruct (ocache o); [discriminate|reflexivity]|].
  intros r' Hin o' Ho'. rewrite forallb_forall in H2. specialize (H2 _ Hin). cbn in H2.
  unfold cache_none in H2. rewrite Ho' in H2. destruct (ocache o'); [discriminate|reflexivity].
Qed.
