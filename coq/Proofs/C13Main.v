(** C13: the metric rows at a fresh objective index, the invariants of every run, what the ops
    do to the store, coherence of an object along a run without solves, duals of the latest solve, and
    the programs of the refutations (stale caches, failed solve). *)
From Coq Require Import List QArith Lia.
From PV Require Import Model.Dict Model.Terms Model.Dump Model.Sent Model.Eval Model.Resolve
  Proofs.C02Cache Proofs.C13Sent.
Import ListNotations.
Local Open Scope nat_scope.

Lemma ekey_eqb_true a b : ekey_eqb a b = true -> a = b.
Proof.
  destruct a as [x|i j|], b as [y|i' j'|]; cbn; try discriminate; intro H.
  - apply Nat.eqb_eq in H. congruence.
  - apply andb_true_iff in H as [H1 H2]. apply Nat.eqb_eq in H1. apply Nat.eqb_eq in H2. congruence.
  - reflexivity.
Qed.
Lemma ekey_eqb_refl a : ekey_eqb a a = true.
Proof. destruct a; cbn; rewrite ?Nat.eqb_refl; reflexivity. Qed.

Lemma nokey_cons o k v d : nokey o ((k, v) :: d) ->
  ekey_eqb (KF o) k = false /\ ekey_eqb k (KF o) = false /\ nokey o d.
Proof.
  intro H. repeat split; [destruct (ekey_eqb (KF o) k) eqn:E|destruct (ekey_eqb k (KF o)) eqn:E|]; try reflexivity.
  - exfalso. apply H. left. symmetry. apply ekey_eqb_true, E.
  - exfalso. apply H. left. apply ekey_eqb_true, E.
  - intro Hin. apply H. right. exact Hin.
Qed.
Lemma lookup_nokey o d : nokey o d -> lookup ekey_eqb (KF o) d = None.
Proof.
  induction d as [|[k v] d IH]; intro H; cbn [lookup]; [reflexivity|].
  apply nokey_cons in H as (-> & _ & H). apply IH, H.
Qed.
Lemma filter_nokey o q d : nokey o d -> filter (fun '(k, _) => negb (mem ekey_eqb k [(KF o, q)])) d = d.
Proof.
  induction d as [|[k v] d IH]; intro H; cbn [filter]; [reflexivity|].
  apply nokey_cons in H as (_ & E & H). unfold mem at 1. cbn [lookup]. rewrite E, (IH H). reflexivity.
Qed.
Lemma keys_x_neg m : keys (x_neg m) = keys m.
Proof.
  unfold keys, x_neg, x_scal, scale. rewrite map_map. apply map_ext. intros [k v]. reflexivity.
Qed.

(** [tau - m <= 0] is the pair [(tau, 1)] followed by the pruned negation of [m] *)
Lemma metric_row_fresh o m : nokey o m ->
  fst (c_le [(KF o, 1%Q)] m) = (KF o, 1%Q) :: prune (x_neg m).
Proof.
  intro H. assert (Hn : nokey o (x_neg m)) by (unfold nokey; rewrite keys_x_neg; exact H).
  unfold c_le, x_sub, x_add, emerge, merge. cbn [fst map].
  rewrite (lookup_nokey o _ Hn), (filter_nokey o _ _ Hn). reflexivity.
Qed.

Definition rest_of (d : decl) : sent :=
  d_conds d ++ d_psds d ++ flat_map items_of_ftempl (d_ftem d) ++ d_own d ++ flat_map items_of_ptempl (d_ptem d).

(** "the same data up to the index of the fresh objective leaf" *)
Theorem sent_of_fresh_form d o : (forall m, In m (d_metrics d) -> nokey o m) ->
  sent_of d o = map (fun m => SC ((KF o, 1%Q) :: prune (x_neg m)) Ineq) (d_metrics d) ++ rest_of d.
Proof.
  intro H. unfold sent_of, rest_of. f_equal. apply map_ext_in. intros m Hm.
  rewrite metric_row_fresh by (apply H, Hm). reflexivity.
Qed.

Theorem counts_indep d o o' :
  (forall m, In m (d_metrics d) -> nokey o m /\ nokey o' m) ->
  map shape (sent_of d o) = map shape (sent_of d o').
Proof.
  intro H. rewrite !sent_of_fresh_form by (intros m Hm; apply H, Hm).
  rewrite !map_app, !map_map. reflexivity.
Qed.

Lemma valid_ehb_ok st e : valid_ehb st e = true -> eh_ok st e.
Proof.
  destruct e as [id|r]; cbn [valid_ehb eh_ok].
  - apply Nat.ltb_lt.
  - unfold is_expr. destruct (get_obj st r) as [o|]; [|discriminate].
    destruct (okind_of o) eqn:Hk; try discriminate. eauto.
Qed.
Lemma valid_rows_ok st m : forallb (fun row => forallb (valid_ehb st) row) m = true ->
  forall row, In row m -> forall e, In e row -> eh_ok st e.
Proof.
  intros H row Hr e He. rewrite forallb_forall in H. specialize (H row Hr).
  rewrite forallb_forall in H. apply valid_ehb_ok, H, He.
Qed.
Lemma item_okb_ok st r : item_okb st r = true -> item_ok st r.
Proof.
  unfold item_okb, item_ok. destruct (get_obj st r) as [o|]; [|discriminate]. intro H. exists o.
  split; [reflexivity|]. destruct (okind_of o); try discriminate; [apply valid_ehb_ok, H|apply valid_rows_ok, H].
Qed.

Definition wf_edict (st : est) (d : edict) : Prop := wf_edictb st d = true.
Lemma ltb_le x a b : a <= b -> (x <? a) = true -> (x <? b) = true.
Proof. rewrite !Nat.ltb_lt. lia. Qed.
Lemma wf_edict_mono st st' d : le_st st st' -> wf_edict st d -> wf_edict st' d.
Proof.
  intro L. destruct (le_st_leaves _ _ L) as [L1 L2]. unfold wf_edict, wf_edictb. rewrite !forallb_forall. intros H [k v] Hin.
  specialize (H (k, v) Hin). cbn beta iota in *. destruct k as [e|i j|]; cbn [wf_ekeyb] in *.
  - exact (ltb_le _ _ _ L2 H).
  - apply andb_true_iff in H as [H1 H2]. rewrite (ltb_le _ _ _ L1 H1), (ltb_le _ _ _ L1 H2). reflexivity.
  - reflexivity.
Qed.
Lemma wf_edict_nokey st d : wf_edict st d -> forall o, length (lev st) <= o -> nokey o d.
Proof.
  unfold wf_edict, wf_edictb, nokey, keys. rewrite forallb_forall. intros H o Ho Hin.
  apply in_map_iff in Hin as ([k v] & Hk & Hin). cbn in Hk. subst k. specialize (H _ Hin). cbn in H.
  apply Nat.ltb_lt in H. lia.
Qed.

(** the metric dictionaries mention registered leaves only: the next objective leaf is fresh *)
Definition mfresh (s : pst) : Prop := Forall (fun e => wf_edict (es s) (dict_of_eh (es s) e)) (metrics s).
Definition inv (s : pst) : Prop := closed s /\ mfresh s.

Lemma inv_fresh s : inv s -> forall m, In m (d_metrics (decl_of s)) -> nokey (length (lev (es s))) m.
Proof.
  intros [_ F] m Hm. cbn [decl_of d_metrics] in Hm. apply in_map_iff in Hm as (e & <- & He).
  unfold mfresh in F. rewrite Forall_forall in F. eapply wf_edict_nokey; [apply F, He|lia].
Qed.

(** own items of the functions: the filter "has an own constraint OR an own LMI" drops nothing *)
Theorem own_refs_all s : own_refs s = flat_map (fun f => fst f ++ snd f) (fown s).
Proof.
  unfold own_refs. induction (fown s) as [|[cs ls] l IH]; cbn [filter flat_map]; [reflexivity|].
  destruct cs as [|c cs], ls as [|m ls]; cbn [has_own fst snd negb orb flat_map]; rewrite IH; reflexivity.
Qed.

Lemma inv_mk st ms cs ps ft pt fc pc ob ws fo :
  Forall (eh_ok st) ms -> Forall (item_ok st) cs -> Forall (item_ok st) ps ->
  Forall (item_ok st) (flat_map (fun f => fst f ++ snd f) fo) ->
  Forall (fun e => wf_edict st (dict_of_eh st e)) ms -> inv (mkPst st ms cs ps ft pt fc pc ob ws fo).
Proof. intros Cm Cc Cp Co F. split; [|exact F]. repeat split; try assumption. rewrite own_refs_all. exact Co. Qed.

(** the invariant and the declared model survive whatever leaves the lists of the PEP alone *)
Lemma same_lists_le s s' : le_st (es s) (es s') -> same_lists s s' -> inv s ->
  inv s' /\ decl_of s' = decl_of s.
Proof.
  intros L (Hm & Hc & Hp & Hf & Hq & Ho) [(Cm & Cc & Cp & Co) F].
  destruct (sends_old _ _ _ L Cc) as [Ec Oc], (sends_old _ _ _ L Cp) as [Ep Op], (sends_old _ _ _ L Co) as [Eo Oo].
  pose proof (dict_row_mono _ _ _ L Cm) as Em. rewrite own_refs_all in Oo.
  destruct s' as [st' ms cs ps ft pt fc pc ob ws fo]. cbn [es metrics conds psds ftem ptem fown] in *. subst. split.
  - apply inv_mk; try assumption.
    + eapply Forall_impl; [|exact Cm]. intro e. apply eh_ok_mono, L.
    + eapply Forall_impl; [|exact (Forall_and Cm F)]. intros e [He We]. cbn beta.
      rewrite (dict_of_eh_mono _ _ e L He). exact (wf_edict_mono _ _ _ L We).
  - unfold decl_of. cbn [es metrics conds psds ftem ptem]. unfold own_refs in Eo |- *. cbn [fown]. rewrite Em, Ec, Ep, Eo. reflexivity.
Qed.

Definition editing (o : op) : bool :=
  match o with
  | AddCond _ | DelCond _ | AddMetric _ | AddPsd _ | SetTemplates _ _ | DeclFun | FAddCons _ _ | FAddPsd _ _ => true
  | _ => false
  end.
Definition quiet (o : op) : bool := match o with Solve _ | SolveH _ _ => false | _ => true end.

(** what one op does to the store, in the cases the proofs about a step distinguish.  A [destruct] of
    [step_cases] gives them in this order: same, edit, leafP, leafE, obj, eval, solve. *)
Inductive stepped (s : pst) (o : op) : pst -> Prop :=
| st_same : stepped s o s
| st_edit s' : editing o = true -> es s' = es s -> stepped s o s'
| st_leafP : stepped s o (with_es s (new_leafP (es s)))
| st_leafE : stepped s o (with_es s (new_leafE (es s)))
| st_obj k : (forall e, In e (refs_of k) -> eh_ok (es s) e) -> stepped s o (with_es s (new_obj (es s) k))
| st_eval r : stepped s o (with_es s (fst (eval_obj (es s) r)))
| st_solve a : quiet o = false -> stepped s o (solve s a).

Lemma step_cases s o : stepped s o (fst (step s o)).
Proof.
  unfold step. destruct (valid_op s o) eqn:V; [|constructor].
  destruct o; cbn [step_valid fst]; cbn [valid_op] in V;
    try (constructor; reflexivity || (intros e []) || fail).
  - (* MkCons *) apply st_obj. intros e0 [<-|[]]. apply valid_ehb_ok, V.
  - (* MkLmi *) apply st_obj. cbn [refs_of]. intros e He. apply in_concat in He as (row & Hr & He).
    exact (valid_rows_ok _ _ V row Hr e He).
  - (* Eval *) replace (fst _) with (with_es s (fst (eval_obj (es s) r))) by (destruct (eval_obj (es s) r); reflexivity).
    apply st_eval.
Qed.

Lemma step_le s o : le_st (es s) (es (fst (step s o))).
Proof.
  destruct (step_cases s o) as [|s' _ ->| | |k Hk|r|a _].
  - (* same *) apply le_st_refl.
  - (* edit *) apply le_st_refl.
  - (* leafP *) apply le_st_new_leafP.
  - (* leafE *) apply le_st_new_leafE.
  - (* obj *) apply le_st_new_obj, Hk.
  - (* eval *) apply le_st_frame, eval_frame.
  - (* solve *) apply solve_le.
Qed.

Lemma step_lists s o : editing o = false -> same_lists s (fst (step s o)).
Proof.
  intro E. destruct (step_cases s o) as [|s' E' _| | |k _|r|a _].
  - (* same *) repeat split.
  - (* edit *) congruence.
  - (* leafP *) repeat split.
  - (* leafE *) repeat split.
  - (* obj *) repeat split.
  - (* eval *) repeat split.
  - (* solve *) apply solve_lists.
Qed.

Lemma step_keeps s o : editing o = false -> inv s ->
  inv (fst (step s o)) /\ decl_of (fst (step s o)) = decl_of s.
Proof. intros E I. apply same_lists_le; [apply step_le|apply step_lists, E|exact I]. Qed.

Lemma Forall_snoc {A} (P : A -> Prop) l x : Forall P l -> P x -> Forall P (l ++ [x]).
Proof. intros H Hx. apply Forall_app. split; [exact H|constructor; [exact Hx|constructor]]. Qed.
Lemma Forall_upd_nth {A} (P : A -> Prop) F n : forall l, Forall P l -> (forall a, P a -> P (F a)) ->
  Forall P (upd_nth F n l).
Proof.
  induction n as [|n IH]; intros [|a l] H HF; cbn [upd_nth]; try constructor; inversion H; subst; auto.
Qed.

Lemma step_inv s o : inv s -> inv (fst (step s o)).
Proof.
  intro I. destruct (editing o) eqn:E; [|apply step_keeps; assumption].
  unfold step. destruct (valid_op s o) eqn:V; [|exact I].
  destruct I as [(Cm & Cc & Cp & Co) F]. rewrite own_refs_all in Co. unfold mfresh in F.
  destruct o; try discriminate E; cbn [step_valid fst]; cbn [valid_op] in V; apply inv_mk; try assumption.
  - (* AddCond *) apply andb_true_iff in V as [_ V]. apply Forall_snoc; [exact Cc|apply item_okb_ok, V].
  - (* DelCond *) eapply incl_Forall; [apply incl_filter|exact Cc].
  - (* AddMetric *) apply andb_true_iff in V as [V _]. apply Forall_snoc; [exact Cm|apply valid_ehb_ok, V].
  - apply andb_true_iff in V as [_ V]. apply Forall_snoc; [exact F|exact V].
  - (* AddPsd *) apply andb_true_iff in V as [_ V]. apply Forall_snoc; [exact Cp|apply item_okb_ok, V].
  - (* DeclFun *) rewrite flat_map_app. apply Forall_app. split; [exact Co|constructor].
  - (* FAddCons *) apply andb_true_iff in V as [_ V]. apply andb_true_iff in V as [_ V]. apply item_okb_ok in V.
    apply Forall_flat_map, Forall_upd_nth; [apply Forall_flat_map, Co|]. intros [cs ls] H. cbn [fst snd] in *.
    apply Forall_app in H as [H1 H2]. apply Forall_app. split; [apply Forall_snoc; assumption|exact H2].
  - (* FAddPsd *) apply andb_true_iff in V as [_ V]. apply andb_true_iff in V as [_ V]. apply item_okb_ok in V.
    apply Forall_flat_map, Forall_upd_nth; [apply Forall_flat_map, Co|]. intros [cs ls] H. cbn [fst snd] in *.
    apply Forall_app in H as [H1 H2]. apply Forall_app. split; [exact H1|apply Forall_snoc; assumption].
Qed.

Lemma run_cons s o ops : fst (run s (o :: ops)) = fst (run (fst (step s o)) ops).
Proof. cbn [run]. destruct (step s o) as [s1 d]. cbn [fst]. destruct (run s1 ops). reflexivity. Qed.

Lemma run_preserves (ok : op -> bool) (P : pst -> Prop) :
  (forall s o, ok o = true -> P s -> P (fst (step s o))) ->
  forall ops s, forallb ok ops = true -> P s -> P (fst (run s ops)).
Proof.
  intro H. induction ops as [|o ops IH]; intros s E Hs; [exact Hs|].
  cbn [forallb] in E. apply andb_true_iff in E as [E1 E2]. rewrite run_cons. apply IH; [exact E2|apply H; assumption].
Qed.

Lemma run_le : forall ops s, le_st (es s) (es (fst (run s ops))).
Proof.
  induction ops as [|o ops IH]; intro s; [apply le_st_refl|]. rewrite run_cons.
  eapply le_st_trans; [apply step_le|apply IH].
Qed.

Lemma run_inv : forall ops s, inv s -> inv (fst (run s ops)).
Proof. induction ops as [|o ops IH]; intros s I; [exact I|]. rewrite run_cons. apply IH, step_inv, I. Qed.

Lemma inv0 : inv pst0.
Proof. split; [split; [|split; [|split]]|]; constructor. Qed.

(** without an edit of the model the declaration stays *)
Lemma run_keeps s ops : forallb (fun o => negb (editing o)) ops = true -> inv s ->
  inv (fst (run s ops)) /\ decl_of (fst (run s ops)) = decl_of s.
Proof.
  intros E I. apply (run_preserves (fun o => negb (editing o)) (fun s' => inv s' /\ decl_of s' = decl_of s));
    [|exact E|split; [exact I|reflexivity]].
  intros s1 o Ho [I1 D1]. apply negb_true_iff in Ho. destruct (step_keeps s1 o Ho I1) as [I2 D2].
  split; [exact I2|congruence].
Qed.

Definition sent_at (s : pst) : sent := map (item_of (es s)) (wsent s).

(** ** every reference inside a stored constraint / LMI points to an existing derived expression *)
Definition store_ok (st : est) : Prop :=
  forall r o e, get_obj st r = Some o -> In e (refs_of (okind_of o)) -> eh_ok st e.

Lemma le_store_ok st st' : le_st st st' -> store_ok st -> store_ok st'.
Proof.
  intros L S r o' e. apply (le_st_refs st st' r o' e L). intro o. apply S.
Qed.

Theorem final_store_ok ops : store_ok (es (final ops)).
Proof. apply (le_store_ok est0); [apply (run_le ops pst0)|]. intros r o e H. destruct r; discriminate. Qed.

(** a coherent object stays coherent when the leaf lookups and the existing objects stay as they are
    (a new leaf, a new object); [store_ok]: no reference of the object waits for an object yet to come *)
Lemma good_agree m st st' y oy :
  leaf_eq st st' -> (forall r o, get_obj st r = Some o -> get_obj st' r = Some o) ->
  store_ok st -> get_obj st y = Some oy -> good m st y -> good m st' y.
Proof.
  intros L A S Hy. pose proof (A y oy Hy) as Hy'.
  assert (Pe : forall e, In e (refs_of (okind_of oy)) -> pure_eh st' e = pure_eh st e).
  { intros [id|r] Hin; cbn [pure_eh]; [apply L|].
    destruct (S y oy _ Hy Hin) as (o & d & Ho & Hd). rewrite Ho, (A r o Ho), Hd. apply expr_compute_ext, L. }
  apply good_mono.
  - intros o' Ho'. rewrite Hy' in Ho'. injection Ho' as <-. eauto.
  - intros Cy o v Ho Hc. rewrite Hy' in Ho. injection Ho as <-.
    rewrite (pure_obj_ext m st st') by assumption. exact (Cy oy v Hy Hc).
  - intros o0 r Ho0 Hin C o2 d2 v Ho2 Hk2 Hc2. rewrite Hy in Ho0. injection Ho0 as <-.
    destruct (S y oy _ Hy Hin) as (o & d & Ho & _). rewrite (A r o Ho) in Ho2. injection Ho2 as <-.
    rewrite (expr_compute_ext st st') by exact L. exact (C o d2 v Ho Hk2 Hc2).
Qed.

(** appending an unassigned leaf changes no lookup *)
Lemma lookup_snoc_None {A B} (f : A -> B) (d : B) (l : list (option A)) k :
  match nth_error (l ++ [None]) k with Some (Some v) => f v | _ => d end
  = match nth_error l k with Some (Some v) => f v | _ => d end.
Proof.
  destruct (Nat.lt_ge_cases k (length l)) as [H|H]; [rewrite nth_error_app1 by exact H; reflexivity|].
  rewrite nth_error_app2, (proj2 (nth_error_None l k) H) by exact H.
  destruct (k - length l) as [|[|j]]; reflexivity.
Qed.
Lemma leaf_eq_new_leafP st : leaf_eq st (new_leafP st).
Proof. split; intro k; [apply lookup_snoc_None|reflexivity]. Qed.
Lemma leaf_eq_new_leafE st : leaf_eq st (new_leafE st).
Proof. split; intro k; [reflexivity|apply lookup_snoc_None]. Qed.

(** one op that does not solve keeps a coherent object coherent; the object is not the empty
    combination (whose null vector follows the class counter: F-C02b) *)
Lemma step_good m s o y oy :
  quiet o = true -> store_ok (es s) -> get_obj (es s) y = Some oy -> okind_of oy <> KPoint [] ->
  good m (es s) y -> good m (es (fst (step s o))) y.
Proof.
  intros Q S Hy Hne G. destruct (step_cases s o) as [|s' _ ->| | |k Hk|r|a Hq].
  - (* same *) exact G.
  - (* edit *) exact G.
  - (* leafP *) exact (good_agree m (es s) _ y oy (leaf_eq_new_leafP _) (fun r o H => H) S Hy G).
  - (* leafE *) exact (good_agree m (es s) _ y oy (leaf_eq_new_leafE _) (fun r o H => H) S Hy G).
  - (* obj *) exact (good_agree m (es s) (new_obj (es s) k) y oy (leaf_eq_refl _) (get_obj_new_obj_old _ k) S Hy G).
  - (* eval *) eapply eval_obj_good; [apply surjective_pairing|exact G|]. intros -> o0 Ho0 Hk0 _. congruence.
  - (* solve *) congruence.
Qed.

Lemma run_good m s ops y oy :
  forallb quiet ops = true -> store_ok (es s) -> get_obj (es s) y = Some oy -> okind_of oy <> KPoint [] ->
  good m (es s) y -> good m (es (fst (run s ops))) y.
Proof.
  intros Q S Hy Hne G.
  (* what every quiet step preserves: the store is closed, [y] is coherent and keeps its kind *)
  pose (P := fun s' : pst => store_ok (es s') /\ good m (es s') y /\
                            exists o', get_obj (es s') y = Some o' /\ okind_of o' = okind_of oy).
  assert (Hstep : forall s1 o, quiet o = true -> P s1 -> P (fst (step s1 o))).
  { intros s1 o Qo (S1 & G1 & o1 & H1 & K1). pose proof (step_le s1 o) as L.
    split; [exact (le_store_ok _ _ L S1)|].
    split; [apply (step_good m s1 o y o1); try assumption; congruence|].
    destruct (le_st_get _ _ y o1 L H1) as (o2 & H2 & K2). exists o2. split; [exact H2|congruence]. }
  assert (P0 : P s) by (split; [exact S|split; [exact G|exists oy; split; [exact Hy|reflexivity]]]).
  exact (proj1 (proj2 (run_preserves quiet P Hstep ops s Q P0))).
Qed.

(** ... hence [eval] returns its cache-free value over the leaf tables of the end of the run *)
Lemma quiet_run_value m s ops y oy o :
  forallb quiet ops = true -> store_ok (es s) -> get_obj (es s) y = Some oy -> okind_of oy <> KPoint [] ->
  good m (es s) y -> get_obj (es (fst (run s ops))) y = Some o ->
  snd (eval_obj (es (fst (run s ops))) y) = pure_obj m (es (fst (run s ops))) (okind_of o).
Proof.
  intros Q S Hy Hne G Ho. destruct (le_st_get _ _ y oy (run_le ops s) Hy) as (o' & Ho' & Hk).
  rewrite Ho in Ho'. injection Ho' as <-.
  eapply eval_obj_value; [apply surjective_pairing|exact Ho|eapply run_good; eassumption|]. congruence.
Qed.

Lemma eval_all_good m : forall rs st y, m = length (lpv st) -> good m st y -> good m (eval_all st rs) y.
Proof.
  induction rs as [|r rs IH]; intros st y Hm G; cbn [eval_all]; [exact G|]. apply IH.
  - rewrite (proj1 (eval_frame st r)). exact Hm.
  - eapply eval_obj_good; [apply surjective_pairing|exact G|]. intros. exact Hm.
Qed.

Lemma clean_assign_duals rs ds st x : clean st x -> clean (assign_duals st rs ds) x.
Proof.
  assert (K : forall r o, get_obj (assign_duals st rs ds) r = Some o ->
              exists o0, get_obj st r = Some o0 /\ okind_of o0 = okind_of o /\ ocache o0 = ocache o).
  { intros r o Ho. pose proof (assign_duals_obj rs ds st r) as H. rewrite Ho in H.
    destruct (get_obj st r) as [o0|]; [|discriminate]. injection H as H1 H2. eauto. }
  intros C o Ho. apply K in Ho as (o0 & H0 & K0 & C0). destruct (C o0 H0) as [Hc Hr].
  split; [congruence|]. intros r' Hin o' Ho'. apply K in Ho' as (o1 & H1 & _ & C1).
  rewrite <- C1. apply (Hr r'); [congruence|exact H1].
Qed.

(** Guard: when the solver is called, the object and the expressions it refers to hold no cache
    ([clean] in the state [prepare s]).  Then after the finite solve the object is coherent with
    solution k. *)
Theorem fresh_after_solve s sol x :
  clean (es (prepare s)) x -> good (length (lpv (es s))) (es (solve s (Some sol))) x.
Proof.
  intro C. unfold solve. destruct (finish_eq (prepare s) sol) as [rs ->]. apply eval_all_good.
  - cbn [assign_solution lpv]. rewrite map_length, seq_length.
    rewrite (proj1 (assign_duals_leaves _ _ _)), (proj1 (prepare_leaves s)). reflexivity.
  - apply clean_good. exact (clean_assign_duals _ (sDual sol) _ x C).
Qed.

Lemma assign_duals_other : forall rs ds st r, ~ In r rs -> get_obj (assign_duals st rs ds) r = get_obj st r.
Proof.
  induction rs as [|r0 rs IH]; intros [|d ds] st r Hn; cbn [assign_duals]; try reflexivity.
  rewrite IH, get_obj_set_dual by (intro; apply Hn; right; assumption).
  destruct (Nat.eqb_spec r r0) as [->|]; [exfalso; apply Hn; left; reflexivity|reflexivity].
Qed.
Lemma assign_duals_dual : forall rs ds st k r d,
  NoDup rs -> nth_error rs k = Some r -> nth_error ds k = Some d -> get_obj st r <> None ->
  eval_dual (assign_duals st rs ds) r = Ok d.
Proof.
  induction rs as [|r0 rs IH]; intros [|d0 ds] st [|k] r d N Hr Hd Ho; try discriminate;
    cbn [assign_duals]; apply NoDup_cons_iff in N as [Hn N']; cbn [nth_error] in Hr, Hd.
  - injection Hr as ->. injection Hd as ->. unfold eval_dual.
    rewrite assign_duals_other, get_obj_set_dual, Nat.eqb_refl by exact Hn.
    destruct (get_obj st r); [reflexivity|contradiction].
  - apply (IH ds _ k r d N' Hr Hd). rewrite get_obj_set_dual.
    destruct (Nat.eqb_spec r r0) as [<-|]; [|exact Ho]. destruct (get_obj st r); [discriminate|contradiction].
Qed.
Lemma frame_eval_dual st st' r : frame st st' -> eval_dual st' r = eval_dual st r.
Proof.
  intros (_ & _ & H). unfold eval_dual. specialize (H r).
  destruct (get_obj st r), (get_obj st' r); try contradiction; [|reflexivity]. destruct H as (_ & -> & _). reflexivity.
Qed.

(** F-C13a.  x0, xs leaf points; d = |x0 - xs|^2 held by the user; initial condition d <= 1 (object 2),
    metric = leaf expression 0.  Solve 1 (x0 - xs has norm 1), [d.eval()] = 1; the condition is
    replaced by d' <= 4 (objects 5-6); solve 2 (norm 4 = 2^2): a freshly built [|x0 - xs|^2]
    (object 9) evaluates to 4, the held [d] still to 1. *)
Definition dist2 : edict := [(KG 0 0, 1%Q); (KG 0 1, (-1)%Q); (KG 1 0, (-1)%Q); (KG 1 1, 1%Q)].
Definition c13a_prog : list op :=
  [NewLeafP; NewLeafP; NewLeafE;
   MkExpr dist2;                                        (* #0  d, held *)
   MkExpr (x_subs dist2 1); MkCons (ERef 1) Ineq;       (* #1 #2  d <= 1 *)
   AddCond 2; AddMetric (ELeaf 0);
   Solve (Some (mkSol [[1%Q; 0%Q]; [0%Q; 0%Q]] [1%Q; 1%Q] [VNum 1%Q; VNum 1%Q]));
   Eval 0;
   DelCond 2;
   MkExpr (x_subs dist2 4); MkCons (ERef 5) Ineq;       (* #5 #6  d' <= 4   (#3 #4: metric row of solve 1) *)
   AddCond 6;
   Solve (Some (mkSol [[2%Q; 0%Q]; [0%Q; 0%Q]] [4%Q; 1%Q; 4%Q] [VNum 2%Q; VNum 2%Q]));
   MkExpr dist2;                                        (* #9  a new |x0 - xs|^2 *)
   Eval 9; Eval 0].

(** F-C13d.  Same model; the second solve finds no finite value (initial condition removed): the held
    object, the leaf points and the dual of the removed-then-unsent condition still answer with the
    numbers of solve 1, whereas an equivalent newly built model would raise "must be solved". *)
Definition c13d_prog : list op :=
  [NewLeafP; NewLeafP; NewLeafE;
   MkExpr dist2; MkExpr (x_subs dist2 1); MkCons (ERef 1) Ineq; AddCond 2; AddMetric (ELeaf 0);
   Solve (Some (mkSol [[1%Q; 0%Q]; [0%Q; 0%Q]] [1%Q; 1%Q] [VNum 1%Q; VNum 1%Q]));
   DelCond 2;
   Solve None;
   Eval 0; EvalLeafP 0; MkExpr dist2; Eval 7].

Definition c13d_fresh_prog : list op :=
  [NewLeafP; NewLeafP; NewLeafE; MkExpr dist2; AddMetric (ELeaf 0); Solve None; Eval 0].
