(** Members of the differentiable function classes (over [dfn]: value and gradient map) and of the
    operator classes (over [graph]) satisfy the reference conditions.

    The smooth classes share one lemma ([interp_at], on samples [interp_samples]): a lower quadratic
    bound with modulus [m] (any real: 0 convex, mu strongly convex, -L lower curvature bound) and an
    upper quadratic bound [L], with (L - m) t = 1 given as an EQUATION, imply
      F y - F x + <grad F y, x - y> + m/2 |x - y|^2 + t/2 |m (x - y) - (grad F x - grad F y)|^2 <= 0
    (instantiate both bounds at z = x + t (m (x - y) - (grad F x - grad F y))).  Each class
    reference is this expression up to a rational identity closed by [field]. *)
From Coq Require Import Reals Psatz List.
From PV Require Import Base.IPS Spec.Reference Spec.Classes Proofs.MembersA.
Import ListNotations.
Local Open Scope R_scope.

Section MembersB.
  Context {E : ips}.
  Implicit Types xi gi xj gj xs gs v : E.
  Implicit Types fi fj fs : R.

  (** close [b <= 0] from [P : a <= 0] when [a = b] is a rational identity *)
  Ltac close_by P tac :=
    match type of P with
    | ?a <= 0 => match goal with |- ?b <= 0 => replace b with a; [exact P | tac] end
    end.

  Lemma inner_sub_swap (a x y : E) : inner a (vsub x y) = - inner a (vsub y x).
  Proof. rewrite !inner_sub_r. ring. Qed.

  Lemma nrm2_shift (x y u : E) :
    nrm2 (vsub (vadd x u) y) = nrm2 (vsub x y) + 2 * inner (vsub x y) u + nrm2 u.
  Proof.
    unfold nrm2. rewrite inner_shift, (inner_sym E _ (vsub x y)), (inner_sym E _ u), !inner_shift,
      (inner_sym E u (vsub x y)). ring.
  Qed.

  Definition lower_mod (m : R) (F : @dfn E) : Prop :=
    forall x y : E, dval F y >= dval F x + inner (dgrad F x) (vsub y x) + m / 2 * nrm2 (vsub y x).

  (** a lower bound of modulus m at y and an upper bound of modulus L at x, both at z = x + u with
      u = t w up to [veq] and (L - m) t = 1, for a direction w with
      |w|^2 = <m (x - y) - (grad F x - grad F y), w> *)
  Lemma interp_at m L t (F : dfn) (x y w u : E) :
    (L - m) * t = 1 -> veq u (vscal t w) ->
    dval F (vadd x u) >= dval F y + inner (dgrad F y) (vsub (vadd x u) y) + m / 2 * nrm2 (vsub (vadd x u) y) ->
    dval F (vadd x u) <= dval F x + inner (dgrad F x) u + L / 2 * nrm2 u ->
    inner w w = m * inner (vsub x y) w - inner (dgrad F x) w + inner (dgrad F y) w ->
    dval F y - dval F x + inner (dgrad F y) (vsub x y) + m / 2 * nrm2 (vsub x y)
      + t / 2 * nrm2 w <= 0.
  Proof.
    intros Ht Hu A B Hw.
    rewrite inner_shift, nrm2_shift, (nrm2_veq _ _ Hu), !(veq_inner_r _ _ _ Hu), nrm2_scal, 2!inner_scal_r in A.
    rewrite (nrm2_veq _ _ Hu), (veq_inner_r _ _ _ Hu), nrm2_scal, inner_scal_r in B.
    unfold nrm2 at 2 in A. unfold nrm2 in B. unfold nrm2 at 2.
    pose proof (f_equal (Rmult t) Hw) as P1. cbv beta in P1.
    pose proof (f_equal (fun r => r * (t * inner w w)) Ht) as P2. cbv beta in P2.
    lra.
  Qed.

  (** on two samples of a function with both bounds everywhere, the norm of
      w = m (xi - xj) - (gi - gj) written out *)
  Lemma interp_samples m L t (F : dfn) xi gi fi xj gj fj :
    (L - m) * t = 1 -> lower_mod m F -> quad_upper L F ->
    genuine_grad F (xi, gi, fi) -> genuine_grad F (xj, gj, fj) ->
    fj - fi + inner gj (vsub xi xj) + m / 2 * nrm2 (vsub xi xj)
      + t / 2 * (m * m * nrm2 (vsub xi xj) - 2 * (m * inner (vsub xi xj) (vsub gi gj)) + nrm2 (vsub gi gj)) <= 0.
  Proof.
    intros Ht Hlo Hup [Hgi Hfi] [Hgj Hfj]. subst fi fj.
    pose proof (veq_sub _ _ _ _ Hgi Hgj) as Hd.
    rewrite (veq_inner_l _ _ _ Hgj), (veq_inner_r _ _ _ Hd), (nrm2_veq _ _ Hd),
      <- inner_scal_l, <- nrm2_scal, <- nrm2_sub.
    set (w := vsub (vscal m (vsub xi xj)) (vsub (dgrad F xi) (dgrad F xj))).
    pose proof (Hup xi (vadd xi (vscal t w))) as B. rewrite inner_shift0, nrm2_shift0 in B.
    apply (interp_at m L t F xi xj w _ Ht (veq_refl _) (Hlo xj _) B).
    unfold w. rewrite inner_sub_l, inner_scal_l, !inner_sub_l. ring.
  Qed.

  Lemma mem_smooth_convex L (F : dfn) :
    0 < L -> smooth_convex_member L F ->
    forall xi gi fi xj gj fj, genuine_grad F (xi, gi, fi) -> genuine_grad F (xj, gj, fj) ->
    ref_smooth_convex L xi gi xj gj fi fj <= 0.
  Proof.
    intros HL [Hcv Hup] xi gi fi xj gj fj Hi Hj. unfold ref_smooth_convex.
    assert (Hlo : lower_mod 0 F) by (intros x y; pose proof (Hcv x y); lra).
    assert (Ht : (L - 0) * (1 / L) = 1) by (field; lra).
    pose proof (interp_samples 0 L _ F xi gi fi xj gj fj Ht Hlo Hup Hi Hj) as P.
    replace (1 / (2 * L)) with (1 / L / 2) by (field; lra). lra.
  Qed.

  Lemma mem_smooth L (F : dfn) :
    0 < L -> smooth_member L F ->
    forall xi gi fi xj gj fj, genuine_grad F (xi, gi, fi) -> genuine_grad F (xj, gj, fj) ->
    ref_smooth L xi gi xj gj fi fj <= 0.
  Proof.
    intros HL [Hup Hlow] xi gi fi xj gj fj Hi Hj. unfold ref_smooth.
    assert (Hlo : lower_mod (- L) F) by (intros x y; pose proof (Hlow x y); lra).
    assert (Ht : (L - - L) * (1 / (2 * L)) = 1) by (field; lra).
    pose proof (interp_samples (- L) L _ F xi gi fi xj gj fj Ht Hlo Hup Hi Hj) as P.
    rewrite (inner_sym E (vsub xi xj)), inner_sub_l in P. rewrite inner_add_l.
    close_by P ltac:(field; lra).
  Qed.

  Lemma mem_smooth_strongly_convex mu L (F : dfn) :
    0 <= mu < L -> smooth_strongly_convex_member mu L F ->
    forall xi gi fi xj gj fj, genuine_grad F (xi, gi, fi) -> genuine_grad F (xj, gj, fj) ->
    ref_smooth_strongly_convex mu L xi gi xj gj fi fj <= 0.
  Proof.
    intros [Hmu HL] [Hsc Hup] xi gi fi xj gj fj Hi Hj. unfold ref_smooth_strongly_convex.
    assert (Hlo : lower_mod mu F) by (intros x y; pose proof (Hsc x y); lra).
    assert (Ht : (L - mu) * (1 / (L - mu)) = 1) by (field; lra).
    pose proof (interp_samples mu L _ F xi gi fi xj gj fj Ht Hlo Hup Hi Hj) as P.
    rewrite (nrm2_sub (vsub xi xj) (vscal _ _)), nrm2_scal, inner_scal_r.
    close_by P ltac:(field; lra).
  Qed.

  (** SmoothConvexLipschitzFunction(L, M): the smooth-convex condition and |g_i|^2 <= M^2 *)
  Lemma mem_scl_bound L M (F : dfn) :
    smooth_convex_lipschitz_member L M F -> forall xi gi fi, genuine_grad F (xi, gi, fi) ->
    ref_bounded_g M gi <= 0.
  Proof.
    intros [[Hcv _] Hlip] xi gi fi [Hgi _].
    unfold ref_bounded_g. rewrite (nrm2_veq _ _ Hgi).
    exact (step_bound M xi _ _ _ (Hcv xi (vadd xi (dgrad F xi))) (Hlip (vadd xi (dgrad F xi)) xi)).
  Qed.

  (** RsiEbFunction(mu, L): conditions between the stationary sample (first) and any sample *)
  Lemma mem_rsi_strong_monotone mu L (F : dfn) xs gs fs xj gj fj :
    rsi_eb_member mu L F xs /\ genuine_grad F (xs, gs, fs) -> genuine_grad F (xj, gj, fj) ->
    ref_strong_monotone mu xs gs xj gj <= 0.
  Proof.
    intros [[Hst H] [Hgs _]] [Hgj _]. unfold ref_strong_monotone.
    destruct (H xj) as [Hrsi _].
    rewrite inner_sub_l, (veq_inner_l _ _ _ (veq_trans _ _ _ Hgs Hst)), inner_zero_l,
      (veq_inner_l _ _ _ Hgj), (inner_sub_swap _ xs xj), (nrm2_sub_sym xs xj).
    lra.
  Qed.

  Lemma mem_rsi_lipschitz mu L (F : dfn) xs gs fs xj gj fj :
    rsi_eb_member mu L F xs /\ genuine_grad F (xs, gs, fs) -> genuine_grad F (xj, gj, fj) ->
    ref_lipschitz L xs gs xj gj <= 0.
  Proof.
    intros [[Hst H] [Hgs _]] [Hgj _]. unfold ref_lipschitz.
    destruct (H xj) as [_ Heb].
    rewrite (nrm2_veq _ _ (veq_sub _ _ _ _ (veq_trans _ _ _ Hgs Hst) Hgj)), nrm2_sub, (nrm2_sub_sym xs xj).
    unfold nrm2 at 1. rewrite !inner_zero_l. lra.
  Qed.

  Lemma linear_sub (M : E -> E) (a b : E) :
    linear M -> veq (M (vsub a b)) (vsub (M a) (M b)).
  Proof.
    intros [Hadd Hscal _ _]. unfold vsub, vneg.
    eapply veq_trans; [apply Hadd|]. apply veq_add; [apply veq_refl|apply Hscal].
  Qed.

  (** BlockSmoothConvexFunction: [interp_at] with m = 0 and the step confined to block k,
      u = P_k (t d), w = P_k d, d = Gj - Gi *)
  Lemma mem_block_smooth K (P : nat -> E -> E) (Ls : nat -> R) (F : dfn) k xi gi fi xj gj fj :
    (k < K)%nat -> 0 < Ls k -> block_smooth_convex_member K P Ls F ->
    genuine_grad F (xi, gi, fi) -> genuine_grad F (xj, gj, fj) ->
    ref_block_smooth (Ls k) xi xj gj (P k gi) (P k gj) fi fj <= 0.
  Proof.
    intros Hk HL [Hbp [Hcv Hbu]] [Hgi Hfi] [Hgj Hfj]. subst fi fj.
    pose proof (blk_lin _ _ Hbp k Hk) as Hlin.
    unfold ref_block_smooth.
    set (d := vsub (dgrad F xj) (dgrad F xi)). set (q := P k d).
    assert (Hq : veq (vsub (P k gj) (P k gi)) q).
    { eapply veq_trans; [|apply veq_sym, linear_sub, Hlin].
      apply veq_sub; apply (lin_ext _ Hlin); assumption. }
    rewrite (veq_inner_l _ _ _ Hgj), nrm2_sub_sym, (nrm2_veq _ _ Hq).
    set (t := 1 / Ls k). assert (Ht : (Ls k - 0) * t = 1) by (unfold t; field; lra).
    replace (1 / (2 * Ls k)) with (t / 2) by (unfold t; field; lra).
    pose proof (interp_at 0 (Ls k) t F xi xj q (P k (vscal t d)) Ht (lin_scal _ Hlin t d)) as I.
    pose proof (Hcv xj (vadd xi (P k (vscal t d)))) as A.
    (* |q|^2 = <d, q> : P_k is self-adjoint and idempotent *)
    assert (Hw : inner q q = 0 * inner (vsub xi xj) q - inner (dgrad F xi) q + inner (dgrad F xj) q).
    { transitivity (inner d q); [|unfold d; rewrite inner_sub_l; ring].
      unfold q at 1. rewrite (blk_sa _ _ Hbp k d q Hk). apply veq_inner_r, (blk_idem _ _ Hbp k d Hk). }
    specialize (I ltac:(lra) (Hbu k Hk xi (vscal t d)) Hw). lra.
  Qed.

  (** operator classes: the reference is the defining inequality on the pair of graph points *)
  Lemma mem_monotone (A : graph) :
    monotone_op A -> forall xi gi fi xj gj fj, genuine_op A (xi, gi, fi) -> genuine_op A (xj, gj, fj) ->
    ref_monotone xi gi xj gj <= 0.
  Proof.
    intros H xi gi fi xj gj fj Hi Hj. unfold ref_monotone. pose proof (H xi gi xj gj Hi Hj). lra.
  Qed.

  Lemma mem_strong_monotone mu (A : graph) :
    strongly_monotone_op mu A -> forall xi gi fi xj gj fj, genuine_op A (xi, gi, fi) -> genuine_op A (xj, gj, fj) ->
    ref_strong_monotone mu xi gi xj gj <= 0.
  Proof.
    intros H xi gi fi xj gj fj Hi Hj. unfold ref_strong_monotone. pose proof (H xi gi xj gj Hi Hj). lra.
  Qed.

  Lemma mem_cocoercive beta (A : graph) :
    cocoercive_op beta A -> forall xi gi fi xj gj fj, genuine_op A (xi, gi, fi) -> genuine_op A (xj, gj, fj) ->
    ref_cocoercive beta xi gi xj gj <= 0.
  Proof.
    intros H xi gi fi xj gj fj Hi Hj. unfold ref_cocoercive. pose proof (H xi gi xj gj Hi Hj). lra.
  Qed.

  Lemma mem_neg_comonotone rho (A : graph) :
    neg_comonotone_op rho A -> forall xi gi fi xj gj fj, genuine_op A (xi, gi, fi) -> genuine_op A (xj, gj, fj) ->
    ref_neg_comonotone rho xi gi xj gj <= 0.
  Proof.
    intros H xi gi fi xj gj fj Hi Hj. unfold ref_neg_comonotone. pose proof (H xi gi xj gj Hi Hj). lra.
  Qed.

  Lemma mem_lipschitz L (A : graph) :
    lipschitz_op L A -> forall xi gi fi xj gj fj, genuine_op A (xi, gi, fi) -> genuine_op A (xj, gj, fj) ->
    ref_lipschitz L xi gi xj gj <= 0.
  Proof.
    intros H xi gi fi xj gj fj Hi Hj. unfold ref_lipschitz. pose proof (H xi gi xj gj Hi Hj). lra.
  Qed.

  Lemma mem_nonexpansive (A : graph) :
    nonexpansive_op A -> forall xi gi fi xj gj fj, genuine_op A (xi, gi, fi) -> genuine_op A (xj, gj, fj) ->
    ref_nonexpansive xi gi xj gj <= 0.
  Proof.
    intros H xi gi fi xj gj fj Hi Hj. unfold ref_nonexpansive. pose proof (H xi gi xj gj Hi Hj) as P.
    replace (1 ^ 2) with 1 in P by ring. lra.
  Qed.

  Lemma mem_inf_displacement (A : graph) v :
    nonexpansive_with_displacement A v -> forall xi gi fi, genuine_op A (xi, gi, fi) ->
    ref_inf_displacement v xi gi <= 0.
  Proof.
    intros [_ H] xi gi fi Hi. unfold ref_inf_displacement, nrm2. pose proof (H xi gi Hi) as P.
    rewrite inner_sub_r in P. rewrite (inner_sym E (vsub xi gi) v). lra.
  Qed.

  Lemma mem_nonexpansive_v (A : graph) v xi gi fi xj gj fj :
    nonexpansive_with_displacement A v -> genuine_op A (xi, gi, fi) -> genuine_op A (xj, gj, fj) ->
    ref_nonexpansive xi gi xj gj <= 0.
  Proof. intros [H _]. apply mem_nonexpansive, H. Qed.
End MembersB.

(** on the real line [R1] the operations of the space compute to real arithmetic; what is left
    follows from (y - x)^2 >= 0 *)
Ltac line2 x y :=
  unfold vsub, vneg, nrm2; cbn; change R in x, y;
  let H := fresh "Hsq" in pose proof (Rle_0_sqr (y - x)) as H; unfold Rsqr in H; nra.
Ltac op_case A :=
  let x := fresh "x" in let y := fresh "y" in let u := fresh "u" in let v := fresh "v" in
  let Hu := fresh "Hu" in let Hv := fresh "Hv" in
  intros x u y v Hu Hv; unfold A in Hu, Hv; subst u v; line2 x y.

(** x |-> x^2 on the real line: 2-smooth convex, 2-smooth, 1-strongly convex and 2-smooth. *)
Example smooth_classes_nonvacuous :
  let F := @mkD R1 (fun x : R => x * x) (fun x : R => 2 * x) in
  smooth_convex_member 2 F /\ smooth_member 2 F /\ smooth_strongly_convex_member 1 2 F /\
  genuine_grad F (1, 2, 1) /\ genuine_grad F (0, 0, 0) /\
  ref_smooth_convex 2 (1 : R1) (2 : R1) (0 : R1) (0 : R1) 1 0 <= 0.
Proof.
  intro F.
  assert (Hcv : grad_convex F).
  { intros x y. unfold F. line2 x y. }
  assert (Hup : quad_upper 2 F).
  { intros x y. unfold F. line2 x y. }
  assert (Hlo : quad_lower 2 F).
  { intros x y. unfold F. line2 x y. }
  assert (Hsc : grad_strongly_convex 1 F).
  { intros x y. unfold F. line2 x y. }
  assert (G1 : genuine_grad F (1, 2, 1)).
  { split; [intro w; cbn; lra | cbn; lra]. }
  assert (G0 : genuine_grad F (0, 0, 0)).
  { split; [intro w; cbn; lra | cbn; lra]. }
  split; [split; assumption|]. split; [split; assumption|]. split; [split; assumption|].
  split; [exact G1|]. split; [exact G0|].
  apply (mem_smooth_convex 2 F); [lra | split; assumption | exact G1 | exact G0].
Qed.

(** x |-> 3 x : convex, L-smooth for every L, 3-Lipschitz. *)
Example smooth_convex_lipschitz_nonvacuous :
  let F := @mkD R1 (fun x : R => 3 * x) (fun _ : R => 3) in
  smooth_convex_lipschitz_member 1 3 F /\ genuine_grad F (0, 3, 0).
Proof.
  intro F. split; [split; [split|]|].
  - intros x y. unfold F. line2 x y.
  - intros x y. unfold F. line2 x y.
  - intros x y. unfold F. line2 x y.
  - split; [intro w; cbn; lra | cbn; lra].
Qed.

(** x |-> x^2 satisfies RSI(2) and EB(2) around its unique stationary point 0. *)
Example rsi_eb_nonvacuous :
  let F := @mkD R1 (fun x : R => x * x) (fun x : R => 2 * x) in
  rsi_eb_member 2 2 F 0 /\ genuine_grad F (0, 0, 0) /\ genuine_grad F (1, 2, 1).
Proof.
  intro F. split; [split|split].
  - intro w. cbn. lra.
  - intro x. unfold F, vsub, vneg, nrm2. cbn. change R in x. split; nra.
  - split; [intro w; cbn; lra | cbn; lra].
  - split; [intro w; cbn; lra | cbn; lra].
Qed.

(** The operator x |-> 2 x on the real line. *)
Example operator_classes_nonvacuous :
  let A : @graph R1 := fun x g : R => g = 2 * x in
  monotone_op A /\ strongly_monotone_op 2 A /\ cocoercive_op (1 / 2) A /\ lipschitz_op 2 A /\
  lipschitz_strongly_monotone_op 1 3 A /\ cocoercive_strongly_monotone_op 1 (1 / 4) A /\
  genuine_op A (1, 2, 0) /\ genuine_op A (0, 0, 0).
Proof.
  intro A.
  assert (Hmo : monotone_op A) by op_case A.
  assert (Hsm2 : strongly_monotone_op 2 A) by op_case A.
  assert (Hco : cocoercive_op (1 / 2) A) by op_case A.
  assert (Hli : lipschitz_op 2 A) by op_case A.
  assert (Hsm1 : strongly_monotone_op 1 A) by op_case A.
  assert (Hli3 : lipschitz_op 3 A) by op_case A.
  assert (Hco4 : cocoercive_op (1 / 4) A) by op_case A.
  split; [exact Hmo|]. split; [exact Hsm2|]. split; [exact Hco|]. split; [exact Hli|].
  split; [split; assumption|]. split; [split; assumption|].
  split; unfold A; cbn; lra.
Qed.

(** x |-> - x is 1-negatively comonotone (and not monotone). *)
Example neg_comonotone_nonvacuous :
  let A : @graph R1 := fun x g : R => g = - x in
  neg_comonotone_op 1 A /\ genuine_op A (1, -1, 0) /\ ~ monotone_op A.
Proof.
  intro A. split; [|split].
  - op_case A.
  - unfold A. cbn. lra.
  - intro H. pose proof (H 1 (-1) 0 0) as P. unfold A, vsub, vneg in P. cbn in P.
    assert (Q : -1 = - 1) by lra. assert (Q0 : 0 = - 0) by lra.
    specialize (P Q Q0). lra.
Qed.

(** The translation x |-> x - 1 is nonexpansive, has no fixed point, and its infimal displacement
    vector is 1. *)
Example nonexpansive_nonvacuous :
  let A : @graph R1 := fun x g : R => g = x - 1 in
  nonexpansive_with_displacement A (1 : R1) /\ genuine_op A (0, -1, 0) /\
  ref_inf_displacement (1 : R1) (0 : R1) (-1 : R1) <= 0.
Proof.
  intro A.
  assert (M : nonexpansive_with_displacement A (1 : R1)).
  { split.
    - op_case A.
    - intros x g Hg. unfold A in Hg. subst g. unfold vsub, vneg. cbn. change R in x. lra. }
  assert (G : genuine_op A (0, -1, 0)) by (unfold A; cbn; lra).
  split; [exact M|split; [exact G|]].
  apply (mem_inf_displacement A 1 M 0 (-1) 0 G).
Qed.

(** R^2 with its two coordinate blocks: F x = x0^2 + x0 x1 + x1^2 is convex and 2-smooth along each
    coordinate (the blocks are coupled through the cross term). *)
Definition coordP (k : nat) (u : Rn 2) : Rn 2 := fun i => if Nat.eqb i k then u i else 0.

Lemma veq_Rn2 (a b : Rn 2) : veq a b <-> (a 0%nat = b 0%nat /\ a 1%nat = b 1%nat).
Proof.
  split.
  - intro H. split.
    + pose proof (H (fun i => if Nat.eqb i 0 then 1 else 0)) as P. cbn in P. lra.
    + pose proof (H (fun i => if Nat.eqb i 1 then 1 else 0)) as P. cbn in P. lra.
  - intros [H0 H1] w. cbn. rewrite H0, H1. reflexivity.
Qed.

(** whatever k: a coordinate is kept or replaced by 0 *)
Lemma coordP_linear k : linear (coordP k).
Proof.
  constructor; [intros a b|intros c a|idtac|intros a b H; apply veq_Rn2 in H; destruct H as [H0 H1]];
    apply veq_Rn2; unfold coordP; destruct k as [|[|k]]; cbn; split; lra.
Qed.

Lemma coordP_projections : block_projections 2 coordP.
Proof.
  constructor.
  - intros k _. apply coordP_linear.
  - intros k a b Hk. unfold coordP. destruct k as [|[|k]]; [| |lia]; cbn; ring.
  - intros k a Hk. apply veq_Rn2. unfold coordP. destruct k as [|[|k]]; [| |lia]; cbn; split; lra.
  - intros k k' a b Hk Hk' Hne. unfold coordP.
    destruct k as [|[|k]], k' as [|[|k']]; try lia; try (exfalso; apply Hne; reflexivity); cbn; ring.
  - intro a. apply veq_Rn2. unfold coordP. cbn. split; lra.
Qed.

Example block_smooth_nonvacuous :
  let F := @mkD (Rn 2)
             (fun x => x 0%nat * x 0%nat + x 0%nat * x 1%nat + x 1%nat * x 1%nat)
             (fun x i => match i with
                         | O => 2 * x 0%nat + x 1%nat
                         | S O => x 0%nat + 2 * x 1%nat
                         | _ => 0
                         end) in
  block_smooth_convex_member 2 coordP (fun _ => 2) F /\
  genuine_grad F ((fun i => match i with O => 1 | _ => 0 end) : Rn 2,
                  (fun i => match i with O => 2 | S O => 1 | _ => 0 end) : Rn 2, 1).
Proof.
  intro F. split; [split; [exact coordP_projections|split]|].
  - intros x y. unfold F, vsub, vneg. cbn.
    pose proof (Rle_0_sqr ((y 0%nat - x 0%nat) + (y 1%nat - x 1%nat))) as S01.
    pose proof (Rle_0_sqr (y 0%nat - x 0%nat)) as S0.
    pose proof (Rle_0_sqr (y 1%nat - x 1%nat)) as S1.
    unfold Rsqr in S01, S0, S1. lra.
  - intros k Hk. destruct k as [|[|k]]; [| |exfalso; lia];
      intros x d; unfold F, coordP, nrm2; cbn; lra.
  - split; [apply veq_Rn2; cbn; split; lra | cbn; lra].
Qed.
