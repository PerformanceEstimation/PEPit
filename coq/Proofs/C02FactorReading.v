(** C02: the factorisation theorem composed with the Gram reading (Props/C02.v, [C02_instance_reads_projection] and
    [C02_instance_reads_gram]) speaks of dictionaries over the n leaf points of the solve. *)
From Coq Require Import List.
From PV Require Import Model.Dict.

(** every inner-product key of [d] is between leaf points below [n] *)
Definition keys_below (n : nat) (d : edict) : Prop :=
  forall i j, In (KG i j) (keys d) -> (i < n)%nat /\ (j < n)%nat.
