(** Non-vacuity of the C01 theorems: a declared model with a SYMMETRIC 2x2 LMI, a rational dual that
    satisfies the solver assumption and is dual feasible, and a feasible primal point. *)
From Coq Require Import List Reals Qreals Psatz.
From PV Require Import Model.Dict Model.Terms Model.Sent Model.Cvxpy Model.Cert
     Spec.GramSem Spec.KKT Proofs.PSDLemmas Proofs.C01Refuted.
Import ListNotations.
Local Open Scope R_scope.

(** o <= t,  <p,p> <= 81/100,  [[<p,p>, t], [t, 1]] >> 0 *)
Definition s_lmi : list (list edict) :=
  [ [ [(KG 0 0, 1%Q)] ; [(KF 0, 1%Q)] ];
    [ [(KF 0, 1%Q)] ; [(K1, 1%Q)] ] ].
Definition s_sent : sent :=
  [ SC [(KF 2, 1%Q); (KF 0, (-1)%Q)] Ineq;
    SC [(KG 0 0, 1%Q); (K1, (-81 # 100)%Q)] Ineq;
    LMI s_lmi ].
Definition s_duals : list dval :=
  [ VM [[0%Q]]; VS 1%Q; VS (1 # 4)%Q; VM [[(1 # 4)%Q; (-1 # 2)%Q]; [(-1 # 2)%Q; 1%Q]];
    VS (1 # 4)%Q; VS (-1 # 2)%Q; VS (-1 # 2)%Q; VS 1%Q ].

Lemma s_emit : emit s_sent =
  [ RGram; RLe [(KF 2, 1%Q); (KF 0, (-1)%Q)]; RLe [(KG 0 0, 1%Q); (K1, (-81 # 100)%Q)];
    RPsd 0 2 2; REnt 0 0 0 [(KG 0 0, 1%Q)]; REnt 0 0 1 [(KF 0, 1%Q)];
    REnt 0 1 0 [(KF 0, 1%Q)]; REnt 0 1 1 [(K1, 1%Q)] ].
Proof. reflexivity. Qed.

Lemma s_kkt : kkt_dual w_obj (emit s_sent) s_duals (481 / 400).
Proof.
  split.
  - rewrite s_emit. unfold s_duals. repeat (constructor; try exact I); cbn; repeat constructor.
  - intros G F M HG HM. rewrite s_emit. unfold s_duals, lagrangian, w_obj.
    cbn [rows_term row_term evalGF evalKGF mdot mdot_from rdot].
    pose proof (HM 0%nat 0%nat 1%nat) as Hs. q2r. lra.
Qed.

Lemma s_symmetric : all_lmis_symmetric s_sent = true.
Proof. vm_compute. reflexivity. Qed.

Lemma s_wf : wf_edict w_obj /\ wf_sent s_sent.
Proof.
  split; [apply w_wf|].
  unfold s_sent, wf_sent, s_lmi.
  apply Forall_cons; [cbn [wf_item]; nodup|].
  apply Forall_cons; [cbn [wf_item]; nodup|].
  apply Forall_cons; [|apply Forall_nil].
  cbn [wf_item]. unfold ncols. cbn [hd length].
  repeat (apply Forall_cons || apply Forall_nil || split || reflexivity || nodup).
Qed.

Lemma s_reconstruct : snd (certificate w_obj s_sent w_ids s_duals) == 481 # 400.
Proof. vm_compute. reflexivity. Qed.

Lemma s_dual_feasible :
  let '(a, res) := exposed s_sent w_ids s_duals in dual_feasible a /\ rank1sum (res_matrix res) 1.
Proof.
  cbn. split; [|exact (rank1sum_outer [0%Q])].
  split; [q2r; lra|]. split; [q2r; lra|].
  split; [exact (rank1sum_outer [1 # 2; -1]%Q)|].
  split; [split; [reflexivity|repeat constructor]|]. split; [|exact I].
  intros i j _ _. reflexivity.
Qed.

Definition s_F : nat -> R := fun _ => 9 / 10.

Lemma s_feasible : feasible 1 s_sent w_G s_F /\ evalGF w_G s_F w_obj = 9 / 10.
Proof.
  split.
  - split; [apply w_G_psd|]. split; [apply w_G_psd|].
    repeat apply Forall_cons; [| |apply psd_qf_unit_corner|apply Forall_nil];
      unfold lmi_value, entry, s_lmi; cbn [item_holds holdsGF fst snd nth evalGF evalKGF];
      unfold w_G, s_F; q2r; lra.
  - cbn [w_obj evalGF evalKGF]. unfold s_F. q2r. lra.
Qed.
