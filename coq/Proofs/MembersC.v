(** Genuine samples of the linear-operator and quadratic classes satisfy the reference conditions.

    Classes covered: LinearOperator(L) (operator and transpose samples), SkewSymmetricLinearOperator(L),
    SymmetricLinearOperator(mu, L), SmoothStronglyConvexQuadraticFunction(mu, L).
    For each: the scalar (pairwise) reference expressions vanish on genuine samples, and the LMI matrix
    built over the recorded samples is symmetric positive semidefinite.

    The quadratic form of an LMI matrix is a weighted double sum of inner products of sample
    components ([dsum]), that is the inner product of two weighted combinations [wcomb]
    ([dsum_inner]); a linear map commutes with [wcomb] up to [veq] ([linear_wcomb]); and for a
    self-adjoint Q with mu <= Q <= L, <(L - Q) a, (Q - mu) a> >= 0 ([commuting_bounds]). *)
From Coq Require Import Reals Psatz List.
From PV Require Import Base.IPS Spec.Reference Spec.Classes Proofs.MembersB.
Import ListNotations.
Local Open Scope R_scope.

Section MembersC.
  Context {E : ips}.
  Implicit Types xi gi xj gj yi yj uj vj xs : E.
  Implicit Types M Mt A Q : E -> E.
  Implicit Types mu L fs fi fj : R.

  Fixpoint wcomb (c : nat -> R) (i : nat) (l : list E) : E :=
    match l with
    | [] => vzero
    | a :: l' => vadd (vscal (c i) a) (wcomb c (S i) l')
    end.

  Lemma inner_wcomb_l c i l w : inner (wcomb c i l) w = wsum c (fun a => inner a w) i l.
  Proof.
    revert i. induction l as [|a l IH]; intro i; cbn [wcomb wsum].
    - apply inner_zero_l.
    - rewrite inner_add_l, inner_scal_l, IH. reflexivity.
  Qed.

  Lemma inner_wcomb_r c i l w : inner w (wcomb c i l) = wsum c (fun a => inner w a) i l.
  Proof.
    revert i. induction l as [|a l IH]; intro i; cbn [wcomb wsum].
    - apply inner_zero_r.
    - rewrite inner_add_r, inner_scal_r, IH. reflexivity.
  Qed.

  Lemma wsum_ext {T} c (f g : T -> R) i l :
    (forall a, In a l -> f a = g a) -> wsum c f i l = wsum c g i l.
  Proof.
    revert i. induction l as [|a l IH]; intros i H; cbn [wsum]; [reflexivity|].
    rewrite (H a (or_introl eq_refl)), IH; [reflexivity|].
    intros b Hb. apply H. right. exact Hb.
  Qed.

  Lemma wsum_map {T U} c (h : T -> U) (f : U -> R) i l :
    wsum c f i (map h l) = wsum c (fun a => f (h a)) i l.
  Proof.
    revert i. induction l as [|a l IH]; intro i; cbn [wsum map]; [reflexivity|].
    rewrite IH. reflexivity.
  Qed.

  Lemma wsum_minus {T} c (f g : T -> R) i l :
    wsum c (fun a => f a - g a) i l = wsum c f i l - wsum c g i l.
  Proof.
    revert i. induction l as [|a l IH]; intro i; cbn [wsum]; [lra|]. rewrite IH. lra.
  Qed.

  Lemma wsum_scal {T} c k (f : T -> R) i l :
    wsum c (fun a => k * f a) i l = k * wsum c f i l.
  Proof.
    revert i. induction l as [|a l IH]; intro i; cbn [wsum]; [lra|]. rewrite IH. lra.
  Qed.

  Definition dsum {T} (c : nat -> R) (f : T -> T -> R) (l : list T) : R :=
    wsum c (fun a => wsum c (fun b => f a b) 0 l) 0 l.

  Lemma dsum_ext {T} c (f g : T -> T -> R) l :
    (forall a b, In a l -> In b l -> f a b = g a b) -> dsum c f l = dsum c g l.
  Proof.
    intro H. unfold dsum. apply wsum_ext. intros a Ha. apply wsum_ext. intros b Hb.
    apply H; assumption.
  Qed.

  Lemma dsum_minus {T} c (f g : T -> T -> R) l :
    dsum c (fun a b => f a b - g a b) l = dsum c f l - dsum c g l.
  Proof.
    unfold dsum. rewrite <- wsum_minus. apply wsum_ext. intros a _. apply wsum_minus.
  Qed.

  Lemma dsum_scal {T} c k (f : T -> T -> R) l :
    dsum c (fun a b => k * f a b) l = k * dsum c f l.
  Proof.
    unfold dsum. rewrite <- wsum_scal. apply wsum_ext. intros a _. apply wsum_scal.
  Qed.

  Lemma dsum_inner {T} c (p q : T -> E) l :
    dsum c (fun a b => inner (p a) (q b)) l = inner (wcomb c 0 (map p l)) (wcomb c 0 (map q l)).
  Proof.
    unfold dsum. rewrite inner_wcomb_l, wsum_map. apply wsum_ext. intros a _.
    rewrite inner_wcomb_r, wsum_map. reflexivity.
  Qed.

  (** [dsum_inner] on lists of pairs *)
  Lemma wsum_bilinear c (p q : E -> E -> E) (l : list (E * E)) :
    wsum c (fun '(xi, gi) => wsum c (fun '(xj, gj) => inner (p xi gi) (q xj gj)) 0 l) 0 l
    = inner (wcomb c 0 (map (fun '(x, g) => p x g) l)) (wcomb c 0 (map (fun '(x, g) => q x g) l)).
  Proof.
    rewrite <- (dsum_inner c (fun '(x, g) => p x g) (fun '(x, g) => q x g) l).
    unfold dsum. apply wsum_ext. intros [xi gi] _. apply wsum_ext. intros [xj gj] _. reflexivity.
  Qed.

  Lemma lmi_matrix_eq (ref : E -> E -> E -> E -> R) l :
    lmi_matrix ref l
    = map (fun a => map (fun b => ref (fst a) (snd a) (fst b) (snd b)) l) l.
  Proof.
    unfold lmi_matrix. apply map_ext. intros [xi gi]. apply map_ext. intros [xj gj]. reflexivity.
  Qed.

  Lemma quadform_lmi c (ref : E -> E -> E -> E -> R) l :
    quadform c (lmi_matrix ref l)
    = dsum c (fun a b => ref (fst a) (snd a) (fst b) (snd b)) l.
  Proof.
    rewrite lmi_matrix_eq. unfold quadform, dsum. rewrite wsum_map. apply wsum_ext. intros a _.
    rewrite wsum_map. reflexivity.
  Qed.

  Lemma linear_wcomb {T} (M : E -> E) c (p q : T -> E) i l :
    linear M -> (forall a, In a l -> veq (q a) (M (p a))) ->
    veq (wcomb c i (map q l)) (M (wcomb c i (map p l))).
  Proof.
    intros [Hadd Hscal Hzero Hext]. revert i.
    induction l as [|a l IH]; intros i H; cbn [map wcomb].
    - apply veq_sym, Hzero.
    - eapply veq_trans; [|apply veq_sym, Hadd].
      apply veq_add.
      + eapply veq_trans; [|apply veq_sym, Hscal].
        apply veq_scal, H. left. reflexivity.
      + apply IH. intros b Hb. apply H. right. exact Hb.
  Qed.

  Lemma nth_map_err {T U} (f : T -> U) l i d :
    nth i (map f l) d = match nth_error l i with Some a => f a | None => d end.
  Proof.
    revert i. induction l as [|a l IH]; intro i; destruct i; cbn [map nth nth_error]; try reflexivity.
    apply IH.
  Qed.

  Lemma nth_lmi (ref : E -> E -> E -> E -> R) l i j :
    nth j (nth i (lmi_matrix ref l) []) 0
    = match nth_error l i, nth_error l j with
      | Some a, Some b => ref (fst a) (snd a) (fst b) (snd b)
      | _, _ => 0
      end.
  Proof.
    rewrite lmi_matrix_eq, nth_map_err.
    destruct (nth_error l i) as [a|].
    - rewrite nth_map_err. destruct (nth_error l j); reflexivity.
    - destruct j; reflexivity.
  Qed.

  Lemma sym_lmi (ref : E -> E -> E -> E -> R) l :
    (forall a b, In a l -> In b l ->
       ref (fst a) (snd a) (fst b) (snd b) = ref (fst b) (snd b) (fst a) (snd a)) ->
    sym_rows (lmi_matrix ref l).
  Proof.
    intros H i j. rewrite !nth_lmi.
    destruct (nth_error l i) as [a|] eqn:Ei; destruct (nth_error l j) as [b|] eqn:Ej;
      try reflexivity.
    apply H; eapply nth_error_In; eassumption.
  Qed.

  (** samples as the generator sees them: the (x, g) components of recorded triples *)
  Definition sample_xg (s : @triple E) : E * E := (fst (fst s), snd (fst s)).

  Lemma in_sample_xg (G : @triple E -> Prop) (R' : E -> E -> Prop) samples :
    (forall x g f, G (x, g, f) -> R' x g) ->
    (forall s, In s samples -> G s) ->
    forall a, In a (map sample_xg samples) -> R' (fst a) (snd a).
  Proof.
    intros HG H a Hin. apply in_map_iff in Hin as [[[x g] f] [<- Hin]]. exact (HG x g f (H _ Hin)).
  Qed.

  (** commuting bounds: for self-adjoint mu <= Q <= L,  <(L - Q) a, (Q - mu) a> >= 0,
      i.e. (L + mu) <Q a, a> - |Q a|^2 - mu L |a|^2 >= 0.
      Cauchy-Schwarz for the semi-inner product [x, y] = <(L - Q) x, y> (an [ips] instance:
      only positivity is needed), applied to a and (L - Q) a. *)
  Section Shift.
    Variables (mu L : R) (Q : E -> E).
    Hypothesis HQ : sa_bounded mu L Q.
    Let si (x y : E) : R := L * inner x y - inner (Q x) y.

    Lemma si_sym u w : si u w = si w u.
    Proof.
      unfold si. rewrite (inner_sym E u w), (sab_sym _ _ _ HQ u w), (inner_sym E u (Q w)). reflexivity.
    Qed.
    Lemma si_add u1 u2 w : si (vadd u1 u2) w = si u1 w + si u2 w.
    Proof.
      unfold si. rewrite (lin_add _ (sab_lin _ _ _ HQ) u1 u2 w), !inner_add_l. lra.
    Qed.
    Lemma si_scal k u w : si (vscal k u) w = k * si u w.
    Proof.
      unfold si. rewrite (lin_scal _ (sab_lin _ _ _ HQ) k u w), !inner_scal_l. lra.
    Qed.
    Lemma si_zero w : si vzero w = 0.
    Proof.
      unfold si. rewrite (lin_zero _ (sab_lin _ _ _ HQ) w), !inner_zero_l. lra.
    Qed.
    Lemma si_pos u : 0 <= si u u.
    Proof. unfold si. pose proof (sab_hi _ _ _ HQ u) as P. unfold nrm2 in P. lra. Qed.

    Definition shift_ips : ips :=
      {| V := V E; vzero := @vzero E; vadd := @vadd E; vscal := @vscal E; inner := si;
         inner_sym := si_sym; inner_add_l := si_add; inner_scal_l := si_scal;
         inner_zero_l := si_zero; inner_pos := si_pos |}.
  End Shift.

  Lemma commuting_bounds mu L Q (a : E) :
    sa_bounded mu L Q ->
    0 <= (L + mu) * inner (Q a) a - inner (Q a) (Q a) - mu * L * inner a a.
  Proof.
    intro HQ.
    set (Ta := vsub (vscal L a) (Q a)).
    pose proof (@cauchy_schwarz (shift_ips mu L Q HQ) a Ta) as CS. cbn in CS.
    assert (Hn1 : inner Ta Ta = L * inner a Ta - inner (Q a) Ta).
    { unfold Ta at 1. rewrite inner_sub_l, inner_scal_l. reflexivity. }
    assert (Hp1 : inner Ta a = L * inner a a - inner (Q a) a).
    { unfold Ta. rewrite inner_sub_l, inner_scal_l. reflexivity. }
    assert (Hn2 : inner Ta Ta = L * L * inner a a - 2 * L * inner (Q a) a + inner (Q a) (Q a)).
    { unfold Ta, vsub, vneg.
      rewrite ?inner_add_l, ?inner_add_r, ?inner_scal_l, ?inner_scal_r.
      rewrite (inner_sym E a (Q a)). ring. }
    rewrite <- Hn1, <- Hp1 in CS.
    pose proof (sab_lo _ _ _ HQ Ta) as Hlo. unfold nrm2 in Hlo.
    pose proof (inner_pos E Ta) as Hn0.
    pose proof (si_pos mu L Q HQ a) as Hp0. cbv beta zeta in Hp0. rewrite <- Hp1 in Hp0.
    pose proof (cauchy_schwarz Ta a) as CSE.
    set (n := inner Ta Ta) in *. set (p := inner Ta a) in *.
    set (qt := inner (Q Ta) Ta) in *.
    set (aa := inner a a) in *. set (qa := inner (Q a) a) in *. set (qq := inner (Q a) (Q a)) in *.
    assert (Hgoal : (L + mu) * qa - qq - mu * L * aa = (L - mu) * p - n).
    { rewrite Hn2, Hp1. ring. }
    rewrite Hgoal.
    destruct (Req_dec n 0) as [Hz|Hnz].
    - rewrite Hz in CSE. assert (Hpz : p = 0) by nra. rewrite Hpz, Hz. lra.
    - assert (Hnpos : 0 < n) by lra.
      assert (H1 : p * (L * n - qt) <= p * ((L - mu) * n)).
      { apply Rmult_le_compat_l; [exact Hp0|lra]. }
      assert (H2 : n * n <= n * ((L - mu) * p)) by lra.
      apply Rmult_le_reg_l in H2; [lra|exact Hnpos].
  Qed.

  Lemma mem_lin_adjoint L M Mt :
    bounded_pair L M Mt ->
    forall xi yi fi uj vj (hj : R), genuine_lin M (xi, yi, fi) -> genuine_lin Mt (uj, vj, hj) ->
    ref_lin_adjoint xi yi uj vj = 0.
  Proof.
    intros HB xi yi fi uj vj hj Hy Hv. unfold ref_lin_adjoint. cbn in Hy, Hv.
    rewrite (veq_inner_r _ _ xi Hv), (veq_inner_l _ _ uj Hy), (bp_adj _ _ _ HB). lra.
  Qed.

  (** samples of a linear map with |M a|^2 <= L^2 |a|^2: the operator or the transpose of a
      LinearOperator(L), a SkewSymmetricLinearOperator(L).  The quadratic form of the matrix is
      L^2 |X|^2 - |M X|^2 for X the weighted combination of the points. *)
  Lemma mem_lin_lmi L M :
    linear M -> (forall a, nrm2 (M a) <= L ^ 2 * nrm2 a) ->
    forall samples : list triple, (forall s, In s samples -> genuine_lin M s) ->
    psd_rows (lmi_matrix (fun xi yi xj yj => ref_lin_lmi L xi yi xj yj) (map sample_xg samples)) /\
    sym_rows (lmi_matrix (fun xi yi xj yj => ref_lin_lmi L xi yi xj yj) (map sample_xg samples)).
  Proof.
    intros HM Hb samples H. split.
    - intro c. rewrite quadform_lmi. unfold ref_lin_lmi. rewrite dsum_minus, dsum_scal, !dsum_inner.
      pose proof (linear_wcomb M c fst snd 0%nat _ HM
                    (in_sample_xg (genuine_lin M) (fun x g => veq g (M x)) samples (fun x g f Hg => Hg) H)) as Hv.
      rewrite (veq_inner _ _ _ _ Hv Hv). pose proof (Hb (wcomb c 0 (map fst (map sample_xg samples)))) as P.
      unfold nrm2 in P. lra.
    - apply sym_lmi. intros a b _ _. unfold ref_lin_lmi.
      rewrite (inner_sym E (fst a)), (inner_sym E (snd a)). reflexivity.
  Qed.

  Lemma mem_skew L A :
    skew_bounded L A ->
    forall xi gi fi xj gj fj, genuine_lin A (xi, gi, fi) -> genuine_lin A (xj, gj, fj) ->
    ref_skew xi gi xj gj = 0.
  Proof.
    intros HS xi gi fi xj gj fj Hi Hj. unfold ref_skew. cbn in Hi, Hj.
    rewrite (veq_inner_r _ _ xi Hj), (veq_inner_r _ _ xj Hi).
    rewrite (inner_sym E xj (A xi)), (sk_skew _ _ HS). lra.
  Qed.

  Lemma mem_sym mu L Q :
    sa_bounded mu L Q ->
    forall xi gi fi xj gj fj, genuine_lin Q (xi, gi, fi) -> genuine_lin Q (xj, gj, fj) ->
    ref_sym xi gi xj gj = 0.
  Proof.
    intros HQ xi gi fi xj gj fj Hi Hj. unfold ref_sym. cbn in Hi, Hj.
    rewrite (veq_inner_r _ _ xi Hj), (veq_inner_r _ _ xj Hi).
    rewrite (inner_sym E xj (Q xi)), (sab_sym _ _ _ HQ). lra.
  Qed.

  (** LMIs of a self-adjoint Q with mu <= Q <= L, over items [a] with a point [p a] and its image
      [q a] (up to [veq]).  The quadratic form is the commuting-bounds expression at the weighted
      combination of the points. *)
  Lemma sa_dsum_pos {T} mu L Q c (p q : T -> E) l :
    sa_bounded mu L Q -> (forall a, In a l -> veq (q a) (Q (p a))) ->
    0 <= dsum c (fun a b => (L + mu) * inner (q a) (p b) - inner (q a) (q b) - mu * L * inner (p a) (p b)) l.
  Proof.
    intros HQ H. rewrite !dsum_minus, !dsum_scal, !dsum_inner.
    pose proof (linear_wcomb Q c p q 0%nat l (sab_lin _ _ _ HQ) H) as Hv.
    rewrite (veq_inner_l _ _ _ Hv), (veq_inner _ _ _ _ Hv Hv).
    apply (commuting_bounds mu L Q _ HQ).
  Qed.

  Lemma sa_entry_sym mu L Q (pa ga pb gb : E) :
    sa_bounded mu L Q -> veq ga (Q pa) -> veq gb (Q pb) ->
    (L + mu) * inner ga pb - inner ga gb - mu * L * inner pa pb
    = (L + mu) * inner gb pa - inner gb ga - mu * L * inner pb pa.
  Proof.
    intros HQ Va Vb.
    rewrite (veq_inner_l _ _ pb Va), (veq_inner_l _ _ pa Vb), (sab_sym _ _ _ HQ pa pb),
      (inner_sym E pa (Q pb)), (inner_sym E ga gb), (inner_sym E pa pb).
    reflexivity.
  Qed.

  (** on samples of Q the entry of SymmetricLinearOperator's matrix is that expression with p = x *)
  Lemma sym_lmi_entry mu L Q xa ga xb gb :
    sa_bounded mu L Q -> veq ga (Q xa) -> veq gb (Q xb) ->
    ref_sym_lmi mu L xa ga xb gb = (L + mu) * inner ga xb - inner ga gb - mu * L * inner xa xb.
  Proof.
    intros HQ Va Vb. unfold ref_sym_lmi.
    rewrite (veq_inner_r _ _ xa Vb), <- (sab_sym _ _ _ HQ), <- (veq_inner_l _ _ xb Va). ring.
  Qed.

  Lemma mem_sym_lmi mu L Q :
    sa_bounded mu L Q -> forall samples : list triple, (forall s, In s samples -> genuine_lin Q s) ->
    psd_rows (lmi_matrix (fun xi gi xj gj => ref_sym_lmi mu L xi gi xj gj) (map sample_xg samples)) /\
    sym_rows (lmi_matrix (fun xi gi xj gj => ref_sym_lmi mu L xi gi xj gj) (map sample_xg samples)).
  Proof.
    intros HQ samples H.
    pose proof (in_sample_xg (genuine_lin Q) (fun x g => veq g (Q x)) samples (fun x g f Hg => Hg) H) as H'.
    split.
    - intro c. rewrite quadform_lmi.
      rewrite (dsum_ext c _ _ _ (fun a b Ha Hb => sym_lmi_entry mu L Q _ _ _ _ HQ (H' a Ha) (H' b Hb))).
      exact (sa_dsum_pos mu L Q c fst snd _ HQ H').
    - apply sym_lmi. intros a b Ha Hb.
      rewrite !(sym_lmi_entry mu L Q) by (try apply H'; assumption).
      exact (sa_entry_sym mu L Q _ _ _ _ HQ (H' a Ha) (H' b Hb)).
  Qed.

  Lemma mem_quad_value Q xs fs xi gi fi :
    genuine_quad Q xs fs (xi, gi, fi) -> ref_quad_value xi gi xs fi fs = 0.
  Proof.
    intros [Hg Hf]. unfold ref_quad_value. rewrite (veq_inner_r _ _ _ Hg). lra.
  Qed.

  (** a sample (x, g, f) of the quadratic around xs is a sample (x - xs, g) of Q *)
  Lemma mem_quad_sym mu L Q xs fs :
    sa_bounded mu L Q ->
    forall xi gi fi xj gj fj, genuine_quad Q xs fs (xi, gi, fi) -> genuine_quad Q xs fs (xj, gj, fj) ->
    ref_quad_sym xi gi xj gj xs = 0.
  Proof.
    intros HQ xi gi fi xj gj fj [Hgi _] [Hgj _].
    exact (mem_sym mu L Q HQ (vsub xi xs) gi fi (vsub xj xs) gj fj Hgi Hgj).
  Qed.

  Lemma mem_quad_lmi mu L Q xs fs :
    sa_bounded mu L Q -> forall samples : list triple, (forall s, In s samples -> genuine_quad Q xs fs s) ->
    psd_rows (lmi_matrix (fun xi gi xj gj => ref_quad_lmi mu L xi gi xj gj xs)
                         (map sample_xg samples)) /\
    sym_rows (lmi_matrix (fun xi gi xj gj => ref_quad_lmi mu L xi gi xj gj xs)
                         (map sample_xg samples)).
  Proof.
    intros HQ samples H.
    pose proof (in_sample_xg (genuine_quad Q xs fs) (fun x g => veq g (Q (vsub x xs))) samples
                             (fun x g f Hg => proj1 Hg) H) as H'.
    split.
    - intro c. rewrite quadform_lmi.
      exact (sa_dsum_pos mu L Q c (fun a => vsub (fst a) xs) snd _ HQ H').
    - apply sym_lmi. intros a b Ha Hb.
      exact (sa_entry_sym mu L Q _ _ _ _ HQ (H' a Ha) (H' b Hb)).
  Qed.
End MembersC.

Definition vec2 (a b : R) : Rn 2 := fun i => match i with O => a | S O => b | _ => 0 end.

(** a 2x2 matrix [[m00, m01], [m10, m11]] acting on R^2 *)
Definition mat2 (m00 m01 m10 m11 : R) (u : Rn 2) : Rn 2 :=
  vec2 (m00 * u 0%nat + m01 * u 1%nat) (m10 * u 0%nat + m11 * u 1%nat).

(** the image of a vector, coordinate by coordinate *)
Lemma mat2_veq m00 m01 m10 m11 (x g : Rn 2) :
  g 0%nat = m00 * x 0%nat + m01 * x 1%nat -> g 1%nat = m10 * x 0%nat + m11 * x 1%nat ->
  veq g (mat2 m00 m01 m10 m11 x).
Proof. intros H0 H1. apply veq_Rn2. split; assumption. Qed.

Lemma mat2_linear m00 m01 m10 m11 : linear (mat2 m00 m01 m10 m11).
Proof.
  constructor.
  - intros a b. apply veq_Rn2. unfold mat2, vec2. cbn. split; lra.
  - intros c a. apply veq_Rn2. unfold mat2, vec2. cbn. split; lra.
  - apply veq_Rn2. unfold mat2, vec2. cbn. split; lra.
  - intros a b H. apply veq_Rn2 in H. destruct H as [H0 H1].
    apply veq_Rn2. unfold mat2, vec2. cbn. rewrite H0, H1. split; reflexivity.
Qed.

(** the rotation by a quarter turn J = [[0,-1],[1,0]], its transpose Jt = [[0,1],[-1,0]]:
    a LinearOperator(1) pair, and J is a SkewSymmetricLinearOperator(1). *)
Example linear_operator_nonvacuous :
  let J := mat2 0 (-1) 1 0 in
  let Jt := mat2 0 1 (-1) 0 in
  bounded_pair 1 J Jt /\
  genuine_lin J (vec2 1 0, vec2 0 1, 0) /\ genuine_lin J (vec2 1 2, vec2 (-2) 1, 0) /\
  genuine_lin Jt (vec2 1 0, vec2 0 (-1), 0) /\
  ref_lin_adjoint (vec2 1 2) (vec2 (-2) 1) (vec2 1 0) (vec2 0 (-1)) = 0 /\
  psd_rows (lmi_matrix (fun xi yi xj yj => ref_lin_lmi 1 xi yi xj yj)
                       [(vec2 1 0, vec2 0 1); (vec2 1 2, vec2 (-2) 1)]).
Proof.
  intros J Jt.
  assert (HB : bounded_pair 1 J Jt).
  { constructor; try apply mat2_linear.
    - intros a b. unfold J, Jt, mat2, vec2. cbn. ring.
    - intro a. unfold J, mat2, vec2, nrm2. cbn. lra.
    - intro a. unfold Jt, mat2, vec2, nrm2. cbn. lra. }
  assert (G1 : genuine_lin J (vec2 1 0, vec2 0 1, 0)) by (apply mat2_veq; cbn; lra).
  assert (G2 : genuine_lin J (vec2 1 2, vec2 (-2) 1, 0)) by (apply mat2_veq; cbn; lra).
  assert (G3 : genuine_lin Jt (vec2 1 0, vec2 0 (-1), 0)) by (apply mat2_veq; cbn; lra).
  split; [exact HB|]. split; [exact G1|]. split; [exact G2|]. split; [exact G3|]. split.
  - apply (mem_lin_adjoint 1 J Jt HB _ _ 0 _ _ 0 G2 G3).
  - apply (mem_lin_lmi 1 J (bp_lin _ _ _ HB) (bp_bound _ _ _ HB) [(vec2 1 0, vec2 0 1, 0); (vec2 1 2, vec2 (-2) 1, 0)]).
    intros s [Hs|[Hs|[]]]; subst s; assumption.
Qed.

Example skew_operator_nonvacuous :
  let J := mat2 0 (-1) 1 0 in
  skew_bounded 1 J /\
  genuine_lin J (vec2 1 0, vec2 0 1, 0) /\ genuine_lin J (vec2 1 2, vec2 (-2) 1, 0) /\
  ref_skew (vec2 1 0) (vec2 0 1) (vec2 1 2) (vec2 (-2) 1) = 0.
Proof.
  intro J.
  assert (HS : skew_bounded 1 J).
  { constructor; try apply mat2_linear.
    - intros a b. unfold J, mat2, vec2. cbn. ring.
    - intro a. unfold J, mat2, vec2, nrm2. cbn. lra. }
  assert (G1 : genuine_lin J (vec2 1 0, vec2 0 1, 0)) by (apply mat2_veq; cbn; lra).
  assert (G2 : genuine_lin J (vec2 1 2, vec2 (-2) 1, 0)) by (apply mat2_veq; cbn; lra).
  split; [exact HS|]. split; [exact G1|]. split; [exact G2|].
  apply (mem_skew 1 J HS _ _ 0 _ _ 0 G1 G2).
Qed.

(** Q = [[2,1],[1,2]] : symmetric, eigenvalues 1 and 3. *)
Lemma Q2112_bounded : sa_bounded 1 3 (mat2 2 1 1 2).
Proof.
  constructor; try apply mat2_linear.
  - intros a b. unfold mat2, vec2. cbn. ring.
  - intro a. unfold mat2, vec2, nrm2. cbn.
    pose proof (Rle_0_sqr (a 0%nat + a 1%nat)) as S. unfold Rsqr in S. lra.
  - intro a. unfold mat2, vec2, nrm2. cbn.
    pose proof (Rle_0_sqr (a 0%nat - a 1%nat)) as S. unfold Rsqr in S. lra.
Qed.

Example symmetric_operator_nonvacuous :
  let Q := mat2 2 1 1 2 in
  sa_bounded 1 3 Q /\
  genuine_lin Q (vec2 1 0, vec2 2 1, 0) /\ genuine_lin Q (vec2 1 (-1), vec2 1 (-1), 0) /\
  ref_sym (vec2 1 0) (vec2 2 1) (vec2 1 (-1)) (vec2 1 (-1)) = 0 /\
  psd_rows (lmi_matrix (fun xi gi xj gj => ref_sym_lmi 1 3 xi gi xj gj)
                       [(vec2 1 0, vec2 2 1); (vec2 1 (-1), vec2 1 (-1))]).
Proof.
  intro Q. pose proof Q2112_bounded as HQ. fold Q in HQ.
  assert (G1 : genuine_lin Q (vec2 1 0, vec2 2 1, 0)) by (apply mat2_veq; cbn; lra).
  assert (G2 : genuine_lin Q (vec2 1 (-1), vec2 1 (-1), 0)) by (apply mat2_veq; cbn; lra).
  split; [exact HQ|]. split; [exact G1|]. split; [exact G2|]. split.
  - apply (mem_sym 1 3 Q HQ _ _ 0 _ _ 0 G1 G2).
  - apply (mem_sym_lmi 1 3 Q HQ [(vec2 1 0, vec2 2 1, 0); (vec2 1 (-1), vec2 1 (-1), 0)]).
    intros s [Hs|[Hs|[]]]; subst s; assumption.
Qed.

(** F x = 5 + 1/2 <x - xs, Q (x - xs)> with xs = (1, 1). *)
Example quadratic_function_nonvacuous :
  let Q := mat2 2 1 1 2 in
  let xs : Rn 2 := vec2 1 1 in
  sa_bounded 1 3 Q /\
  genuine_quad Q xs 5 (vec2 2 1, vec2 2 1, 6) /\ genuine_quad Q xs 5 (xs, vec2 0 0, 5) /\
  ref_quad_value (vec2 2 1) (vec2 2 1) xs 6 5 = 0 /\
  psd_rows (lmi_matrix (fun xi gi xj gj => ref_quad_lmi 1 3 xi gi xj gj xs)
                       [(vec2 2 1, vec2 2 1); (xs, vec2 0 0)]).
Proof.
  intros Q xs. pose proof Q2112_bounded as HQ. fold Q in HQ.
  assert (G1 : genuine_quad Q xs 5 (vec2 2 1, vec2 2 1, 6)) by (split; [apply mat2_veq|]; cbn; lra).
  assert (G2 : genuine_quad Q xs 5 (xs, vec2 0 0, 5)) by (split; [apply mat2_veq|]; cbn; lra).
  split; [exact HQ|]. split; [exact G1|]. split; [exact G2|]. split.
  - apply (mem_quad_value Q xs 5 _ _ _ G1).
  - apply (mem_quad_lmi 1 3 Q xs 5 HQ [(vec2 2 1, vec2 2 1, 6); (xs, vec2 0 0, 5)]).
    intros s [Hs|[Hs|[]]]; subst s; assumption.
Qed.
