(** C15 — real coordinate partitions of R^n.  A partition of the coordinates {0..n-1} into d blocks is
    a function [blk : nat -> nat] with [blk i < d] for i < n; the projection onto block k masks the
    other coordinates.  The masks sum to the identity and masks of different blocks are orthogonal
    (disjoint supports), so they are an instance of Section Projections of C15Sem.v. *)
From Coq Require Import List Reals Lra Lia.
From PV Require Import Base.IPS Proofs.C15Model Proofs.C15Sem.
Import ListNotations.
Local Open Scope R_scope.

Section Masks.
  Variable n : nat.
  Variable blk : nat -> nat.

  (** P_k u = u masked to the coordinates of block k *)
  Definition proj (k : nat) (u : Rn n) : Rn n := fun i => if Nat.eqb (blk i) k then u i else 0.

  Lemma dotn_ext m (u u' w : nat -> R) :
    (forall i, (i < m)%nat -> u i = u' i) -> dotn m u w = dotn m u' w.
  Proof.
    induction m as [|m IH]; intros H; cbn [dotn]; [reflexivity|].
    rewrite IH by (intros i Hi; apply H; lia). rewrite (H m) by lia. reflexivity.
  Qed.

  Lemma dotn_proj_orth m k l (u w : nat -> R) :
    k <> l ->
    dotn m (fun i => if Nat.eqb (blk i) k then u i else 0) (fun i => if Nat.eqb (blk i) l then w i else 0) = 0.
  Proof.
    intros Hne. induction m as [|m IH]; cbn [dotn]; [reflexivity|]. rewrite IH.
    destruct (Nat.eqb_spec (blk m) k) as [Hk|Hk], (Nat.eqb_spec (blk m) l) as [Hl|Hl]; try lra.
    exfalso. congruence.
  Qed.

  Lemma proj_orth k l (u w : Rn n) : k <> l -> inner (proj k u) (proj l w) = 0.
  Proof. intros Hne. apply (dotn_proj_orth n k l u w Hne). Qed.

  Lemma vsum_coord (L : list (Rn n)) i : vsum L i = lsum (map (fun v : Rn n => v i) L).
  Proof.
    induction L as [|v L IH]; [reflexivity|]. cbn [map lsum]. rewrite <- IH. reflexivity.
  Qed.

  (** the masks of the d blocks sum to the identity when every coordinate belongs to a block < d:
      at coordinate i only the mask of block [blk i] contributes *)
  Lemma proj_sum d (u : Rn n) :
    (forall i, (i < n)%nat -> (blk i < d)%nat) ->
    veq (vsum (map (fun k => proj k u) (seq 0 d))) u.
  Proof.
    intros Hb w. apply (dotn_ext n). intros i Hi. rewrite vsum_coord, map_map. unfold proj.
    rewrite (lsum_map_single _ 0%nat _ (blk i)); rewrite ?seq_length.
    - rewrite seq_nth by apply Hb, Hi. cbn [Nat.add]. rewrite Nat.eqb_refl. reflexivity.
    - apply Hb, Hi.
    - intros k Hk Hne. rewrite seq_nth by exact Hk. cbn [Nat.add].
      destruct (Nat.eqb_spec (blk i) k); [congruence|reflexivity].
  Qed.
End Masks.
