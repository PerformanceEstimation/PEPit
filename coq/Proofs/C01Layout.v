(** C01, layout: the order-preserving mapping solver duals -> constraints.
    For EVERY tracked list (any interleaving of scalar constraints and LMIs of any sizes; induction
    on the list) and every dual vector indexed like [emit]. *)
From Coq Require Import List QArith Lia.
From PV Require Import Model.Dict Model.Terms Model.Sent Model.Cvxpy.
Import ListNotations.
Local Open Scope nat_scope.

(** number of solver rows an item occupies *)
Definition width (it : item) : nat :=
  match it with SC _ _ => 1 | LMI m => 1 + nrows m * ncols m end.

(** position, in the solver's constraint list, of the main row of item [k] *)
Fixpoint pos_from (c : nat) (l : sent) (k : nat) : nat :=
  match l, k with
  | it :: r, S k' => pos_from (c + width it) r k'
  | _, _ => c
  end.
Definition main_pos (l : sent) (k : nat) : nat := pos_from 1 l k.

(** index (among the LMIs) of item [k] *)
Definition lmi_index (l : sent) (k : nat) : nat := length (lmis (firstn k l)).

Definition main_row (kk : nat) (it : item) : solver_row :=
  match it with SC e s => scalar_row e s | LMI m => RPsd kk (nrows m) (ncols m) end.

(** the entry multipliers of an item whose main row stands at position [p]: the duals right after it *)
Definition entries_of_item (temp : list dval) (p : nat) (it : item) : option (list (list Q)) :=
  match it with SC _ _ => None | LMI m => Some (entries_at temp (p + 1) m) end.

(** the main dual and the entry multipliers of each item, consumed from a list aligned with [emit_from _ l] *)
Fixpoint mains (l : sent) (ds : list dval) : list dval :=
  match l with
  | [] => []
  | it :: r => hd dnone ds :: mains r (skipn (width it) ds)
  end.

Fixpoint ents (l : sent) (ds : list dval) : list (option (list (list Q))) :=
  match l with
  | [] => []
  | it :: r => entries_of_item ds 0 it :: ents r (skipn (width it) ds)
  end.

Lemma length_mains l ds : length (mains l ds) = length l.
Proof. revert ds. induction l as [|it l IH]; intro ds; cbn [mains length]; [reflexivity|rewrite IH; reflexivity]. Qed.

Lemma length_ents l ds : length (ents l ds) = length l.
Proof. revert ds. induction l as [|it l IH]; intro ds; cbn [ents length]; [reflexivity|rewrite IH; reflexivity]. Qed.

Lemma skipn_add {A} n m (l : list A) : skipn (n + m) l = skipn m (skipn n l).
Proof.
  revert l. induction n as [|n IH]; intros [|a l]; cbn [Nat.add skipn]; try reflexivity; [|apply IH].
  rewrite skipn_nil. reflexivity.
Qed.

Lemma hd_skipn {A} n (l : list A) d : hd d (skipn n l) = nth n l d.
Proof. revert l. induction n as [|n IH]; intros [|a l]; cbn [skipn hd nth]; try reflexivity. apply IH. Qed.

Lemma entries_of_item_skipn temp c it : entries_of_item (skipn c temp) 0 it = entries_of_item temp c it.
Proof. destruct it as [e s|m]; [reflexivity|]. cbn [entries_of_item]. unfold entries_at. rewrite <- skipn_add. reflexivity. Qed.

(** the loop of _recover_dual_values, started at any position of the dual vector *)
Lemma recover_loop_spec l : forall temp c c2,
  recover_loop l temp c c2 = (mains l (skipn c temp), ents l (skipn c temp), c2 + length l).
Proof.
  induction l as [|it l IH]; intros temp c c2; cbn [mains ents length].
  - rewrite Nat.add_0_r. reflexivity.
  - rewrite <- skipn_add, hd_skipn, entries_of_item_skipn.
    destruct it as [e s|m]; cbn [recover_loop width entries_of_item];
      rewrite ?Nat.add_assoc, IH, <- (Nat.add_assoc c2); reflexivity.
Qed.

(** [mains] and [ents] by position in the dual vector *)
Lemma mains_nth l : forall temp c,
  mains l (skipn c temp) = map (fun k => nth (pos_from c l k) temp dnone) (seq 0 (length l)).
Proof.
  induction l as [|it l IH]; intros temp c; cbn [mains length seq map pos_from]; [reflexivity|].
  rewrite hd_skipn, <- skipn_add, IH, <- seq_shift, map_map. reflexivity.
Qed.

Lemma ents_nth l : forall temp c,
  ents l (skipn c temp)
  = map (fun k => entries_of_item temp (pos_from c l k) (nth k l (SC [] Ineq))) (seq 0 (length l)).
Proof.
  induction l as [|it l IH]; intros temp c; cbn [ents length seq map pos_from nth]; [reflexivity|].
  rewrite entries_of_item_skipn, <- skipn_add, IH, <- seq_shift, map_map. reflexivity.
Qed.

Fixpoint total_width (l : sent) : nat :=
  match l with [] => 0 | it :: r => width it + total_width r end.

Definition item_rows (kk : nat) (it : item) : list solver_row :=
  match it with SC e s => [scalar_row e s] | LMI m => lmi_rows kk m end.

Lemma emit_from_cons kk it l : emit_from kk (it :: l) = item_rows kk it ++ emit_from (kk + length (lmis [it])) l.
Proof. destruct it as [e s|m]; cbn [emit_from item_rows lmis flat_map length app]; rewrite ?Nat.add_0_r, ?Nat.add_1_r; reflexivity. Qed.

(** blocks of the same length [c], followed by anything: element [j] of block [i] *)
Lemma nth_flat_map_blocks {A B} (g : A -> list B) c l post da db : (forall a, length (g a) = c) ->
  forall i j, i < length l -> j < c -> nth (i * c + j) (flat_map g l ++ post) db = nth j (g (nth i l da)) db.
Proof.
  intro Hg. induction l as [|a l IH]; intros i j Hi Hj; [inversion Hi|].
  cbn [flat_map]. rewrite <- app_assoc. destruct i as [|i]; cbn [nth Nat.mul Nat.add].
  - apply app_nth1. rewrite Hg. exact Hj.
  - rewrite app_nth2; rewrite Hg; [|lia].
    replace (c + i * c + j - c) with (i * c + j) by lia. apply IH; [cbn [length] in Hi; lia|exact Hj].
Qed.

Lemma length_entry_rows k m : length (entry_rows k m) = nrows m * ncols m.
Proof.
  unfold entry_rows. rewrite <- (seq_length (nrows m) 0) at 2. generalize (seq 0 (nrows m)).
  induction l as [|a l IH]; cbn [flat_map length]; [reflexivity|].
  rewrite app_length, map_length, seq_length, IH. reflexivity.
Qed.

Lemma nth_entry_rows k m post i j : i < nrows m -> j < ncols m ->
  nth (i * ncols m + j) (entry_rows k m ++ post) RGram = REnt k i j (entry m i j).
Proof.
  intros Hi Hj. unfold entry_rows.
  rewrite (nth_flat_map_blocks _ (ncols m) _ _ 0) by (intros; rewrite ?map_length, ?seq_length; trivial).
  rewrite seq_nth by exact Hi. cbn [Nat.add].
  rewrite (nth_indep _ RGram (REnt k i 0 (entry m i 0))) by (rewrite map_length, seq_length; exact Hj).
  rewrite (map_nth (fun j => REnt k i j (entry m i j))), seq_nth by exact Hj. reflexivity.
Qed.

Lemma length_item_rows k it : length (item_rows k it) = width it.
Proof. destruct it as [e s|m]; [reflexivity|]. cbn [item_rows lmi_rows length width]. rewrite length_entry_rows. reflexivity. Qed.

Lemma length_emit_from k l : length (emit_from k l) = total_width l.
Proof.
  revert k. induction l as [|it l IH]; intro k; [reflexivity|].
  rewrite emit_from_cons, app_length, length_item_rows, IH. reflexivity.
Qed.

Lemma length_emit l : length (emit l) = 1 + total_width l.
Proof. unfold emit. cbn [length]. rewrite length_emit_from. reflexivity. Qed.

Lemma width_pos it : 1 <= width it.
Proof. destruct it; cbn; lia. Qed.

Lemma pos_from_total c l : pos_from c l (length l) = c + total_width l.
Proof.
  revert c. induction l as [|it l IH]; intro c; cbn [pos_from length total_width]; [lia|].
  rewrite IH. lia.
Qed.

Lemma pos_from_step c l k it :
  nth_error l k = Some it -> pos_from c l (S k) = pos_from c l k + width it.
Proof.
  revert c k. induction l as [|a l IH]; intros c k H; [destruct k; discriminate|].
  destruct k as [|k]; cbn [nth_error] in H.
  - injection H as ->. cbn [pos_from]. destruct l; reflexivity.
  - cbn [pos_from]. apply IH. exact H.
Qed.

Lemma lmi_index_cons a l k : lmi_index (a :: l) (S k) = length (lmis [a]) + lmi_index l k.
Proof. unfold lmi_index, lmis. cbn [firstn flat_map]. rewrite app_length, app_nil_r. reflexivity. Qed.

(** the rows of item [k] stand at its position, numbered by its index among the LMIs *)
Lemma emit_from_item l : forall kk (pre0 : list solver_row) k it,
  nth_error l k = Some it ->
  exists pre post, pre0 ++ emit_from kk l = pre ++ item_rows (kk + lmi_index l k) it ++ post
                   /\ length pre = pos_from (length pre0) l k.
Proof.
  induction l as [|a l IH]; intros kk pre0 k it Hk; [destruct k; discriminate|].
  rewrite emit_from_cons. destruct k as [|k]; cbn [nth_error pos_from] in *.
  - injection Hk as ->. exists pre0, (emit_from (kk + length (lmis [it])) l).
    unfold lmi_index. cbn [firstn lmis flat_map length]. rewrite Nat.add_0_r. split; reflexivity.
  - rewrite app_assoc, lmi_index_cons, Nat.add_assoc, <- (length_item_rows kk a), <- app_length.
    apply IH, Hk.
Qed.

Theorem layout :
  forall (tracked : sent) (temp : list dval),
    length temp = length (emit tracked) ->
    let exposed_duals := map (fun k => nth (main_pos tracked k) temp dnone) (seq 0 (length tracked)) in
    (* entries_dual_variable_value of each LMI: the n*m duals that follow its main row, reshaped; nothing for a scalar *)
    let exposed_entries :=
      map (fun k => entries_of_item temp (main_pos tracked k) (nth k tracked (SC [] Ineq))) (seq 0 (length tracked)) in
    (* what _recover_dual_values returns, and its final assertion *)
    recover tracked temp = (nth 0 temp dnone :: exposed_duals, nth 0 temp dnone, S (length tracked), exposed_entries)
    /\ length (nth 0 temp dnone :: exposed_duals) = S (length tracked)
    (* assign_dual_values gives item k the dual found at the position of ITS main row *)
    /\ assign tracked (nth 0 temp dnone :: exposed_duals) = combine tracked exposed_duals
    /\ nth 0 (emit tracked) (RLe []) = RGram
    /\ (forall k it, nth_error tracked k = Some it ->
          nth (main_pos tracked k) (emit tracked) RGram = main_row (lmi_index tracked k) it
          (* the rows between two main rows are exactly the n*m entry equalities of the LMI, row-major *)
          /\ main_pos tracked (S k) = main_pos tracked k + width it
          /\ (forall m, it = LMI m -> forall i j, i < nrows m -> j < ncols m ->
                nth (main_pos tracked k + 1 + i * ncols m + j) (emit tracked) RGram
                = REnt (lmi_index tracked k) i j (entry m i j)))
    (* nothing is left at the end of the vector *)
    /\ main_pos tracked (length tracked) = length (emit tracked).
Proof.
  intros tracked temp _ exposed_duals exposed_entries. repeat apply conj.
  - (* recover *) unfold recover. rewrite recover_loop_spec, mains_nth, ents_nth. reflexivity.
  - (* its final assertion *) cbn [length]. unfold exposed_duals. rewrite map_length, seq_length. reflexivity.
  - (* assign *) reflexivity.
  - (* the first row *) reflexivity.
  - (* item k: the rows of the item stand at [main_pos tracked k] *)
    intros k it Hk.
    destruct (emit_from_item tracked 0 [RGram] k it Hk) as [pre [post [He Hp]]].
    change (emit tracked = pre ++ item_rows (lmi_index tracked k) it ++ post) in He.
    change (length pre = main_pos tracked k) in Hp.
    repeat apply conj.
    + rewrite He, <- Hp, <- (Nat.add_0_r (length pre)), app_nth2_plus. destruct it; reflexivity.
    + apply pos_from_step. exact Hk.
    + intros m -> i j Hi Hj. rewrite He, <- Hp, <- !Nat.add_assoc, app_nth2_plus.
      cbn [item_rows lmi_rows Nat.add app nth]. apply nth_entry_rows; assumption.
  - (* nothing left over *) unfold main_pos. rewrite pos_from_total, length_emit. reflexivity.
Qed.

(** ** Object identity: when every object is sent once, each position shows its own values *)
Lemma last_pos_absent ids : forall x i found, ~ In x ids -> last_pos_from ids x i found = found.
Proof.
  induction ids as [|y ids IH]; intros x i found H; cbn [last_pos_from]; [reflexivity|].
  destruct (Nat.eqb_spec y x) as [->|_]; [exfalso; apply H; left; reflexivity|].
  apply IH. intro; apply H; right; assumption.
Qed.

Lemma last_pos_nodup ids : forall x i found j,
  NoDup ids -> nth_error ids j = Some x -> last_pos_from ids x i found = i + j.
Proof.
  induction ids as [|y ids IH]; intros x i found j Hnd Hj; [destruct j; discriminate|].
  inversion Hnd as [|? ? Hn Hnd']; subst. cbn [last_pos_from]. destruct j as [|j]; cbn [nth_error] in Hj.
  - injection Hj as ->. rewrite Nat.eqb_refl. rewrite last_pos_absent by exact Hn. lia.
  - destruct (Nat.eqb_spec y x) as [->|_].
    + exfalso. apply Hn. eapply nth_error_In. exact Hj.
    + rewrite (IH x (S i) found j Hnd' Hj). lia.
Qed.

Lemma map_nth_seq {A} (l : list A) d : map (fun k => nth k l d) (seq 0 (length l)) = l.
Proof.
  induction l as [|a l IH]; cbn [length seq map nth]; [reflexivity|].
  f_equal. rewrite <- seq_shift, map_map. exact IH.
Qed.

Theorem by_object_nodup {A} (ids : list nat) (vals : list A) d :
  NoDup ids -> length ids = length vals -> by_object ids vals d = vals.
Proof.
  intros Hnd Hlen. unfold by_object. rewrite <- (map_nth_seq vals d) at 2.
  apply map_ext_in. intros k Hk. apply in_seq in Hk. f_equal.
  assert (Hk' : k < length ids) by lia.
  rewrite (last_pos_nodup ids (nth k ids 0) 0 k k Hnd); [reflexivity|].
  apply nth_error_nth'. exact Hk'.
Qed.
