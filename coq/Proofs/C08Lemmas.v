(** Lemmas shared by the C08 proofs: [veq] as a setoid, meaning of leaves / pruned dictionaries,
    the oracle of a leaf function, equality of outcomes up to representation, and the verification
    condition [wp] of a step program: running a program hands over, for every dictionary it builds,
    well-formedness and meaning instead of the dictionary itself, so that terms stay small. *)
From Coq Require Import List Reals Qreals Lra String.
From PV Require Import Base.IPS Model.Dict Model.Terms Model.StepsRT Spec.Sem Spec.Classes Spec.StepsSpec
                       Proofs.DictLemmas Proofs.SemLemmas.
Import ListNotations.
Local Open Scope R_scope.

Section Setoid.
  Context {E : ips}.
  Global Instance veq_Equivalence : Equivalence (@veq E).
  Proof. split; [exact veq_refl|exact veq_sym|exact veq_trans]. Qed.
  Global Instance inner_Proper : Proper (@veq E ==> @veq E ==> eq) (@inner E).
  Proof. intros a a' Ha b b' Hb. apply veq_inner; assumption. Qed.
  Global Instance vadd_Proper : Proper (@veq E ==> @veq E ==> @veq E) (@vadd E).
  Proof. intros a a' Ha b b' Hb. apply veq_add; assumption. Qed.
  Global Instance vscal_Proper : Proper (eq ==> @veq E ==> @veq E) (@vscal E).
  Proof. intros c c' <- a a' Ha. apply veq_scal; assumption. Qed.
  Global Instance vneg_Proper : Proper (@veq E ==> @veq E) (@vneg E).
  Proof. intros a a' Ha. apply veq_neg; assumption. Qed.
  Global Instance vsub_Proper : Proper (@veq E ==> @veq E ==> @veq E) (@vsub E).
  Proof. intros a a' Ha b b' Hb. apply veq_sub; assumption. Qed.
  Global Instance nrm2_Proper : Proper (@veq E ==> eq) (@nrm2 E).
  Proof. intros a a' Ha. unfold nrm2. rewrite Ha. reflexivity. Qed.
End Setoid.

Lemma veq_intro {E : ips} (u v : E) : (forall w, inner u w = inner v w) -> veq u v.
Proof. exact (fun H => H). Qed.

(** bilinear expansion, then a fixed orientation of every inner product of two atoms *)
Ltac bilin :=
  unfold nrm2, vsub, vneg;
  repeat (rewrite ?inner_add_l, ?inner_add_r, ?inner_scal_l, ?inner_scal_r, ?inner_zero_l, ?inner_zero_r).
Ltac bilin_in H :=
  unfold nrm2, vsub, vneg in H;
  repeat (rewrite ?inner_add_l, ?inner_add_r, ?inner_scal_l, ?inner_scal_r, ?inner_zero_l, ?inner_zero_r in H).
Ltac orient1 a l :=
  lazymatch l with
  | nil => idtac
  | cons ?b ?r => rewrite ?(inner_sym _ b a); orient1 a r
  end.
Ltac orient l :=
  lazymatch l with
  | nil => idtac
  | cons ?a ?r => orient1 a r; orient r
  end.

Section Meaning.
  Context {E : ips}.
  Variable rho : nat -> E.
  Variable phi : nat -> R.

  Lemma evalP_leaf n : veq (evalP rho (leafP n)) (rho n).
  Proof.
    intros w. unfold leafP. cbn [evalP]. rewrite inner_add_l, inner_scal_l, inner_zero_l, Q2R_1. lra.
  Qed.
  Lemma evalE_leaf n : evalE rho phi (leafX n) = phi n.
  Proof. unfold leafX. cbn [evalE evalK]. rewrite Q2R_1. lra. Qed.
  Lemma evalP_nil : evalP rho [] = vzero.
  Proof. reflexivity. Qed.
End Meaning.

Lemma prune_meaning x (m : forall E : ips, (nat -> E) -> E) :
  NoDupKeys nat x -> (forall E rho, veq (evalP rho x) (m E rho)) ->
  pwf (prune x) /\ forall E rho, veq (evalP rho (prune x)) (m E rho).
Proof.
  intros Hx Hm. split; [apply NoDupKeys_prune, Hx|]. intros E rho. exact (veq_trans _ _ _ (evalP_prune rho x) (Hm E rho)).
Qed.
Lemma prune_leafP n : prune (leafP n) = leafP n. Proof. reflexivity. Qed.
Lemma prune_leafX n : prune (leafX n) = leafX n. Proof. reflexivity. Qed.

Lemma upd_same {A} v (x : A) m : upd v x m v = x.
Proof. unfold upd. rewrite Nat.eqb_refl. reflexivity. Qed.
Lemma upd_other {A} v (a : A) m k : k <> v -> upd v a m k = m k.
Proof. intros H. unfold upd. destruct (Nat.eqb_spec k v); [contradiction|reflexivity]. Qed.
Lemma upd_wf {A} (P : A -> Prop) v a (m : nat -> A) :
  P a -> (forall k, P (m k)) -> forall k, P (upd v a m k).
Proof. intros Ha Hm k. unfold upd. destruct (Nat.eqb k v); auto. Qed.

Lemma nth_wf {A} (P : A -> Prop) (l : list A) (d : A) :
  P d -> Forall P l -> forall k, P (nth k l d).
Proof.
  intros Hd Hl k. destruct (nth_in_or_default k l d) as [Hin|Heq]; [|rewrite Heq; exact Hd].
  rewrite Forall_forall in Hl. apply Hl, Hin.
Qed.
Lemma Forall2_same {A} (R : A -> A -> Prop) l : (forall a, R a a) -> Forall2 R l l.
Proof. intros H. induction l; constructor; auto. Qed.
Lemma Forall2_imp {A B} (R R' : A -> B -> Prop) l l' :
  (forall a b, R a b -> R' a b) -> Forall2 R l l' -> Forall2 R' l l'.
Proof. intros H. induction 1; constructor; auto. Qed.

Lemma peq_refl a : peq a a. Proof. intros E rho; reflexivity. Qed.
Lemma xeq_refl a : xeq a a. Proof. intros E rho phi; reflexivity. Qed.
Lemma ceq_refl a : ceq a a. Proof. split; [reflexivity|intros; tauto]. Qed.

Lemma smp_eq_refl a : smp_eq a a.
Proof. destruct a as [[x g] v]. split; [|split]; auto using peq_refl, xeq_refl. Qed.
Lemma frec_eq_refl r : frec_eq r r.
Proof. split; [reflexivity|split; apply Forall2_same; auto using smp_eq_refl, ceq_refl]. Qed.
Lemma state_eq_refl s : state_eq s s.
Proof. split; [reflexivity|split; [reflexivity|intros f; apply frec_eq_refl]]. Qed.

Lemma peq_same_meaning a b (m : forall E : ips, (nat -> E) -> E) :
  (forall E rho, veq (evalP rho a) (m E rho)) -> (forall E rho, veq (evalP rho b) (m E rho)) -> peq a b.
Proof. intros Ha Hb E rho. rewrite Ha, Hb. reflexivity. Qed.
Lemma ceq_same_meaning a b (m : forall E : ips, (nat -> E) -> (nat -> R) -> Prop) :
  snd a = snd b ->
  (forall E rho phi, holds rho phi a <-> m E rho phi) -> (forall E rho phi, holds rho phi b <-> m E rho phi) ->
  ceq a b.
Proof. intros Hs Ha Hb. split; [exact Hs|]. intros E rho phi. rewrite Ha, Hb. tauto. Qed.

Lemma Forall2_ceq_same_meaning {A} sn (m : A -> forall E : ips, (nat -> E) -> (nat -> R) -> Prop) l cs cs' :
  Forall2 (fun d c => snd c = sn /\ forall E rho phi, holds rho phi c <-> m d E rho phi) l cs ->
  Forall2 (fun d c => snd c = sn /\ forall E rho phi, holds rho phi c <-> m d E rho phi) l cs' ->
  Forall2 ceq cs cs'.
Proof.
  intros H. revert cs'. induction H as [|d c l cs [Hc Hh] _ IH]; intros cs' H';
    inversion_clear H' as [|? c' ? ? [Hc' Hh'] Hl']; constructor.
  - exact (ceq_same_meaning _ _ (m d) (eq_trans Hc (eq_sym Hc')) Hh Hh').
  - apply IH, Hl'.
Qed.

Lemma state_eq_bump a b s s' : state_eq s s' -> state_eq (bump a b s) (bump a b s').
Proof.
  intros (H1 & H2 & H3). unfold bump, state_eq; cbn [pt_ctr ex_ctr funs].
  split; [congruence|split; [congruence|exact H3]].
Qed.

Lemma state_eq_updf f r r' s s' :
  state_eq s s' -> frec_eq r r' ->
  state_eq (mkState (pt_ctr s) (ex_ctr s) (updf f r (funs s))) (mkState (pt_ctr s') (ex_ctr s') (updf f r' (funs s'))).
Proof.
  intros (H1 & H2 & H3) Hr. split; [exact H1|split; [exact H2|]]. intros f'. cbn [funs]. unfold updf.
  destruct (Nat.eqb f' f); [exact Hr|apply H3].
Qed.

Lemma state_eq_add_sample f a a' s s' :
  state_eq s s' -> smp_eq a a' -> state_eq (add_sample f a s) (add_sample f a' s').
Proof.
  intros Hs Ha. apply state_eq_updf; [exact Hs|]. destruct (proj2 (proj2 Hs) f) as (R1 & R2 & R3).
  split; [exact R1|split; [|exact R3]]. apply Forall2_app; [exact R2|constructor; [exact Ha|constructor]].
Qed.

Lemma state_eq_add_cons f a a' s s' :
  state_eq s s' -> ceq a a' -> state_eq (add_cons f a s) (add_cons f a' s').
Proof.
  intros Hs Ha. apply state_eq_updf; [exact Hs|]. destruct (proj2 (proj2 Hs) f) as (R1 & R2 & R3).
  split; [exact R1|split; [exact R2|]]. apply Forall2_app; [exact R3|constructor; [exact Ha|constructor]].
Qed.

Lemma state_eq_add_conss f l l' s s' :
  state_eq s s' -> Forall2 ceq l l' -> state_eq (add_conss f l s) (add_conss f l' s').
Proof.
  intros Hs Hl. revert s s' Hs. induction Hl as [|a a' l l' Ha Hl IH]; intros s s' Hs; cbn; [exact Hs|].
  apply IH. apply state_eq_add_cons; assumption.
Qed.

Lemma find_eval_wf p l g v :
  Forall sample_wf l -> find_eval p l = Some (g, v) -> NoDupKeys nat g /\ NoDupKeys ekey v.
Proof.
  induction l as [|[[x g'] v'] l IH]; cbn [find_eval]; intros Hl H; [discriminate|].
  inversion Hl as [|? ? Hs Hl']; subst. destruct (dict_eqb Nat.eqb x p).
  - injection H as <- <-. destruct Hs as (_ & Hg & Hv). split; assumption.
  - apply IH; assumption.
Qed.

Lemma oracle_leaf_cases f p s :
  let r := funs s f in
  (exists g v, find_eval p (f_points r) = Some (g, v) /\ f_reuse r = true /\
               oracle_leaf f p s = (g, v, p, s))
  \/ (exists g v, find_eval p (f_points r) = Some (g, v) /\ f_reuse r = false /\
                  oracle_leaf f p s =
                  (leafP (pt_ctr s), prune v, prune p,
                   add_sample f (prune p, leafP (pt_ctr s), prune v) (bump 1 0 s)))
  \/ (find_eval p (f_points r) = None /\
      oracle_leaf f p s =
      (leafP (pt_ctr s), leafX (ex_ctr s), prune p,
       add_sample f (prune p, leafP (pt_ctr s), leafX (ex_ctr s)) (bump 1 1 s))).
Proof.
  cbv zeta. unfold oracle_leaf. destruct (find_eval p (f_points (funs s f))) as [[g v]|] eqn:Hf.
  - destruct (f_reuse (funs s f)) eqn:Hr.
    + left. exists g, v. auto.
    + right; left. exists g, v. repeat split; reflexivity.
  - right; right. split; reflexivity.
Qed.

Lemma oracle_leaf_wf f p s g v p' s1 :
  state_wf s -> NoDupKeys nat p -> oracle_leaf f p s = (g, v, p', s1) ->
  NoDupKeys nat g /\ NoDupKeys ekey v /\ NoDupKeys nat p' /\ peq p' p.
Proof.
  intros Hs Hp Ho. destruct (oracle_leaf_cases f p s) as [(g0 & v0 & Hf & _ & He)|[(g0 & v0 & Hf & _ & He)|(Hf & He)]];
    rewrite He in Ho; injection Ho as <- <- <- <-.
  - destruct (find_eval_wf _ _ _ _ (Hs f) Hf). split; [|split; [|split]]; try assumption. apply peq_refl.
  - destruct (find_eval_wf _ _ _ _ (Hs f) Hf).
    split; [apply NoDupKeys_single|]. split; [apply NoDupKeys_prune; assumption|].
    split; [apply NoDupKeys_prune, Hp|]. intros E rho. apply evalP_prune.
  - split; [apply NoDupKeys_single|]. split; [apply NoDupKeys_single|].
    split; [apply NoDupKeys_prune, Hp|]. intros E rho. apply evalP_prune.
Qed.

Lemma value_leaf_wf f p s v p' s1 :
  state_wf s -> NoDupKeys nat p -> value_leaf f p s = (v, p', s1) ->
  NoDupKeys ekey v /\ NoDupKeys nat p' /\ peq p' p.
Proof.
  intros Hs Hp Hv. unfold value_leaf in Hv.
  destruct (find_eval p (f_points (funs s f))) as [[g0 v0]|] eqn:Hf.
  - injection Hv as <- <- <-. destruct (find_eval_wf _ _ _ _ (Hs f) Hf). split; [|split]; try assumption.
    apply peq_refl.
  - destruct (oracle_leaf f p s) as [[[g1 v1] p1] s2] eqn:Ho. injection Hv as <- <- <-.
    destruct (oracle_leaf_wf _ _ _ _ _ _ _ Hs Hp Ho) as (_ & H2 & H3 & H4). auto.
Qed.

Global Arguments nth {A} !n !l default : simpl nomatch.

Section Defined.
  Variable penv : nat -> Q.
  Notation penvR := (fun p => Q2R (penv p)).

  Lemma nonzero_denote s : sdef penvR s -> Qeq_bool (seval penv s) 0 = false -> sdenote penvR s <> 0.
  Proof.
    intros Hs Hb Hz. rewrite <- (seval_denote penv s Hs) in Hz.
    assert (Hq : (seval penv s == 0)%Q) by (apply eqR_Qeq; rewrite Hz; symmetry; apply RMicromega.Q2R_0).
    apply Qeq_bool_iff in Hq. congruence.
  Qed.

  Lemma sdefb_sdef s : sdefb penv s = true -> sdef penvR s.
  Proof.
    induction s; cbn [sdefb sdef]; intros H; repeat (apply andb_true_iff in H as [H ?]); auto.
    repeat split; auto. apply nonzero_denote; [auto|apply negb_true_iff; assumption].
  Qed.

  Lemma pdefb_pdef t : pdefb penv t = true -> pdef penvR t.
  Proof.
    induction t; cbn [pdefb pdef]; intros H; repeat (apply andb_true_iff in H as [H ?]); auto using sdefb_sdef.
    repeat split; auto using sdefb_sdef. apply nonzero_denote; [auto using sdefb_sdef|apply negb_true_iff; assumption].
  Qed.

  Lemma xdefb_xdef t : xdefb penv t = true -> xdef penvR t.
  Proof.
    induction t; cbn [xdefb xdef]; intros H; repeat (apply andb_true_iff in H as [H ?]);
      auto using sdefb_sdef, pdefb_pdef.
    repeat split; auto using sdefb_sdef. apply nonzero_denote; [auto using sdefb_sdef|apply negb_true_iff; assumption].
  Qed.

  Lemma cdefb_cdef t : cdefb penv t = true -> cdef penvR t.
  Proof.
    destruct t; cbn [cdefb cdef]; intros H; apply andb_true_iff in H as [H ?]; auto using sdefb_sdef, xdefb_xdef.
  Qed.
End Defined.

(** the sense of a comparison does not depend on its operands *)
Definition csense (t : cterm) : sense :=
  match t with CEq _ _ | CEqS _ _ | CSEq _ _ => Equ | _ => Ineq end.
Lemma compileC_sense penv vp vx t : snd (compileC penv vp vx t) = csense t.
Proof. destruct t; reflexivity. Qed.

Definition wfe (e : env) : Prop := (forall v, pND (e_p e v)) /\ (forall v, eND (e_x e v)).

Lemma wfe_setp v d e : pND d -> wfe e -> wfe (setp v d e).
Proof. intros Hd [Hp Hx]. split; [apply upd_wf; assumption|exact Hx]. Qed.
Lemma wfe_setx v d e : eND d -> wfe e -> wfe (setx v d e).
Proof. intros Hd [Hp Hx]. split; [exact Hp|apply upd_wf; assumption]. Qed.
Lemma wfe_init pts fs scs dirs : Forall pND pts -> wfe (init_env (mk_args pts fs scs dirs)).
Proof. intros H. split; [exact (nth_wf pND pts [] (NoDupKeys_nil nat) H)|intros v; apply NoDupKeys_nil]. Qed.

Section DenoteExt.
  Context {E : ips}.
  Variables (sc : nat -> R) (up up' : nat -> E) (ux ux' : nat -> R).
  Hypothesis Hp : forall u, veq (up u) (up' u).
  Hypothesis Hx : forall u, ux u = ux' u.

  Lemma denoteP_ext t : veq (denoteP sc up t) (denoteP sc up' t).
  Proof. induction t; cbn [denoteP]; auto using veq_add, veq_sub, veq_neg, veq_scal. Qed.

  Lemma denoteX_ext t : denoteX sc up ux t = denoteX sc up' ux' t.
  Proof. induction t; cbn [denoteX]; auto using veq_inner, denoteP_ext; congruence. Qed.

  Lemma denoteC_ext t : denoteC sc up ux t <-> denoteC sc up' ux' t.
  Proof. destruct t; cbn [denoteC]; rewrite !denoteX_ext; reflexivity. Qed.
End DenoteExt.

(** meaning of a point / an expression variable, as a function of the valuation of the leaves *)
Definition pmean : Type := forall E : ips, (nat -> E) -> E.
Definition xmean : Type := forall E : ips, (nat -> E) -> (nat -> R) -> R.

(** every variable means what its dictionary means *)
Local Notation self_p e := (fun u (E : ips) (rho : nat -> E) => evalP rho (e_p e u)).
Local Notation self_x e := (fun u (E : ips) (rho : nat -> E) phi => evalE rho phi (e_x e u)).

Section WP.
  Variable a : args.
  Notation sc := (fun p => Q2R (a_scal a p)).

  Definition den_p (mp : nat -> pmean) (t : pterm) : pmean := fun E rho => denoteP sc (fun u => mp u E rho) t.
  Definition den_x (mp : nat -> pmean) (mx : nat -> xmean) (t : xterm) : xmean :=
    fun E rho phi => denoteX sc (fun u => mp u E rho) (fun u => mx u E rho phi) t.

  (** [wp prog e s mp mx Q]: [Q] holds of the result and final state of [prog] run from [(e, s)], where
      [mp], [mx] give the meaning of the variables.  The dictionary bound by an assignment is known only
      through its well-formedness and its meaning (a copy [v = u] excepted), what the oracle returns only
      through its well-formedness; new leaves mean their valuation, pruning changes no meaning; a term
      that divides by zero raises. *)
  Fixpoint wp (prog : program) (e : env) (s : state) (mp : nat -> pmean) (mx : nat -> xmean)
           (Q : result -> state -> Prop) : Prop :=
    match prog with
    | [] => Q RNone s
    | Return l :: _ => Q (ROk (map (eval_rv e) l)) s
    | Raise exn :: _ => Q (RErr exn) s
    | ForEach d body :: rest =>
        wfe e ->
        match exec_loop a d body (a_dirs a) (e, s) with
        | inl (e', s') => wfe e' /\ wp rest e' s' (self_p e') (self_x e') Q
        | inr (exn, (_, s')) => Q (RErr exn) s'
        end
    | I i :: rest =>
        match i with
        | FreshPoint v =>
            wp rest (setp v (leafP (pt_ctr s)) e) (bump 1 0 s) (upd v (fun E rho => rho (pt_ctr s)) mp) mx Q
        | FreshExpr v =>
            wp rest (setx v (leafX (ex_ctr s)) e) (bump 0 1 s) mp (upd v (fun E rho phi => phi (ex_ctr s)) mx) Q
        | Oracle f p g fx =>
            state_wf s /\
            let '(gd, vd, pd, s') := oracle_leaf (a_fun a f) (e_p e p) s in
            pND gd -> eND vd -> pND pd -> peq pd (e_p e p) ->
            wp rest (setx fx vd (setp g gd (setp p pd e))) s'
               (upd g (fun E rho => evalP rho gd) mp) (upd fx (fun E rho phi => evalE rho phi vd) mx) Q
        | Value f p fx =>
            state_wf s /\
            let '(vd, pd, s') := value_leaf (a_fun a f) (e_p e p) s in
            eND vd -> pND pd -> peq pd (e_p e p) ->
            wp rest (setx fx vd (setp p pd e)) s' mp (upd fx (fun E rho phi => evalE rho phi vd) mx) Q
        | LetP v t =>
            if pdefb (a_scal a) t then
              match t with
              | PVar u => wp rest (setp v (e_p e u) e) s (upd v (mp u) mp) mx Q
              | _ => forall d, pND d -> (forall E rho, veq (evalP rho d) (den_p mp t E rho)) ->
                     wp rest (setp v d e) s (upd v (den_p mp t) mp) mx Q
              end
            else Q (RErr zdiv) s
        | LetX v t =>
            if xdefb (a_scal a) t then
              match t with
              | XVar u => wp rest (setx v (e_x e u) e) s mp (upd v (mx u) mx) Q
              | _ => forall d, eND d -> (forall E rho phi, evalE rho phi d = den_x mp mx t E rho phi) ->
                     wp rest (setx v d e) s mp (upd v (den_x mp mx t) mx) Q
              end
            else Q (RErr zdiv) s
        | LetC c t =>
            if cdefb (a_scal a) t then
              forall k, snd k = csense t ->
                (forall (E : ips) (rho : nat -> E) phi,
                   holds rho phi k <-> denoteC sc (fun u => mp u E rho) (fun u => mx u E rho phi) t) ->
                wp rest (setc c k e) s mp mx Q
            else Q (RErr zdiv) s
        | SetName _ _ => wp rest e s mp mx Q
        | AddPoint f x g fx =>
            wp rest (setx fx (prune (e_x e fx)) (setp g (prune (e_p e g)) (setp x (prune (e_p e x)) e)))
               (add_sample (a_fun a f) (prune (e_p e x), prune (e_p e g), prune (e_x e fx)) s) mp mx Q
        | AddConstraint f c => wp rest e (add_cons (a_fun a f) (e_c e c) s) mp mx Q
        end
    end.

  Definition env_ok (e : env) (mp : nat -> pmean) (mx : nat -> xmean) : Prop :=
    wfe e /\ (forall u E rho, veq (evalP rho (e_p e u)) (mp u E rho)) /\
    (forall u E rho phi, evalE rho phi (e_x e u) = mx u E rho phi).

  Lemma ok_self e : wfe e -> env_ok e (self_p e) (self_x e).
  Proof. intros He. split; [exact He|]. split; intros u E rho; reflexivity. Qed.

  Lemma ok_setp v d m e mp mx :
    pND d -> (forall E rho, veq (evalP rho d) (m E rho)) -> env_ok e mp mx -> env_ok (setp v d e) (upd v m mp) mx.
  Proof.
    intros Hd Hm [He [Mp Mx]]. split; [apply wfe_setp; assumption|]. split; [|exact Mx].
    intros u. cbn [setp e_p]. unfold upd. destruct (Nat.eqb u v); [exact Hm|apply Mp].
  Qed.
  Lemma ok_setx v d m e mp mx :
    eND d -> (forall E rho phi, evalE rho phi d = m E rho phi) -> env_ok e mp mx ->
    env_ok (setx v d e) mp (upd v m mx).
  Proof.
    intros Hd Hm [He [Mp Mx]]. split; [apply wfe_setx; assumption|]. split; [exact Mp|].
    intros u. cbn [setx e_x]. unfold upd. destruct (Nat.eqb u v); [exact Hm|apply Mx].
  Qed.
  (** a variable gets another dictionary of the meaning it has: the oracle touches its query point,
      [add_point] prunes its three arguments *)
  Lemma ok_samep v d e mp mx :
    pND d -> (forall E rho, veq (evalP rho d) (mp v E rho)) -> env_ok e mp mx -> env_ok (setp v d e) mp mx.
  Proof.
    intros Hd Hm [He [Mp Mx]]. split; [apply wfe_setp; assumption|]. split; [|exact Mx].
    intros u. cbn [setp e_p]. unfold upd. destruct (Nat.eqb_spec u v) as [->|_]; [exact Hm|apply Mp].
  Qed.
  Lemma ok_samex v d e mp mx :
    eND d -> (forall E rho phi, evalE rho phi d = mx v E rho phi) -> env_ok e mp mx -> env_ok (setx v d e) mp mx.
  Proof.
    intros Hd Hm [He [Mp Mx]]. split; [apply wfe_setx; assumption|]. split; [exact Mp|].
    intros u. cbn [setx e_x]. unfold upd. destruct (Nat.eqb_spec u v) as [->|_]; [exact Hm|apply Mx].
  Qed.

  Lemma compileP_ok e mp mx t :
    env_ok e mp mx -> pdefb (a_scal a) t = true ->
    pND (compileP (a_scal a) (e_p e) t) /\
    forall E rho, veq (evalP rho (compileP (a_scal a) (e_p e) t)) (den_p mp t E rho).
  Proof.
    intros [[Hp Hx] [Mp Mx]] Hi. split; [apply compileP_wf, Hp|]. intros E rho.
    rewrite (compileP_denote rho (a_scal a) _ Hp t (pdefb_pdef _ _ Hi)). apply denoteP_ext. intros u; apply Mp.
  Qed.
  Lemma compileX_ok e mp mx t :
    env_ok e mp mx -> xdefb (a_scal a) t = true ->
    eND (compileX (a_scal a) (e_p e) (e_x e) t) /\
    forall E rho phi, evalE rho phi (compileX (a_scal a) (e_p e) (e_x e) t) = den_x mp mx t E rho phi.
  Proof.
    intros [[Hp Hx] [Mp Mx]] Hi. split; [apply compileX_wf; assumption|]. intros E rho phi.
    rewrite (compileX_denote rho phi (a_scal a) _ _ Hp Hx t (xdefb_xdef _ _ Hi)).
    apply denoteX_ext; intros u; [apply Mp|apply Mx].
  Qed.
  Lemma compileC_ok e mp mx t :
    env_ok e mp mx -> cdefb (a_scal a) t = true ->
    snd (compileC (a_scal a) (e_p e) (e_x e) t) = csense t /\
    forall (E : ips) (rho : nat -> E) phi,
      holds rho phi (compileC (a_scal a) (e_p e) (e_x e) t)
      <-> denoteC sc (fun u => mp u E rho) (fun u => mx u E rho phi) t.
  Proof.
    intros [[Hp Hx] [Mp Mx]] Hi. split; [apply compileC_sense|]. intros E rho phi.
    rewrite (compileC_holds rho phi (a_scal a) _ _ Hp Hx t (cdefb_cdef _ _ Hi)).
    apply denoteC_ext; intros u; [apply Mp|apply Mx].
  Qed.

  Theorem wp_sound prog : forall e s mp mx Q,
    env_ok e mp mx -> wp prog e s mp mx Q -> let '(r, (_, s')) := exec a prog (e, s) in Q r s'.
  Proof.
    induction prog as [|[i|d body|l|exn] prog IH]; intros e s mp mx Q He H; cbn [exec]; try exact H.
    - pose proof He as [[Hp Hx] [Mp Mx]].
      destruct i as [v|v|f p g fx|f p fx|v t|v t|c t|c nm|f x g fx|f c]; cbn [exec_s wp] in *.
      + apply (IH _ _ _ _ _ (ok_setp _ _ _ _ _ _ (NoDupKeys_single nat _ _) (fun E rho => evalP_leaf rho _) He) H).
      + apply (IH _ _ _ _ _ (ok_setx _ _ _ _ _ _ (NoDupKeys_single ekey _ _) (fun E rho phi => evalE_leaf rho phi _) He) H).
      + destruct H as [Hs H]. destruct (oracle_leaf (a_fun a f) (e_p e p) s) as [[[gd vd] pd] s'] eqn:Ho.
        destruct (oracle_leaf_wf _ _ _ _ _ _ _ Hs (Hp p) Ho) as (Hg & Hv & Hpd & Hpe).
        refine (IH _ _ _ _ _ _ (H Hg Hv Hpd Hpe)).
        apply ok_setx; [exact Hv|reflexivity|]. apply ok_setp; [exact Hg|reflexivity|].
        apply ok_samep; [exact Hpd|intros E rho; rewrite (Hpe E rho); apply Mp|exact He].
      + destruct H as [Hs H]. destruct (value_leaf (a_fun a f) (e_p e p) s) as [[vd pd] s'] eqn:Ho.
        destruct (value_leaf_wf _ _ _ _ _ _ Hs (Hp p) Ho) as (Hv & Hpd & Hpe).
        refine (IH _ _ _ _ _ _ (H Hv Hpd Hpe)).
        apply ok_setx; [exact Hv|reflexivity|].
        apply ok_samep; [exact Hpd|intros E rho; rewrite (Hpe E rho); apply Mp|exact He].
      + revert H. destruct (pdefb (a_scal a) t) eqn:Hi; intros H; [|exact H].
        destruct (compileP_ok e mp mx t He Hi) as [Hw Hm].
        destruct t; try exact (IH _ _ _ _ _ (ok_setp _ _ _ _ _ _ Hw Hm He) (H _ Hw Hm)).
        exact (IH _ _ _ _ _ (ok_setp _ _ _ _ _ _ Hw Hm He) H).
      + revert H. destruct (xdefb (a_scal a) t) eqn:Hi; intros H; [|exact H].
        destruct (compileX_ok e mp mx t He Hi) as [Hw Hm].
        destruct t; try exact (IH _ _ _ _ _ (ok_setx _ _ _ _ _ _ Hw Hm He) (H _ Hw Hm)).
        exact (IH _ _ _ _ _ (ok_setx _ _ _ _ _ _ Hw Hm He) H).
      + revert H. destruct (cdefb (a_scal a) t) eqn:Hi; intros H; [|exact H].
        destruct (compileC_ok e mp mx t He Hi) as [Hk Hm]. exact (IH (setc c _ e) _ _ _ _ He (H _ Hk Hm)).
      + exact (IH _ _ _ _ _ He H).
      + refine (IH _ _ _ _ _ _ H).
        apply ok_samex; [apply NoDupKeys_prune, Hx|intros E rho phi; rewrite evalE_prune; apply Mx|].
        apply ok_samep; [apply NoDupKeys_prune, Hp|intros E rho; rewrite evalP_prune; apply Mp|].
        apply ok_samep; [apply NoDupKeys_prune, Hp|intros E rho; rewrite evalP_prune; apply Mp|exact He].
      + exact (IH _ _ _ _ _ He H).
    - cbn [wp] in H. specialize (H (proj1 He)).
      destruct (exec_loop a d body (a_dirs a) (e, s)) as [[e' s']|[exn [e' s']]]; [|exact H].
      exact (IH _ _ _ _ _ (ok_self e' (proj1 H)) (proj2 H)).
  Qed.
End WP.

Lemma run_wp prog a s (P : result * state -> Prop) :
  wfe (init_env a) ->
  wp a prog (init_env a) s (self_p (init_env a)) (self_x (init_env a)) (fun r s' => P (r, s')) -> P (run prog a s).
Proof.
  intros He H. unfold run, run_full. pose proof (wp_sound a prog _ _ _ _ _ (ok_self _ He) H) as H'.
  destruct (exec a prog (init_env a, s)) as [r [e' s']]. exact H'.
Qed.

(** the loop [for d in directions: c = (<comparison t>); c.set_name(..); f.add_constraint(c)] records one
    constraint per direction, in order, and otherwise only touches the loop variable *)
Lemma record_loop (a : args) (d c fi : nat) (t : cterm) (nm : string) :
  cdefb (a_scal a) t = true ->
  forall dirs e s, wfe e -> Forall pND dirs ->
  exists e' cs,
    exec_loop a d [LetC c t; SetName c nm; AddConstraint fi c] dirs (e, s) = inl (e', add_conss (a_fun a fi) cs s)
    /\ wfe e' /\ (forall v, v <> d -> e_p e' v = e_p e v) /\ e_x e' = e_x e
    /\ Forall2 (fun dv k => snd k = csense t /\
                  forall (E : ips) (rho : nat -> E) phi,
                    holds rho phi k <->
                    denoteC (fun p => Q2R (a_scal a p)) (fun u => evalP rho (upd d dv (e_p e) u))
                            (fun u => evalE rho phi (e_x e u)) t) dirs cs.
Proof.
  intros Hdef. induction dirs as [|dv dirs IH]; intros e s He Hd.
  - exists e, []. repeat split; try apply He; constructor.
  - inversion Hd as [|? ? Hdv Hd']; subst. cbn [exec_loop exec_body exec_s fst snd]. rewrite Hdef.
    set (k := compileC _ _ _ t). cbn [exec_body exec_s e_c setc]. rewrite upd_same.
    assert (He1 : wfe (setc c k (setp d dv e))) by (apply wfe_setp; assumption).
    destruct (IH (setc c k (setp d dv e)) (add_cons (a_fun a fi) k s) He1 Hd')
      as (e' & cs & Hrun & He' & Hp' & Hx' & Hcs).
    exists e', (k :: cs). split; [exact Hrun|]. split; [exact He'|]. split; [|split; [exact Hx'|]].
    + intros v Hv. rewrite (Hp' v Hv). apply upd_other, Hv.
    + constructor; [exact (compileC_ok a _ _ _ t (ok_self _ (wfe_setp d dv e Hdv He)) Hdef)|].
      revert Hcs. apply Forall2_imp. intros dv' k' [Hs Hh]. split; [exact Hs|]. intros E rho phi.
      rewrite Hh. apply denoteC_ext; [|reflexivity]. intros u. cbn [setc setp e_p]. unfold upd.
      destruct (Nat.eqb u d); reflexivity.
Qed.
