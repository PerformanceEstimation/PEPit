(** Every op keeps the invariant.  [add_point] of a composite (classification; "every term but
    the last calls oracle, the last gets the remainder divided by its weight"), [oracle] of a composite,
    [add_point] as the user calls it, the construction of a function; hence [step] under [op_scoped] /\
    [op_guard], and the invariant holds after EVERY op sequence accepted by [ops_ok] (induction on the list).
    Beside the invariant: the calls only extend the state ([ext_oracle], [ext_value], [ext_add_point]). *)
From Coq Require Import List Reals Qreals Lra Lia Permutation.
From PV Require Import Base.IPS Model.Dict Model.Terms Model.Func Spec.Sem
  Proofs.DictLemmas Proofs.SemLemmas Proofs.C07Dict Proofs.C07Inv.
Import ListNotations.
Local Open Scope R_scope.

(** the first sample recorded at a point *)
Fixpoint find_s (pts : list sample) (x : pdict) : option sample :=
  match pts with
  | [] => None
  | t :: r => if dict_eqb Nat.eqb (xof t) x then Some t else find_s r x
  end.

Lemma find_pt_find_s pts x :
  find_pt pts x = option_map (fun t => (gof t, vof t)) (find_s pts x).
Proof.
  induction pts as [|[[x0 g0] v0] pts IH]; cbn [find_pt find_s]; [reflexivity|].
  unfold xof at 1; cbn [fst]. destruct (dict_eqb Nat.eqb x0 x); [reflexivity|exact IH].
Qed.

Lemma find_s_Some pts x t : find_s pts x = Some t -> In t pts /\ dict_eqb Nat.eqb (xof t) x = true.
Proof.
  induction pts as [|t0 pts IH]; cbn; [discriminate|].
  destruct (dict_eqb Nat.eqb (xof t0) x) eqn:He.
  - intros [= <-]. split; [left; reflexivity|exact He].
  - intros H. destruct (IH H). split; [right|]; assumption.
Qed.

Definition firsts (s : state) (x : pdict) (i : nat) : sample :=
  match find_s (f_pts (getf s i)) x with Some t => t | None => ([], [], []) end.

Definition evald (s : state) (x : pdict) (i : nat) : bool :=
  match find_pt (f_pts (getf s i)) x with Some _ => true | None => false end.

Lemma evald_firsts s x i :
  evald s x i = true ->
  In (firsts s x i) (f_pts (getf s i)) /\ dict_eqb Nat.eqb (xof (firsts s x i)) x = true /\
  find_pt (f_pts (getf s i)) x = Some (gof (firsts s x i), vof (firsts s x i)).
Proof.
  unfold evald, firsts. rewrite find_pt_find_s.
  destruct (find_s (f_pts (getf s i)) x) as [t|] eqn:Hf; cbn; [|discriminate].
  intros _. destruct (find_s_Some _ _ _ Hf). auto.
Qed.

Lemma evald_false s x i : evald s x i = false <-> find_pt (f_pts (getf s i)) x = None.
Proof. unfold evald. destruct (find_pt (f_pts (getf s i)) x); split; congruence. Qed.

(** the three classes of [classify], as tests on a term *)
Definition p_n (s : state) (x : pdict) (iq : nat * Q) : bool := evald s x (fst iq) && f_reuse (getf s (fst iq)).
Definition p_go (s : state) (x : pdict) (iq : nat * Q) : bool := evald s x (fst iq) && negb (f_reuse (getf s (fst iq))).
Definition p_gv (s : state) (x : pdict) (iq : nat * Q) : bool := negb (evald s x (fst iq)).

Lemma classify_filter s W x :
  classify s W x = (filter (p_n s x) W, filter (p_go s x) W, filter (p_gv s x) W).
Proof.
  induction W as [|[i q] W IH]; cbn [classify filter]; [reflexivity|].
  rewrite IH. unfold p_n, p_go, p_gv, evald; cbn [fst].
  destruct (find_pt (f_pts (getf s i)) x); cbn; [|reflexivity].
  destruct (f_reuse (getf s i)); reflexivity.
Qed.

Lemma classify_perm s W x :
  Permutation (filter (p_n s x) W ++ filter (p_go s x) W ++ filter (p_gv s x) W) W.
Proof.
  induction W as [|[i q] W IH]; cbn [filter]; [constructor|].
  unfold p_n at 1, p_go at 1, p_gv at 1; cbn [fst].
  destruct (evald s x i); [destruct (f_reuse (getf s i))|]; cbn [andb negb app].
  - constructor. exact IH.
  - eapply perm_trans; [apply Permutation_sym, Permutation_middle|]. constructor. exact IH.
  - rewrite app_assoc. eapply perm_trans; [apply Permutation_sym, Permutation_middle|].
    rewrite <- app_assoc. constructor. exact IH.
Qed.

Lemma filter_nil_all {A} (p : A -> bool) l : filter p l = [] -> forall a, In a l -> p a = false.
Proof.
  induction l as [|b l IH]; cbn; [tauto|]. destruct (p b) eqn:Hb; [discriminate|].
  intros H a [<-|Ha]; auto.
Qed.

(** no term needs a value: every term is evaluated; nor a gradient: every term is differentiable too *)
Lemma gv_nil_evald s x W i q : filter (p_gv s x) W = [] -> In (i, q) W -> evald s x i = true.
Proof. intros H Hin. apply negb_false_iff. exact (filter_nil_all _ _ H (i, q) Hin). Qed.

Lemma go_nil_reuse s x W i q :
  filter (p_gv s x) W = [] -> filter (p_go s x) W = [] -> In (i, q) W -> f_reuse (getf s i) = true.
Proof.
  intros Hgv Hgo Hin. pose proof (filter_nil_all _ _ Hgo (i, q) Hin) as H. unfold p_go in H; cbn [fst] in H.
  rewrite (gv_nil_evald s x W i q Hgv Hin) in H. apply negb_false_iff. exact H.
Qed.

Lemma classify_local s s' W x :
  (forall i q, In (i, q) W -> getf s' i = getf s i) -> classify s' W x = classify s W x.
Proof.
  induction W as [|[i q] W IH]; intros H; cbn [classify]; [reflexivity|].
  rewrite IH by (intros i' q' Hin; apply (H i' q'); right; exact Hin).
  rewrite (H i q) by (left; reflexivity). reflexivity.
Qed.

(** [comp_oracle] part by part: the value and the gradient it hands to [add_point], and the body it runs
    unless the composite is differentiable and already has a sample at the point *)
Definition co_value (s : state) (W : wdict) (x : pdict) (gvl : wdict) (assoc : option (pdict * edict)) :
  state * edict :=
  match assoc with
  | Some (_, v0) => (s, v0)
  | None => if is_nil gvl then sum_values s W x []
            else let '(v', s') := fresh_ex s in (s', v')
  end.

Definition co_grad (s : state) (W : wdict) (x : pdict) (go gvl : wdict) : state * pdict :=
  if is_nil gvl && is_nil go then sum_grads s W x []
  else let '(g', s') := fresh_pt s in (s', g').

Definition co_body (s : state) (F : fid) (x : pdict) (assoc : option (pdict * edict)) : state * (pdict * edict) :=
  let '(n, go, gvl) := classify s (f_w (getf s F)) x in
  let '(s1, v) := co_value s (f_w (getf s F)) x gvl assoc in
  let '(s2, g) := co_grad s1 (f_w (getf s F)) x go gvl in
  (comp_add_point s2 F (x, g, v), (prune g, prune v)).

Lemma comp_oracle_unfold s F x :
  comp_oracle s F x =
  match find_pt (f_pts (getf s F)) x, f_reuse (getf s F) with
  | Some gv, true => (s, gv)
  | a, _ => co_body s F x a
  end.
Proof.
  unfold comp_oracle, co_body, co_value, co_grad. cbv zeta.
  destruct (find_pt (f_pts (getf s F)) x) as [[g0 v0]|]; [destruct (f_reuse (getf s F))|]; reflexivity.
Qed.

(** the calls touch nothing but sample lists and counters *)
Lemma ext_leaf_value s i x : ext (eq i) s (fst (leaf_value s i x)).
Proof.
  unfold leaf_value. destruct (find_pt (f_pts (getf s i)) x) as [[g v]|]; [apply ext_refl|].
  pose proof (ext_leaf_oracle s i x) as H. destruct (leaf_oracle s i x) as [s' [g v]]. exact H.
Qed.

Lemma ext_sum_values x : forall W s acc, ext (fun _ => True) s (fst (sum_values s W x acc)).
Proof.
  induction W as [|[i q] W IH]; intros s acc; cbn [sum_values]; [apply ext_refl|].
  pose proof (ext_leaf_value s i x) as H. destruct (leaf_value s i x) as [s' v].
  exact (ext_seq H (IH _ _)).
Qed.

Lemma ext_sum_grads x : forall W s acc, ext (fun _ => True) s (fst (sum_grads s W x acc)).
Proof.
  induction W as [|[i q] W IH]; intros s acc; cbn [sum_grads]; [apply ext_refl|].
  pose proof (ext_leaf_oracle s i x) as H. destruct (leaf_oracle s i x) as [s' [g v]].
  exact (ext_seq H (IH _ _)).
Qed.

Lemma ext_distribute x : forall l s G V b, ext (fun _ => True) s (distribute s x G V b l).
Proof.
  induction l as [|[i q] l IH]; intros s G V b; cbn [distribute]; [apply ext_refl|].
  destruct b as [|b]; [exact (ext_seq (ext_record s i _) (IH _ _ _ _))|].
  pose proof (ext_leaf_oracle s i x) as H. destruct (leaf_oracle s i x) as [s' [g v]].
  exact (ext_seq H (IH _ _ _ _)).
Qed.

Lemma ext_record_comp_add_point s F t : ext (fun _ => True) (record s F t) (comp_add_point s F t).
Proof.
  destruct t as [[x g] v]. unfold comp_add_point. cbn [pruned_sample].
  set (s2 := setf (record s F (x, g, v)) F _).
  assert (H2 : ext (eq F) (record s F (x, g, v)) s2)
    by (apply ext_setf; intros r; split; [reflexivity|apply incl_refl]).
  destruct (classify s2 (f_w (getf s2 F)) (prune x)) as [[n go] gv].
  destruct (is_nil (go ++ gv)); [exact (ext_weaken _ _ _ _ (fun _ _ => I) H2)|].
  exact (ext_seq H2 (ext_distribute _ _ _ _ _ _)).
Qed.

Lemma ext_comp_add_point s F t : ext (fun _ => True) s (comp_add_point s F t).
Proof. exact (ext_seq (ext_record s F t) (ext_record_comp_add_point s F t)). Qed.

Lemma ext_add_point s f t : ext (fun _ => True) s (add_point s f t).
Proof.
  unfold add_point. destruct (f_leaf (getf s f)); [|apply ext_comp_add_point].
  exact (ext_weaken _ _ _ _ (fun _ _ => I) (ext_record s f t)).
Qed.

Lemma ext_co_value s W x gvl assoc : ext (fun _ => True) s (fst (co_value s W x gvl assoc)).
Proof.
  unfold co_value. destruct assoc as [[g0 v0]|]; [apply ext_refl|].
  destruct (is_nil gvl); [apply ext_sum_values|apply ext_bump, Nat.le_refl].
Qed.

Lemma ext_co_grad s W x go gvl : ext (fun _ => True) s (fst (co_grad s W x go gvl)).
Proof.
  unfold co_grad. destruct (is_nil gvl && is_nil go); [apply ext_sum_grads|apply ext_bump, Nat.le_succ_diag_r].
Qed.

Lemma ext_co_body s F x assoc : ext (fun _ => True) s (fst (co_body s F x assoc)).
Proof.
  unfold co_body. destruct (classify s (f_w (getf s F)) x) as [[n go] gvl].
  pose proof (ext_co_value s (f_w (getf s F)) x gvl assoc) as H1.
  destruct (co_value s (f_w (getf s F)) x gvl assoc) as [s1 v].
  pose proof (ext_co_grad s1 (f_w (getf s F)) x go gvl) as H2.
  destruct (co_grad s1 (f_w (getf s F)) x go gvl) as [s2 g].
  exact (ext_seq (ext_seq H1 H2) (ext_comp_add_point s2 F _)).
Qed.

Lemma ext_oracle s f x : ext (fun _ => True) s (fst (oracle s f x)).
Proof.
  unfold oracle. destruct (f_leaf (getf s f)).
  - exact (ext_weaken _ _ _ _ (fun _ _ => I) (ext_leaf_oracle s f x)).
  - rewrite comp_oracle_unfold.
    destruct (find_pt (f_pts (getf s f)) x) as [[g0 v0]|]; [destruct (f_reuse (getf s f))|];
      [apply ext_refl|apply ext_co_body..].
Qed.

Lemma ext_value s f x : ext (fun _ => True) s (fst (value s f x)).
Proof.
  unfold value. destruct (find_pt (f_pts (getf s f)) x) as [[g0 v0]|]; [apply ext_refl|].
  pose proof (ext_oracle s f x) as H. destruct (oracle s f x) as [s' [g v]]. exact H.
Qed.

(** ** [add_point] of a composite: the sample is recorded for the composite and exempted from I3 ([inv_gen] with
    that one exemption) while [distribute] brings the terms up to date; at the end it is their weighted sum *)
Lemma snoc_case {A} (l : list A) : l = [] \/ exists l0 a, l = l0 ++ [a].
Proof. induction l using rev_ind; eauto. Qed.

(** every term but the last calls [oracle]; [G1], [V1] is what is left for the last one *)
Lemma distribute_loop P il ql : forall l s x G V,
  inv_gen P s -> wfq s x -> pND G -> eND V -> pND l ->
  (forall i q, In (i, q) l -> (i < nfun s)%nat /\ f_leaf (getf s i) = true) ->
  exists s1 G1 V1 ch,
    distribute s x G V (length l) (l ++ [(il, ql)]) = record s1 il (x, p_div G1 ql, x_div V1 ql) /\
    inv_gen P s1 /\ ext (fun j => In j (keys l)) s s1 /\ pND G1 /\ eND V1 /\ covers s1 l x ch /\
    (forall (E : ips) (rho : nat -> E) (w : E),
        ip rho w G = ip rho w G1 + dsum nat (fun i => ip rho w (gof (ch i))) l) /\
    (forall (E : ips) (rho : nat -> E) (phi : nat -> R),
        evalE rho phi V = evalE rho phi V1 + dsum nat (fun i => evalE rho phi (vof (ch i))) l).
Proof.
  induction l as [|[i q] l IH]; intros s x G V Hinv Hq NG NV Nl Hl.
  - exists s, G, V, (fun _ => ([], [], [])). split; [reflexivity|]. split; [exact Hinv|].
    split; [apply ext_refl|]. split; [exact NG|]. split; [exact NV|]. split; [intros i q []|].
    split; intros; cbn [dsum]; lra.
  - destruct (proj1 (NoDup_cons_iff i (keys l)) Nl) as [Hni Nl'].
    destruct (Hl i q (or_introl eq_refl)) as [Hi Hleaf].
    cbn [length app distribute].
    pose proof (leaf_oracle_inv P s i x Hinv Hi Hleaf Hq) as Hinv1.
    pose proof (ext_leaf_oracle s i x) as Hext1.
    destruct (leaf_oracle_records s i x Hi Hq) as (x0 & Hin0 & He0).
    destruct (leaf_oracle s i x) as [s1 [g v]]. cbn [fst snd] in *.
    assert (Hi1 : (i < nfun s1)%nat) by (rewrite (ext_nfun _ _ _ Hext1); exact Hi).
    destruct (ig_samples P s1 Hinv1 i _ Hi1 Hin0) as (_ & Ng & Nv & _).
    destruct (IH s1 x (p_sub G (p_scal q g)) (x_sub V (x_scal q v)) Hinv1 (ext_wfq _ _ _ x Hext1 Hq))
      as (s2 & G2 & V2 & ch & Heq & Hinv2 & Hext2 & NG2 & NV2 & Hcov & HG & HV).
    + apply pND_sub; [exact NG|apply pND_scal, Ng].
    + apply eND_sub; [exact NV|apply eND_scal, Nv].
    + exact Nl'.
    + intros j qj Hj. destruct (Hl j qj (or_intror Hj)) as [A B].
      rewrite (ext_nfun _ _ _ Hext1), (ext_out _ _ _ Hext1 j); [auto|].
      intros <-. exact (Hni (In_keys nat i qj l Hj)).
    + exists s2, G2, V2, (chupd ch i (x0, g, v)).
      split; [exact Heq|]. split; [exact Hinv2|]. split.
      { eapply ext_trans; (eapply ext_weaken; [|eassumption]); intros j Hj; [left|right]; exact Hj. }
      split; [exact NG2|]. split; [exact NV2|]. split.
      { apply covers_cons; auto. apply (ext_pts _ _ _ Hext2), Hin0. }
      split.
      * intros E rho w. rewrite (dsum_chupd (fun t => ip rho w (gof t))) by exact Hni.
        pose proof (HG E rho w) as H. rewrite ip_sub, ip_scal in H by (auto using pND_scal).
        unfold gof at 1; cbn [fst snd]. lra.
      * intros E rho phi. rewrite (dsum_chupd (fun t => evalE rho phi (vof t))) by exact Hni.
        pose proof (HV E rho phi) as H. rewrite evalE_sub, evalE_scal in H by (auto using eND_scal).
        unfold vof at 1; cbn [snd]. lra.
Qed.

Lemma I3_at_perm s l W t : Permutation l W -> I3_at s l t -> I3_at s W t.
Proof.
  intros Hperm (ch & Hcov & HsG & HsV). exists ch. split.
  - intros k q Hin. apply (Hcov k q), (Permutation_in _ (Permutation_sym Hperm) Hin).
  - split; intros; rewrite ?HsG, ?HsV; apply dsum_perm, Hperm.
Qed.

(** ... and the last one receives the remainder divided by its weight: coherent when it has never been
    evaluated at the point, or when it is not differentiable, every term has a value there and [V] is
    their weighted sum (so that the remainder means the value it already has).  The terms are the weights
    of the composite [F], in any order. *)
Lemma distribute_inv P s F x G V l il ql :
  inv_gen P s -> (F < nfun s)%nat -> f_leaf (getf s F) = false ->
  Permutation ((il, ql) :: l) (f_w (getf s F)) -> wfq s x -> pND G -> eND V ->
  (evald s x il = false \/
   (f_reuse (getf s il) = false /\ (forall i q, In (i, q) (f_w (getf s F)) -> evald s x i = true) /\
    wval (f_w (getf s F)) (firsts s x) V)) ->
  let s' := distribute s x G V (length l) (l ++ [(il, ql)]) in
  inv_gen P s' /\ getf s' F = getf s F /\ I3_at s' (f_w (getf s F)) (x, G, V).
Proof.
  intros Hinv HF HlF Hperm Hq NG NV Hlast.
  assert (Hl : forall i q, In (i, q) ((il, ql) :: l) ->
            (i < nfun s)%nat /\ f_leaf (getf s i) = true /\ ~ (q == 0)%Q)
    by (intros i q Hin; apply (comp_term s F i q Hinv HF HlF), (Permutation_in _ Hperm Hin)).
  assert (Nl : pND ((il, ql) :: l)).
  { eapply Permutation_NoDup; [apply Permutation_map, Permutation_sym, Hperm|].
    apply (ig_compw P s Hinv F HF HlF). }
  destruct (proj1 (NoDup_cons_iff il (keys l)) Nl) as [Hni Nl'].
  destruct (Hl il ql (or_introl eq_refl)) as (Hil & Hleaf & Hqnz).
  destruct (distribute_loop P il ql l s x G V Hinv Hq NG NV Nl')
    as (s1 & G1 & V1 & ch & Heq & Hinv1 & Hext & NG1 & NV1 & Hcov & HG & HV).
  { intros i q Hin. destruct (Hl i q (or_intror Hin)) as (A & B & _). auto. }
  cbv zeta. rewrite Heq. clear Heq.
  pose proof (ext_out _ _ _ Hext il Hni) as Hsame.
  pose proof (ext_nfun _ _ _ Hext) as Hn.
  pose proof (wfq_prune s x Hq) as Hpx.
  destruct (ext_wfq _ _ _ x Hext Hq) as (Nx & _ & Hk).
  split; [|split].
  - apply record_inv; auto using pND_div, eND_div; rewrite ?Hn, ?Hsame, ?Hpx, ?Hleaf; try (assumption || discriminate).
    intros g0 v0 Hf.
    destruct Hlast as [Hev|(Hr & Hall & Hsum)]; [apply evald_false in Hev; congruence|].
    split; [exact Hr|].
    destruct (evald_firsts s x il (Hall il ql (Permutation_in _ Hperm (or_introl eq_refl)))) as (_ & _ & Hfp).
    rewrite Hfp in Hf. injection Hf as _ <-.
    (* what [oracle] returned for a term means the value the term had before *)
    assert (Hch : forall i q, In (i, q) l ->
              forall (E : ips) (rho : nat -> E) (phi : nat -> R),
                evalE rho phi (vof (ch i)) = evalE rho phi (vof (firsts s x i))).
    { intros i q Hin. destruct (Hcov i q Hin) as [Hc1 Hc2].
      destruct (evald_firsts s x i (Hall i q (Permutation_in _ Hperm (or_intror Hin)))) as (Hf1 & Hf2 & _).
      destruct (Hl i q (or_intror Hin)) as [Hi _]. rewrite <- Hn in Hi.
      exact (I1_at s1 i x _ _ Hinv1 Hi Nx Hc1 (ext_pts _ _ _ Hext _ _ Hf1) Hc2 Hf2). }
    intros E rho phi. rewrite evalE_div by exact Hqnz. pose proof (HV E rho phi) as H.
    rewrite (Hsum E rho phi), <- (dsum_perm nat _ _ _ Hperm) in H. cbn [dsum] in H.
    rewrite (dsum_ext nat _ _ l (fun i q Hin => Hch i q Hin E rho phi)) in H.
    apply Q2R_nonzero in Hqnz. apply (Rmult_eq_reg_l (Q2R ql)); [|exact Hqnz].
    field_simplify; [lra|exact Hqnz].
  - (* [F] is not a leaf, hence none of the terms *)
    assert (HnF : forall i q, In (i, q) ((il, ql) :: l) -> i <> F)
      by (intros i q Hin ->; destruct (Hl F q Hin) as (_ & Hc & _); congruence).
    rewrite getf_record_neq by exact (HnF il ql (or_introl eq_refl)). apply (ext_out _ _ _ Hext).
    intros Hin. apply in_map_iff in Hin as [[k q] [<- Hin]]. exact (HnF k q (or_intror Hin) eq_refl).
  - apply (I3_at_perm _ _ _ _ Hperm). unfold I3_at. cbn [xof gof vof fst snd].
    exists (chupd ch il (prune x, prune (p_div G1 ql), prune (x_div V1 ql))). split.
    + apply covers_cons; [exact Hni|apply (pts_record_new s1 il (x, _, _)); rewrite Hn; exact Hil|exact (wfq_self s x Hq)|].
      intros i q Hin. destruct (Hcov i q Hin). split; [apply pts_record_mono|]; assumption.
    + apply Q2R_nonzero in Hqnz as Hnz. split.
      * intros E rho w. rewrite (dsum_chupd (fun t => ip rho w (gof t))) by exact Hni.
        unfold gof at 1; cbn [fst snd]. rewrite ip_prune, ip_div, (HG E rho w) by exact Hqnz. field. exact Hnz.
      * intros E rho phi. rewrite (dsum_chupd (fun t => evalE rho phi (vof t))) by exact Hni.
        unfold vof at 1; cbn [snd]. rewrite evalE_prune, evalE_div, (HV E rho phi) by exact Hqnz. field. exact Hnz.
Qed.

Lemma inv_gen_weaken (P P' : nat -> sample -> Prop) s :
  (forall i t, P i t -> P' i t) -> inv_gen P s -> inv_gen P' s.
Proof.
  intros HP [H1 H2 H3 H4 H5 H6 H7 H8]. split; auto.
  intros i t Hi Hl Ht. destruct (H7 i t Hi Hl Ht); [left; apply HP|right]; assumption.
Qed.

(** the one exempted sample [t] of [F] is a weighted sum as well *)
Lemma inv_gen_close s F t :
  inv_gen (fun i u => i = F /\ u = t) s -> I3_at s (f_w (getf s F)) t -> inv s.
Proof.
  intros [H1 H2 H3 H4 H5 H6 H7 H8] Ht. split; auto.
  intros i u Hi Hl Hu. right. destruct (H7 i u Hi Hl Hu) as [[-> ->]|H]; assumption.
Qed.

Lemma setf_prune_id s F :
  allnz nat (f_w (getf s F)) = true ->
  setf s F (fun r => mkF (f_leaf r) (f_reuse r) (prune (f_w r)) (f_pts r) (f_stat r)) = s.
Proof.
  intros H. unfold setf. destruct s as [a b fs]. cbn [pt_ctr ex_ctr funs]. f_equal.
  apply upd_unchanged with (d := dummy). change (nth F fs dummy) with (getf (mkS a b fs) F).
  rewrite (prune_id nat _ H). destruct (getf (mkS a b fs) F); reflexivity.
Qed.

(** [distribute] over the terms [l0 ++ [(il, ql)]] of the weights [W] of [F], in a state [s1] that has
    recorded the sample [(x, g, v)] for [F] (exempt from I3) and is [s] on the terms: the sample becomes a
    weighted sum, so the invariant proper holds afterwards *)
Lemma distribute_terms_inv s s1 F W x g v l0 il ql :
  inv_gen (fun i u => i = F /\ u = (x, g, v)) s1 -> (F < nfun s1)%nat -> f_leaf (getf s1 F) = false ->
  f_w (getf s1 F) = W -> (forall i q, In (i, q) W -> getf s1 i = getf s i) ->
  wfq s1 x -> pND g -> eND v -> Permutation (l0 ++ [(il, ql)]) W ->
  (evald s x il = false \/
   (f_reuse (getf s il) = false /\ (forall i q, In (i, q) W -> evald s x i = true) /\ wval W (firsts s x) v)) ->
  inv (distribute s1 x g v (length W - 1) (l0 ++ [(il, ql)])).
Proof.
  intros Hinv1 HF1 HlF1 HW Hloc Hq Ng Nv Hperm Hlast.
  assert (Hil : In (il, ql) W) by (apply (Permutation_in _ Hperm), in_elt).
  assert (Hperm' : Permutation ((il, ql) :: l0) (f_w (getf s1 F)))
    by (rewrite HW; eapply perm_trans; [apply Permutation_cons_append|exact Hperm]).
  replace (length W - 1)%nat with (length l0)
    by (rewrite <- HW, <- (Permutation_length Hperm'); cbn [length]; lia).
  destruct (distribute_inv _ s1 F x g v l0 il ql Hinv1 HF1 HlF1 Hperm' Hq Ng Nv) as (Hinv' & HF' & H3).
  - rewrite HW. unfold evald, firsts. rewrite (Hloc il ql Hil).
    destruct Hlast as [Hev|(Hr & Hall & Hsum)]; [left; exact Hev|right]. split; [exact Hr|]. split.
    + intros i q Hin. rewrite (Hloc i q Hin). exact (Hall i q Hin).
    + intros E rho phi. rewrite (Hsum E rho phi).
      apply dsum_ext. intros i q Hin. rewrite (Hloc i q Hin). reflexivity.
  - apply (inv_gen_close _ F (x, g, v) Hinv'). rewrite HF'. exact H3.
Qed.

(** the sample handed to [add_point] of a composite: if the composite already has a sample at that point,
    it is not differentiable and the value is the stored one; if no term needs a value, the value is the
    weighted sum of the terms' first values; if no term needs anything, so is the gradient *)
Lemma comp_add_point_inv s F x g v :
  inv s -> (F < nfun s)%nat -> f_leaf (getf s F) = false ->
  pND x -> pND g -> eND v -> (forall k, In k (keys x) -> (k < pt_ctr s)%nat) ->
  (forall g0 v0, find_pt (f_pts (getf s F)) (prune x) = Some (g0, v0) ->
     f_reuse (getf s F) = false /\ eeq v0 v) ->
  (filter (p_gv s (prune x)) (f_w (getf s F)) = [] ->
     wval (f_w (getf s F)) (firsts s (prune x)) v /\
     (filter (p_go s (prune x)) (f_w (getf s F)) = [] -> wgrad (f_w (getf s F)) (firsts s (prune x)) g)) ->
  inv (comp_add_point s F (x, g, v)).
Proof.
  intros Hinv HF HlF Nx Ng Nv Hk Hown Hsum.
  set (x' := prune x) in *. set (W := f_w (getf s F)) in *.
  destruct (inv_compw s Hinv F HF HlF) as (NW & Wne & Wnz & _). fold W in NW, Wne, Wnz.
  pose proof (fun i q => comp_term s F i q Hinv HF HlF) as Wleaf. fold W in Wleaf.
  unfold comp_add_point. cbn [pruned_sample]. fold x'.
  set (s1 := record s F (x, g, v)). set (t := (x', prune g, prune v)).
  assert (HW1 : f_w (getf s1 F) = W) by apply flags_record.
  rewrite setf_prune_id by (rewrite HW1; exact Wnz). rewrite HW1.
  assert (Hloc : forall i q, In (i, q) W -> getf s1 i = getf s i).
  { intros i q Hin. apply getf_record_neq. intros <-. destruct (Wleaf F q Hin) as (_ & Hc & _). congruence. }
  rewrite (classify_local s s1 W x' Hloc), classify_filter.
  set (n := filter (p_n s x') W). set (go := filter (p_go s x') W). set (gv := filter (p_gv s x') W) in *.
  assert (Hinv1 : inv_gen (fun i u => i = F /\ u = t) s1).
  { apply record_inv; auto. eapply inv_gen_weaken; [|exact Hinv]. intros i u []. }
  pose proof (classify_perm s W x') as Hperm. fold n go gv in Hperm.
  assert (HF1 : (F < nfun s1)%nat) by (unfold s1; rewrite nfun_record; exact HF).
  assert (HlF1 : f_leaf (getf s1 F) = false) by (rewrite <- HlF; apply flags_record).
  assert (Hq1 : wfq s1 x').
  { split; [apply pND_prune, Nx|]. split; [apply allnz_prune|].
    intros k Hin. apply Hk, (keys_prune_incl nat x k Hin). }
  (* distribution, when the last term is [(il, ql)] *)
  assert (Hdist : forall l0 il ql, n ++ go ++ gv = l0 ++ [(il, ql)] ->
            evald s x' il = false \/ f_reuse (getf s il) = false /\ gv = [] ->
            inv (distribute s1 x' (prune g) (prune v) (length W - 1) (n ++ go ++ gv))).
  { intros l0 il ql El Hlast. rewrite El in *.
    apply (distribute_terms_inv s s1 F W x' (prune g) (prune v) l0 il ql); auto using pND_prune, eND_prune.
    destruct Hlast as [Hev|[Hr Hgv]]; [left; exact Hev|right]. split; [exact Hr|]. split.
    - intros i q. apply (gv_nil_evald s x' W i q Hgv).
    - intros E rho phi. rewrite evalE_prune. apply (proj1 (Hsum Hgv)). }
  destruct (snoc_case gv) as [Hgv|(gv0 & [il ql] & Hgv)].
  - destruct (snoc_case go) as [Hgo|(go0 & [il ql] & Hgo)].
    + (* every term already has its gradient and value at the point *)
      rewrite Hgv, Hgo. cbn [app is_nil].
      destruct (Hsum Hgv) as [HsV HsG]. specialize (HsG Hgo).
      apply (inv_gen_close s1 F t Hinv1). rewrite HW1. exists (firsts s x'). split.
      * intros i q Hin. destruct (evald_firsts s x' i (gv_nil_evald s x' W i q Hgv Hin)) as (A & B & _).
        split; [apply pts_record_mono, A|exact B].
      * apply sums_halves. unfold t, gof, vof; cbn [fst snd]. split.
        -- intros E rho w. rewrite ip_prune. apply HsG.
        -- intros E rho phi. rewrite evalE_prune. apply HsV.
    + (* the last term is evaluated and not differentiable *)
      assert (Hil : In (il, ql) go) by (rewrite Hgo; apply in_elt).
      apply filter_In in Hil as [Hil Hp]. apply andb_true_iff in Hp as [_ Hp]. apply negb_true_iff in Hp.
      replace (is_nil (go ++ gv)) with false by (rewrite Hgo; destruct go0; reflexivity).
      apply (Hdist (n ++ go0) il ql); auto. rewrite Hgv, Hgo, app_nil_r, app_assoc. reflexivity.
  - (* the last term has never been evaluated at the point *)
    assert (Hil : In (il, ql) gv) by (rewrite Hgv; apply in_elt).
    apply filter_In in Hil as [Hil Hp]. apply negb_true_iff in Hp.
    replace (is_nil (go ++ gv)) with false by (rewrite Hgv; destruct go, gv0; reflexivity).
    apply (Hdist (n ++ go ++ gv0) il ql); auto. rewrite Hgv, !app_assoc. reflexivity.
Qed.

(** ** [oracle] of a composite: when no term needs a value (a gradient), [sum_values] ([sum_grads]) leaves the
    state alone and returns the weighted sum of the first samples of the terms *)
Lemma sum_values_all s x : forall W acc,
  (forall i q, In (i, q) W -> evald s x i = true) ->
  eND acc -> (forall i q, In (i, q) W -> eND (vof (firsts s x i))) ->
  exists acc', sum_values s W x acc = (s, acc') /\ eND acc' /\
    forall (E : ips) (rho : nat -> E) (phi : nat -> R),
      evalE rho phi acc' = evalE rho phi acc + dsum nat (fun i => evalE rho phi (vof (firsts s x i))) W.
Proof.
  induction W as [|[i q] W IH]; intros acc Hev Na Nf; cbn [sum_values].
  - exists acc. split; [reflexivity|]. split; [exact Na|]. intros; cbn; lra.
  - destruct (evald_firsts s x i (Hev i q (or_introl eq_refl))) as (_ & _ & Hfp).
    unfold leaf_value. rewrite Hfp.
    pose proof (Nf i q (or_introl eq_refl)) as Nfi.
    destruct (IH (x_add acc (x_scal q (vof (firsts s x i))))) as (acc' & He & Na' & Hs).
    + intros j qj Hj. apply (Hev j qj). right. exact Hj.
    + apply eND_add; [exact Na|apply eND_scal, Nfi].
    + intros j qj Hj. apply (Nf j qj). right. exact Hj.
    + exists acc'. split; [exact He|]. split; [exact Na'|].
      intros E rho phi. rewrite Hs, evalE_add, evalE_scal by (auto using eND_scal). cbn [dsum]. lra.
Qed.

Lemma sum_grads_all s x : forall W acc,
  (forall i q, In (i, q) W -> evald s x i = true /\ f_reuse (getf s i) = true) ->
  pND acc -> (forall i q, In (i, q) W -> pND (gof (firsts s x i))) ->
  exists acc', sum_grads s W x acc = (s, acc') /\ pND acc' /\
    forall (E : ips) (rho : nat -> E) (w : E),
      ip rho w acc' = ip rho w acc + dsum nat (fun i => ip rho w (gof (firsts s x i))) W.
Proof.
  induction W as [|[i q] W IH]; intros acc Hev Na Nf; cbn [sum_grads].
  - exists acc. split; [reflexivity|]. split; [exact Na|]. intros; cbn; lra.
  - destruct (Hev i q (or_introl eq_refl)) as [Hevi Hri].
    destruct (evald_firsts s x i Hevi) as (_ & _ & Hfp).
    unfold leaf_oracle. rewrite Hfp, Hri.
    pose proof (Nf i q (or_introl eq_refl)) as Nfi.
    destruct (IH (p_add acc (p_scal q (gof (firsts s x i))))) as (acc' & He & Na' & Hs).
    + intros j qj Hj. apply (Hev j qj). right. exact Hj.
    + apply pND_add; [exact Na|apply pND_scal, Nfi].
    + intros j qj Hj. apply (Nf j qj). right. exact Hj.
    + exists acc'. split; [exact He|]. split; [exact Na'|].
      intros E rho w. rewrite Hs, ip_add, ip_scal by (auto using pND_scal). cbn [dsum]. lra.
Qed.

(** the value stored for a composite at a point is the weighted sum of the FIRST values stored for
    its terms at that point (by I3 for the stored sample and I1 for each term) *)
Lemma stored_value_is_sum s F x g0 v0 :
  inv s -> (F < nfun s)%nat -> f_leaf (getf s F) = false -> wfq s x ->
  find_pt (f_pts (getf s F)) x = Some (g0, v0) ->
  filter (p_gv s x) (f_w (getf s F)) = [] -> wval (f_w (getf s F)) (firsts s x) v0.
Proof.
  intros Hinv HF HlF (Nx & _ & _) Hf Hgv E rho phi.
  destruct (find_pt_Some _ _ _ _ Hf) as (x0 & Hin0 & He0).
  destruct (inv_samples s Hinv F _ HF Hin0) as (N0 & _).
  destruct (inv_I3 s Hinv F _ HF HlF Hin0) as (ch & Hcov & _ & HsV).
  etransitivity; [exact (HsV E rho phi)|]. apply dsum_ext. intros i q Hq.
  destruct (Hcov i q Hq) as [Hc1 Hc2].
  destruct (evald_firsts s x i (gv_nil_evald s x _ i q Hgv Hq)) as (Hf1 & Hf2 & _).
  destruct (comp_term s F i q Hinv HF HlF Hq) as [Hi _].
  destruct (inv_samples s Hinv i _ Hi Hc1) as (Nc & _).
  refine (I1_at s i x _ _ Hinv Hi Nx Hc1 Hf1 _ Hf2 E rho phi).
  exact (peqb_trans _ x0 _ Nc N0 Nx Hc2 He0).
Qed.

(** when no term of the composite [F] needs a value at [x], the first samples of the terms there are well formed *)
Lemma firsts_wf s F x i q :
  inv s -> (F < nfun s)%nat -> f_leaf (getf s F) = false ->
  filter (p_gv s x) (f_w (getf s F)) = [] -> In (i, q) (f_w (getf s F)) ->
  pND (gof (firsts s x i)) /\ eND (vof (firsts s x i)).
Proof.
  intros Hinv HF HlF Hgv Hin. destruct (evald_firsts s x i (gv_nil_evald s x _ i q Hgv Hin)) as (A & _).
  destruct (comp_term s F i q Hinv HF HlF Hin) as [Hi _].
  destruct (inv_samples s Hinv i _ Hi A) as (_ & B & C & _). auto.
Qed.

(** [add_point] of the sample [(x, g, v)] that [co_body] builds for the composite [F], once the counters have
    moved: [v] is the stored value if [F] has a sample at [x] ([F] is then not differentiable); value and
    gradient are the weighted sums of the terms' first samples when no term needs one *)
Lemma comp_add_point_bumped_inv s F x assoc a b g v :
  inv s -> (F < nfun s)%nat -> f_leaf (getf s F) = false -> wfq s x ->
  assoc = find_pt (f_pts (getf s F)) x -> (assoc <> None -> f_reuse (getf s F) = false) ->
  (pt_ctr s <= a)%nat -> pND g -> eND v ->
  (forall g0 v0, assoc = Some (g0, v0) -> v = v0) ->
  (filter (p_gv s x) (f_w (getf s F)) = [] ->
     wval (f_w (getf s F)) (firsts s x) v /\
     (filter (p_go s x) (f_w (getf s F)) = [] -> wgrad (f_w (getf s F)) (firsts s x) g)) ->
  inv (comp_add_point (mkS a b (funs s)) F (x, g, v)).
Proof.
  intros Hinv HF HlF Hq Hassoc Hnr Ha Ng Nv Hv Hs.
  pose proof (wfq_prune s x Hq) as Hpx. destruct Hq as (Nx & _ & Hk).
  apply (comp_add_point_inv (mkS a b (funs s)) F x g v (inv_bump noP s a b Hinv Ha) HF HlF Nx Ng Nv).
  - intros k Hkk. specialize (Hk k Hkk). cbn. lia.
  - rewrite Hpx. change (getf (mkS a b (funs s)) F) with (getf s F). rewrite <- Hassoc.
    intros g0 v0 Ha0. split; [apply Hnr; congruence|]. rewrite (Hv g0 v0 Ha0). apply eeq_refl.
  - rewrite Hpx. exact Hs.
Qed.

(** the second half of [co_body], given the value [v]: the gradient is the weighted sum when no term needs
    anything, a fresh leaf otherwise; then [add_point] *)
Lemma co_grad_add_point_inv s F x assoc e v :
  inv s -> (F < nfun s)%nat -> f_leaf (getf s F) = false -> wfq s x ->
  assoc = find_pt (f_pts (getf s F)) x -> (assoc <> None -> f_reuse (getf s F) = false) ->
  eND v -> (forall g0 v0, assoc = Some (g0, v0) -> v = v0) ->
  (filter (p_gv s x) (f_w (getf s F)) = [] -> wval (f_w (getf s F)) (firsts s x) v) ->
  inv (fst (let '(s2, g) := co_grad (mkS (pt_ctr s) e (funs s)) (f_w (getf s F)) x
                              (filter (p_go s x) (f_w (getf s F))) (filter (p_gv s x) (f_w (getf s F))) in
            (comp_add_point s2 F (x, g, v), (prune g, prune v)))).
Proof.
  intros Hinv HF HlF Hq Hassoc Hnr Nv Hv HsV.
  set (W := f_w (getf s F)) in *. set (go := filter (p_go s x) W). set (gv := filter (p_gv s x) W) in *.
  unfold co_grad. destruct (is_nil gv && is_nil go) eqn:Hb.
  - apply andb_true_iff in Hb as [Hgv Hgo]. apply is_nil_true in Hgv, Hgo.
    destruct (sum_grads_all (mkS (pt_ctr s) e (funs s)) x W [] (fun i q Hin =>
                conj (gv_nil_evald s x W i q Hgv Hin) (go_nil_reuse s x W i q Hgv Hgo Hin)) (NoDupKeys_nil nat))
      as (gs & -> & Ngs & Hsg).
    { intros i q Hin. apply (firsts_wf s F x i q Hinv HF HlF Hgv Hin). }
    apply (comp_add_point_bumped_inv s F x assoc); auto. intros _. split; [apply HsV, Hgv|]. intros _ E rho w.
    rewrite (Hsg E rho w), ip_nil. apply Rplus_0_l.
  - cbn [fresh_pt fst pt_ctr ex_ctr funs].
    apply (comp_add_point_bumped_inv s F x assoc); auto using NoDupKeys_single.
    intros Hgv. split; [apply HsV, Hgv|]. intros Hgo. change (gv = []) in Hgv. change (go = []) in Hgo.
    rewrite Hgv, Hgo in Hb. discriminate.
Qed.

Lemma co_body_inv s F x assoc :
  inv s -> (F < nfun s)%nat -> f_leaf (getf s F) = false -> wfq s x ->
  assoc = find_pt (f_pts (getf s F)) x ->
  (assoc <> None -> f_reuse (getf s F) = false) ->
  inv (fst (co_body s F x assoc)).
Proof.
  intros Hinv HF HlF Hq Hassoc Hnr.
  pose proof (fun e v => co_grad_add_point_inv s F x assoc e v Hinv HF HlF Hq Hassoc Hnr) as Hgrad.
  set (W := f_w (getf s F)) in *.
  unfold co_body. fold W. rewrite classify_filter.
  set (go := filter (p_go s x) W) in *. set (gv := filter (p_gv s x) W) in *.
  destruct s as [a b fs]. unfold co_value. destruct assoc as [[g0 v0]|] eqn:Ha.
  - (* evaluated, not differentiable: the stored value *)
    symmetry in Hassoc. destruct (find_pt_Some _ _ _ _ Hassoc) as (x0 & Hin0 & He0).
    apply (Hgrad b v0).
    + apply (inv_samples _ Hinv F _ HF Hin0).
    + intros ? ? [= _ <-]. reflexivity.
    + apply (stored_value_is_sum _ F x g0 v0); auto.
  - (* never evaluated: the weighted sum of the values when no term needs one, a fresh leaf otherwise *)
    destruct (is_nil gv) eqn:Hb.
    + apply is_nil_true in Hb.
      destruct (sum_values_all (mkS a b fs) x W [] (fun i q => gv_nil_evald _ x W i q Hb) (NoDupKeys_nil ekey))
        as (vs & -> & Nvs & Hsv).
      { intros i q Hin. apply (firsts_wf _ F x i q Hinv HF HlF Hb Hin). }
      apply (Hgrad b vs); auto; [discriminate|]. intros _ E rho phi. rewrite (Hsv E rho phi). apply Rplus_0_l.
    + cbn [fresh_ex pt_ctr ex_ctr funs]. apply (Hgrad (S b)); auto using NoDupKeys_single; [discriminate|].
      intros Hgv. fold gv in Hgv. rewrite Hgv in Hb. discriminate.
Qed.

Lemma comp_oracle_inv s F x :
  inv s -> (F < nfun s)%nat -> f_leaf (getf s F) = false -> wfq s x ->
  inv (fst (comp_oracle s F x)).
Proof.
  intros Hinv HF HlF Hq. rewrite comp_oracle_unfold.
  destruct (find_pt (f_pts (getf s F)) x) as [[g0 v0]|] eqn:Hf; destruct (f_reuse (getf s F)) eqn:Hr;
    try exact Hinv; apply co_body_inv; auto; try congruence.
Qed.

Lemma oracle_inv s f p :
  inv s -> (f < nfun s)%nat -> wfq s p -> inv (fst (oracle s f p)).
Proof.
  intros Hinv Hf Hq. unfold oracle. destruct (f_leaf (getf s f)) eqn:Hl.
  - apply leaf_oracle_inv; assumption.
  - apply comp_oracle_inv; assumption.
Qed.

Lemma value_inv s f p :
  inv s -> (f < nfun s)%nat -> wfq s p -> inv (fst (value s f p)).
Proof.
  intros Hinv Hf Hq. unfold value. destruct (find_pt (f_pts (getf s f)) p) as [[g v]|]; [exact Hinv|].
  pose proof (oracle_inv s f p Hinv Hf Hq) as H. destruct (oracle s f p) as [s' [g v]]. exact H.
Qed.

(** ** [add_point] as an op: on a point that is new for the function and for its terms *)
Lemma add_point_fresh_inv s f x g v :
  inv s -> (f < nfun s)%nat -> pND x -> pND g -> eND v ->
  (forall k, In k (keys x) -> (k < pt_ctr s)%nat) ->
  find_pt (f_pts (getf s f)) (prune x) = None ->
  (forall i q, In (i, q) (f_w (getf s f)) -> find_pt (f_pts (getf s i)) (prune x) = None) ->
  inv (add_point s f (x, g, v)).
Proof.
  intros Hinv Hf Nx Ng Nv Hk Hnone Hterms. unfold add_point.
  destruct (f_leaf (getf s f)) eqn:Hl.
  - apply record_inv; auto; rewrite ?Hnone, ?Hl; discriminate.
  - apply comp_add_point_inv; auto; [rewrite Hnone; discriminate|].
    (* the first term needs a value *)
    destruct (inv_compw s Hinv f Hf Hl) as (_ & Wne & _).
    destruct (f_w (getf s f)) as [|[i q] W]; [congruence|]. cbn [filter].
    unfold p_gv at 1, evald; cbn [fst]. rewrite (Hterms i q (or_introl eq_refl)). discriminate.
Qed.

(** ... under the side conditions of the [AddPoint] op *)
Lemma add_point_guarded_inv s f x g v :
  inv s ->
  in_range s f && pwf_b s x && nodup_by Nat.eqb (keys g) && nodup_by ekey_eqb (keys v) && fresh_for s f (prune x) = true ->
  inv (add_point s f (x, g, v)).
Proof.
  intros Hinv H. apply andb_true_iff in H as [H Hfr]. apply andb_true_iff in H as [H Hnv].
  apply andb_true_iff in H as [H Hng]. apply andb_true_iff in H as [Hr Hp].
  destruct (pwf_b_spec s x Hp) as [Nx Hk]. apply andb_true_iff in Hfr as [Hn Ht].
  apply add_point_fresh_inv; auto.
  - apply in_range_spec, Hr.
  - apply (nodup_by_spec Nat.eqb nat_eqb_spec), Hng.
  - apply (nodup_by_spec ekey_eqb ekey_eqb_spec), Hnv.
  - destruct (find_pt (f_pts (getf s f)) (prune x)); [discriminate|reflexivity].
  - intros i q Hin. rewrite forallb_forall in Ht. specialize (Ht (i, q) Hin). cbn in Ht.
    destruct (find_pt (f_pts (getf s i)) (prune x)); [discriminate|reflexivity].
Qed.

(** a point that involves a leaf created after every recorded sample is recorded nowhere *)
Lemma no_match_key s j X n :
  inv s -> (j < nfun s)%nat -> pND X -> In n (keys X) -> (pt_ctr s <= n)%nat ->
  find_pt (f_pts (getf s j)) X = None.
Proof.
  intros Hinv Hj NX Hn Hle. apply find_pt_None. intros t Ht.
  destruct (inv_samples s Hinv j t Hj Ht) as (Nt & _ & _ & _ & Hk).
  destruct (dict_eqb Nat.eqb (xof t) X) eqn:E; [|reflexivity]. exfalso.
  pose proof (proj1 (dict_eqb_char nat Nat.eqb nat_eqb_spec (xof t) X Nt NX) E n) as E'. clear E. rename E' into E.
  assert (H1 : lookup Nat.eqb n (xof t) = None).
  { apply (lookup_None nat Nat.eqb nat_eqb_spec). intros Hc. specialize (Hk n Hc). lia. }
  destruct (key_lookup nat Nat.eqb nat_eqb_spec n X Hn) as [v H2].
  rewrite H1, H2 in E. exact E.
Qed.

(** [stationary_point] / [fixed_point]: the recorded point is a leaf created by the call *)
Lemma add_point_new_leaf_point_inv s f a b g v :
  inv s -> (f < nfun s)%nat -> (pt_ctr s < a)%nat -> pND g -> eND v ->
  inv (add_point (mkS a b (funs s)) f ([(pt_ctr s, 1%Q)], g, v)).
Proof.
  intros Hinv Hf Ha Ng Nv.
  assert (Hnew : forall j, (j < nfun s)%nat -> find_pt (f_pts (getf s j)) [(pt_ctr s, 1%Q)] = None)
    by (intros j Hj; exact (no_match_key s j _ _ Hinv Hj (NoDupKeys_single nat _ _) (or_introl eq_refl) (le_n _))).
  apply add_point_fresh_inv; auto.
  - apply inv_bump; [exact Hinv|lia].
  - apply NoDupKeys_single.
  - intros k [<-|[]]. cbn. lia.
  - exact (Hnew f Hf).
  - intros i q Hin. exact (Hnew i (term_in_range s f i q Hinv Hf Hin)).
Qed.

(** ** A new function: one more entry in the table, with no sample; its weights are over distinct leaves *)
Lemma inv_append s r :
  inv s -> f_pts r = [] -> f_stat r = [] -> wts_ok s (nfun s) r ->
  inv (mkS (pt_ctr s) (ex_ctr s) (funs s ++ [r])).
Proof.
  intros Hinv Hp Hst Hw.
  set (s' := mkS (pt_ctr s) (ex_ctr s) (funs s ++ [r])).
  assert (Hn : nfun s' = S (nfun s)) by (unfold nfun, s'; cbn; rewrite app_length; cbn; lia).
  assert (Hold : forall j, (j < nfun s)%nat -> getf s' j = getf s j)
    by (intros j Hj; apply (app_nth1 _ _ dummy), Hj).
  assert (Hnew : getf s' (nfun s) = r)
    by (unfold getf, nfun, s'; cbn; rewrite app_nth2, Nat.sub_diag by lia; reflexivity).
  assert (Hm : forall i r0, fok noP s i r0 -> fok noP s' i r0).
  { intros i r0. apply fok_mono; [lia|apply Nat.le_refl|]. intros k Hk. rewrite (Hold k Hk). auto. }
  apply inv_gen_each. intros i Hi. apply Hm.
  assert (Hc : (i < nfun s)%nat \/ i = nfun s) by lia.
  destruct Hc as [Ho| ->]; [rewrite (Hold i Ho); exact (proj1 (inv_gen_each noP s) Hinv i Ho)|].
  rewrite Hnew. split; [exact Hw|]. unfold pts_ok, I3_ok. rewrite Hp, Hst.
  split; [split; [|split]|]; intros; contradiction.
Qed.

Lemma forallb_mem_equiv {A} (p : A -> bool) l1 l2 :
  (forall a, In a l1 <-> In a l2) -> forallb p l1 = forallb p l2.
Proof.
  intros H. apply eq_true_iff_eq. rewrite !forallb_forall. split; intros Hp a Ha; apply Hp, H, Ha.
Qed.

Lemma forallb_pairs_keys (p : nat -> bool) (W : wdict) :
  forallb (fun '(k, _) => p k) W = forallb p (keys W).
Proof. induction W as [|[k q] W IH]; cbn; [reflexivity|rewrite IH; reflexivity]. Qed.

Section Combine.
  Variable s : state.
  Hypothesis Hinv : inv s.
  Variable terms : list (fid * Q).
  Hypothesis Hok : forall f q, In (f, q) terms -> (f < nfun s)%nat.

  Lemma wprop_term f q : In (f, q) terms -> wprop s (combine_reuse s terms) (scale q (f_w (getf s f))).
  Proof.
    intros Hin. pose proof (Hok f q Hin) as Hf.
    assert (Hr : combine_reuse s terms = true -> f_reuse (getf s f) = true).
    { unfold combine_reuse. rewrite forallb_forall. intros H. apply (H (f, q) Hin). }
    destruct (proj1 (inv_gen_each noP s) Hinv f Hf) as ((Wl & Wc) & _).
    split; [apply NoDupKeys_scale|rewrite keys_scale]; destruct (f_leaf (getf s f)) eqn:Hl.
    - rewrite (Wl eq_refl). apply NoDupKeys_single.
    - apply (Wc eq_refl).
    - rewrite (Wl eq_refl). intros k [<-|[]]. cbn [fst]. auto.
    - intros k Hk. destruct (Wc eq_refl) as ((_ & B) & _). destruct (B k Hk) as (B1 & B2 & B3). auto.
  Qed.

  Lemma wprop_add reuse a b : wprop s reuse a -> wprop s reuse b -> wprop s reuse (prune (merge Nat.eqb a b)).
  Proof.
    intros [Na Ka] [Nb Kb]. split.
    - apply NoDupKeys_prune, (NoDupKeys_merge nat Nat.eqb nat_eqb_spec); assumption.
    - intros k Hin. apply (keys_prune_incl nat), keys_merge_in in Hin as [Hin|Hin]; auto.
  Qed.

  Lemma wprop_fold rest : incl rest terms -> forall acc, wprop s (combine_reuse s terms) acc ->
    wprop s (combine_reuse s terms)
      (fold_left (fun acc '(f, q) => prune (merge Nat.eqb acc (scale q (f_w (getf s f))))) rest acc).
  Proof.
    induction rest as [|[f q] rest IH]; intros Hrest acc Hacc; cbn [fold_left]; [exact Hacc|].
    apply IH; [intros a Ha; apply Hrest; right; exact Ha|].
    apply wprop_add; [exact Hacc|]. apply wprop_term, Hrest. left. reflexivity.
  Qed.
End Combine.

Lemma combine_weights_prop s terms :
  inv s -> (forall f q, In (f, q) terms -> (f < nfun s)%nat) ->
  wprop s (combine_reuse s terms) (combine_weights s terms).
Proof.
  intros Hinv Hok. destruct terms as [|[f0 q0] rest]; [split; [apply NoDupKeys_nil|intros k []]|].
  apply (wprop_fold s Hinv _ Hok rest); [apply incl_tl, incl_refl|]. apply (wprop_term s Hinv _ Hok). left. reflexivity.
Qed.

Lemma init_inv : inv init.
Proof. split; cbn; intros; lia. Qed.

(** a query [f.oracle(x)] / [f.gradient(x)] under its side conditions *)
Lemma oracle_guarded_inv s f x :
  inv s -> in_range s f && pwf_b s x = true -> allnz_b x = true -> inv (fst (oracle s f x)).
Proof. intros Hinv Hsc Hg. destruct (query_guard s f x Hsc Hg) as [Hr Hq]. exact (oracle_inv s f x Hinv Hr Hq). Qed.

Lemma step_inv s o :
  inv s -> op_scoped s o = true -> op_guard s o = true -> inv (step s o).
Proof.
  intros Hinv Hsc Hg. unfold step. destruct o as [| |reuse|terms|w reuse|f p|f p|f p|f|f|f x g v]; cbn [step_ret op_scoped op_guard] in *.
  - (* NewPoint *)
    cbn. apply inv_bump; [exact Hinv|lia].
  - (* NewExpr *)
    cbn. apply inv_bump; [exact Hinv|lia].
  - (* NewLeaf *)
    cbn [fst]. apply inv_append; auto. split; [reflexivity|discriminate].
  - (* Combine *)
    cbn [fst]. apply andb_true_iff in Hsc as [Hr _]. apply andb_true_iff in Hg as [Hnz Hne].
    apply inv_append; auto. split; cbn [f_leaf f_w f_reuse]; [discriminate|intros _].
    split; [|split; [destruct (combine_weights s terms); [discriminate|congruence]|exact Hnz]].
    apply combine_weights_prop; [exact Hinv|].
    intros f q Hin. rewrite forallb_forall in Hr. apply in_range_spec, (Hr (f, q) Hin).
  - (* Direct *)
    cbn [fst]. apply andb_true_iff in Hsc as [Hsc Hre]. apply andb_true_iff in Hsc as [Hnd Hlf].
    apply andb_true_iff in Hg as [Hnz Hne]. rewrite forallb_forall in Hlf.
    apply inv_append; auto. split; cbn [f_leaf f_w f_reuse]; [discriminate|intros _].
    split; [|split; [destruct w; [discriminate|congruence]|exact Hnz]].
    split; [apply (nodup_by_spec Nat.eqb nat_eqb_spec), Hnd|].
    intros k Hk. apply in_map_iff in Hk as [[k' q] [<- Hk]]. pose proof (Hlf (k', q) Hk) as H. cbn in H.
    apply andb_true_iff in H as [H1 H2]. apply in_range_spec in H1. split; [exact H1|]. split; [exact H2|].
    intros ->. cbn [implb] in Hre. rewrite forallb_forall in Hre. apply (Hre (k', q) Hk).
  - (* Oracle *)
    pose proof (oracle_guarded_inv s f (pt p) Hinv Hsc Hg) as H. destruct (oracle s f (pt p)) as [s' [g v]]. exact H.
  - (* Gradient *)
    pose proof (oracle_guarded_inv s f (pt p) Hinv Hsc Hg) as H. destruct (oracle s f (pt p)) as [s' [g v]]. exact H.
  - (* Value *)
    destruct (query_guard s f (pt p) Hsc Hg) as [Hr Hq]. pose proof (value_inv s f (pt p) Hinv Hr Hq) as H.
    destruct (value s f (pt p)) as [s' v]. exact H.
  - (* Stationary *)
    apply in_range_spec in Hsc. cbn [fresh_pt fresh_ex fst pt_ctr ex_ctr funs].
    apply add_point_new_leaf_point_inv; auto; [apply NoDupKeys_nil|apply NoDupKeys_single].
  - (* Fixed *)
    apply in_range_spec in Hsc. cbn [fresh_pt fresh_ex fst pt_ctr ex_ctr funs].
    apply add_point_new_leaf_point_inv; auto; [apply NoDupKeys_single|apply NoDupKeys_single].
  - (* AddPoint *)
    exact (add_point_guarded_inv s f (pt x) (pt g) v Hinv Hsc).
Qed.

Theorem run_inv : forall ops s, inv s -> run_ok s ops = true -> inv (fold_left step ops s).
Proof.
  induction ops as [|o ops IH]; intros s Hinv Hok; cbn [fold_left]; [exact Hinv|].
  cbn [run_ok] in Hok. apply andb_true_iff in Hok as [Hok Hrest]. apply andb_true_iff in Hok as [Hsc Hg].
  apply IH; [apply step_inv; assumption|exact Hrest].
Qed.

Theorem inv_partial : forall ops, ops_ok ops = true -> inv (run ops).
Proof. intros ops H. apply run_inv; [apply init_inv|exact H]. Qed.
