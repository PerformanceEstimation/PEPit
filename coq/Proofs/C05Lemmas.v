(** C05 — lemmas about the translation of an expression to solver data (Model/Matrices.v). *)
From Coq Require Import List Reals Qreals Lra Lia FinFun.
From PV Require Import Model.Dict Model.Terms Model.Matrices Spec.GramSem
     Proofs.DictLemmas Proofs.SemLemmas Proofs.C05Spec.
Import ListNotations.
Local Open Scope R_scope.

Lemma sumn_ext n f g : (forall i, (i < n)%nat -> f i = g i) -> sumn n f = sumn n g.
Proof.
  induction n as [|n IH]; cbn; intros H; [reflexivity|].
  rewrite IH by (intros i Hi; apply H; lia). rewrite (H n) by lia. reflexivity.
Qed.

Lemma sumn_plus n f g : sumn n (fun i => f i + g i) = sumn n f + sumn n g.
Proof. induction n as [|n IH]; cbn; [lra|rewrite IH; lra]. Qed.

Lemma sumn_minus n f g : sumn n (fun i => f i - g i) = sumn n f - sumn n g.
Proof. induction n as [|n IH]; cbn; [lra|rewrite IH; lra]. Qed.

Lemma sumn_scal n c f : sumn n (fun i => c * f i) = c * sumn n f.
Proof. induction n as [|n IH]; cbn; [lra|rewrite IH; lra]. Qed.

Lemma sumn_zero n : sumn n (fun _ => 0) = 0.
Proof. induction n as [|n IH]; cbn; [lra|rewrite IH; lra]. Qed.

Lemma sumn_0 n f : (forall i, f i = 0) -> sumn n f = 0.
Proof. intros H. rewrite <- (sumn_zero n). apply sumn_ext. intros i _. apply H. Qed.

Lemma sumn_delta n a x :
  sumn n (fun i => if Nat.eqb i a then x else 0) = if Nat.ltb a n then x else 0.
Proof.
  induction n as [|n IH]; cbn [sumn]; [reflexivity|]. rewrite IH.
  destruct (Nat.eqb_spec n a) as [->|Hne].
  - rewrite Nat.ltb_irrefl. replace (a <? S a)%nat with true by (symmetry; apply Nat.ltb_lt; lia). lra.
  - destruct (Nat.ltb_spec a n), (Nat.ltb_spec a (S n)); try lia; lra.
Qed.

Lemma sumn_swap n m (a : nat -> nat -> R) :
  sumn n (fun i => sumn m (fun j => a i j)) = sumn m (fun j => sumn n (fun i => a i j)).
Proof.
  induction n as [|n IH]; cbn [sumn].
  - rewrite sumn_zero. reflexivity.
  - rewrite IH, <- sumn_plus. reflexivity.
Qed.

(** two sequences that differ at [a] only *)
Lemma sumn_upd n (f g : nat -> R) a :
  (a < n)%nat -> (forall i, i <> a -> g i = f i) -> sumn n g = sumn n f + (g a - f a).
Proof.
  intros Ha H. induction n as [|n IH]; [lia|]. cbn [sumn].
  destruct (Nat.eq_dec a n) as [->|Hn].
  - rewrite (sumn_ext n g f) by (intros i Hi; apply H; lia). lra.
  - rewrite IH, (H n) by lia. lra.
Qed.

Lemma lsum_app {A} (f : A -> R) l1 l2 : lsum f (l1 ++ l2) = lsum f l1 + lsum f l2.
Proof. induction l1 as [|x l1 IH]; cbn; [lra|rewrite IH; lra]. Qed.

Lemma lsum_ext_in {A} (f g : A -> R) l : (forall x, In x l -> f x = g x) -> lsum f l = lsum g l.
Proof.
  induction l as [|x l IH]; cbn; intros H; [reflexivity|].
  rewrite (H x) by (left; reflexivity). rewrite IH by (intros y Hy; apply H; right; exact Hy). reflexivity.
Qed.

Lemma lsum_plus {A} (f g : A -> R) l : lsum (fun x => f x + g x) l = lsum f l + lsum g l.
Proof. induction l as [|x l IH]; cbn; [lra|rewrite IH; lra]. Qed.

Lemma lsum_plus_minus {A} (f g h : A -> R) l :
  lsum (fun x => f x + g x - h x) l = lsum f l + lsum g l - lsum h l.
Proof. induction l as [|x l IH]; cbn; [lra|rewrite IH; lra]. Qed.

Lemma Q2R_half_sum a b : Q2R ((a + b) / 2) = (Q2R a + Q2R b) / 2.
Proof.
  unfold Qdiv. rewrite Q2R_mult, Q2R_plus, Q2R_inv by (intros H; discriminate H).
  rewrite Q2R_2. lra.
Qed.

Section GF.
  Variable G : nat -> nat -> R.
  Variable F : nat -> R.

  Lemma evalGF_dsum d : evalGF G F d = dsum ekey (evalKGF G F) d.
  Proof. reflexivity. Qed.

  Lemma dsum_lsum (val : ekey -> R) d : dsum ekey val d = lsum (fun kw => Q2R (snd kw) * val (fst kw)) d.
  Proof. induction d as [|[k q] d IH]; cbn; [reflexivity|rewrite IH; reflexivity]. Qed.

  Lemma evalGF_lsum d : evalGF G F d = lsum (fun kw => Q2R (snd kw) * evalKGF G F (fst kw)) d.
  Proof. apply dsum_lsum. Qed.

  (** the algebra of Model/Terms.v under the Gram reading *)
  Lemma evalGF_add a b : eND a -> eND b -> evalGF G F (x_add a b) = evalGF G F a + evalGF G F b.
  Proof. exact (xval_add (evalKGF G F) a b). Qed.
  Lemma evalGF_scal c a : evalGF G F (x_scal c a) = Q2R c * evalGF G F a.
  Proof. exact (xval_scal (evalKGF G F) c a). Qed.
  Lemma evalGF_sub a b : eND a -> eND b -> evalGF G F (x_sub a b) = evalGF G F a - evalGF G F b.
  Proof. exact (xval_sub (evalKGF G F) a b). Qed.

  Definition cell (r : dense) (k : ekey) : Q :=
    match k with KF e => dF r e | KG i j => dG r i j | K1 => dC r end.

  Lemma dense_step_val n m acc k w :
    key_in_bounds n m k = true ->
    dense_val G F n m (dense_step acc (k, w))
    = dense_val G F n m acc + (Q2R w - Q2R (cell acc k)) * evalKGF G F k.
  Proof.
    intros Hb. unfold dense_val, dense_step.
    destruct k as [e|a b|]; cbn [fst snd dG dF dC cell evalKGF key_in_bounds] in *.
    - apply Nat.ltb_lt in Hb.
      rewrite sumn_upd with (n := m) (f := fun k => Q2R (dF acc k) * F k) (a := e); [|exact Hb|].
      + unfold fset. rewrite Nat.eqb_refl. lra.
      + intros i Hi. unfold fset. rewrite (proj2 (Nat.eqb_neq i e) Hi). reflexivity.
    - apply andb_true_iff in Hb as [Ha Hb]. apply Nat.ltb_lt in Ha, Hb.
      rewrite sumn_upd with (f := fun i => sumn n (fun j => Q2R (dG acc i j) * G i j)) (a := a); [|exact Ha|].
      + rewrite sumn_upd with (g := fun j => Q2R (gset (dG acc) a b w a j) * G a j)
                             (f := fun j => Q2R (dG acc a j) * G a j) (a := b); [|exact Hb|].
        * unfold gset. rewrite !Nat.eqb_refl. cbn [andb]. lra.
        * intros j Hj. unfold gset. rewrite (proj2 (Nat.eqb_neq j b) Hj), andb_false_r. reflexivity.
      + intros i Hi. apply sumn_ext. intros j _. unfold gset.
        rewrite (proj2 (Nat.eqb_neq i a) Hi). reflexivity.
    - lra.
  Qed.

  Lemma cell_step acc k w k' :
    cell (dense_step acc (k, w)) k' = if ekey_eqb k' k then w else cell acc k'.
  Proof. destruct k, k'; reflexivity. Qed.

  Lemma fold_dense n m : forall l acc,
      eND l ->
      (forall kw, In kw l -> key_in_bounds n m (fst kw) = true) ->
      (forall k, In k (keys l) -> Q2R (cell acc k) = 0) ->
      dense_val G F n m (fold_left dense_step l acc) = dense_val G F n m acc + evalGF G F l.
  Proof.
    induction l as [|[k w] l IH]; intros acc Hnd Hb Hz; cbn [fold_left evalGF]; [lra|].
    apply NoDup_cons_iff in Hnd as [Hni Hnd'].
    rewrite IH, (dense_step_val n m), (Hz k); [lra|left; reflexivity| |exact Hnd'| |].
    - apply (Hb (k, w)). left. reflexivity.
    - intros kw Hin. apply Hb. right. exact Hin.
    - intros k' Hin. rewrite cell_step. destruct (ekey_eqb_spec k' k) as [->|_]; [contradiction|].
      apply Hz. right. exact Hin.
  Qed.

  (** [(Gweights + Gweights.T) / 2] does not change the pairing with a symmetric [G] *)
  Lemma dense_val_symmetrize n m r :
    symG G -> dense_val G F n m (mkDense (symmetrize_G (dG r)) (dF r) (dC r)) = dense_val G F n m r.
  Proof.
    intros Hs. unfold dense_val. cbn [dG dF dC]. do 2 apply Rplus_eq_compat_r.
    set (a := fun i j => Q2R (dG r i j) * G i j).
    rewrite (sumn_ext n _ (fun i => sumn n (fun j => / 2 * a i j) + sumn n (fun j => / 2 * a j i))).
    - rewrite sumn_plus. rewrite (sumn_swap n n (fun i j => / 2 * a j i)).
      rewrite <- sumn_plus. apply sumn_ext. intros i _. rewrite <- sumn_plus. apply sumn_ext. intros j _.
      unfold a. lra.
    - intros i _. rewrite <- sumn_plus. apply sumn_ext. intros j _. unfold symmetrize_G, a.
      rewrite Q2R_half_sum, (Hs j i). lra.
  Qed.

  Lemma dense_val_0 n m : dense_val G F n m dense0 = 0.
  Proof.
    unfold dense_val, dense0. cbn [dG dF dC].
    rewrite Q2R_0, (sumn_0 n), (sumn_0 m); [lra|intros; lra|intros; apply sumn_0; intros; lra].
  Qed.

  Theorem dense_correct n m x :
    symG G -> eND (dict_of x) -> in_bounds n m x = true ->
    dense_val G F n m (expression_to_matrices x) = evalGF G F (dict_of x).
  Proof.
    intros Hs Hnd Hb. unfold expression_to_matrices.
    (* the leaf shortcut [Fweights[c] += 1] from zeros is the loop on [{self: 1}]: 0 + 1 computes to 1 *)
    replace (match x with ELeaf c => dense_leaf c | EComp d => dense_loop d end) with (dense_loop (dict_of x))
      by (destruct x; reflexivity).
    unfold dense_loop.
    rewrite (dense_val_symmetrize n m _ Hs), (fold_dense n m _ dense0 Hnd (proj1 (forallb_forall _ _) Hb)).
    - rewrite dense_val_0. lra.
    - intros k _. destruct k; apply Q2R_0.
  Qed.

  (** upper-triangle part of the Gram valuation: the device that pairs a key with its mirror *)
  Definition up (k : ekey) : R :=
    match k with KG a b => if Nat.ltb a b then G a b else 0 | _ => 0 end.

  Definition sw (d : edict) : edict := map (fun kv => (swap_key (fst kv), snd kv)) d.

  Lemma swap_key_invol k : swap_key (swap_key k) = k.
  Proof. destruct k; reflexivity. Qed.

  Lemma keys_sw d : keys (sw d) = map swap_key (keys d).
  Proof. unfold keys, sw. rewrite !map_map. reflexivity. Qed.

  Lemma eND_sw d : eND d -> eND (sw d).
  Proof.
    unfold NoDupKeys. rewrite keys_sw. apply Injective_map_NoDup.
    intros a b H. rewrite <- (swap_key_invol a), <- (swap_key_invol b), H. reflexivity.
  Qed.

  Lemma mem_sw k d : mem ekey_eqb k (sw d) = mem ekey_eqb (swap_key k) d.
  Proof.
    induction d as [|[a v] d IH]; [reflexivity|]. cbn [sw map fst snd].
    rewrite !(mem_cons ekey ekey_eqb). fold (sw d). rewrite IH. apply (f_equal (fun b => b || _)).
    destruct k, a; try reflexivity. apply andb_comm.
  Qed.

  Definition pairX (d : edict) (kw : ekey * Q) : R :=
    get ekey ekey_eqb (swap_key (fst kw)) d * up (swap_key (fst kw)).
  Definition pairY (d : edict) (kw : ekey * Q) : R :=
    if mem ekey_eqb (swap_key (fst kw)) d then Q2R (snd kw) * up (fst kw) else 0.

  Lemma pairing d : eND d -> lsum (pairX d) d = lsum (pairY d) d.
  Proof.
    intros Hnd.
    pose proof (dsum_split ekey ekey_eqb ekey_eqb_spec up (sw d) d (eND_sw d Hnd) Hnd) as H.
    assert (H1 : forall l, fold_right (fun '(k, _) acc => get ekey ekey_eqb k d * up k + acc) 0 (sw l)
                           = lsum (pairX d) l).
    { unfold sw, pairX. induction l as [|[k w] l IH]; cbn; [reflexivity|]. rewrite IH. reflexivity. }
    assert (H2 : forall l, dsum ekey up (filter (fun '(k, _) => negb (mem ekey_eqb k (sw d))) l)
                 = lsum (fun kw => if mem ekey_eqb (swap_key (fst kw)) d then 0 else Q2R (snd kw) * up (fst kw)) l).
    { induction l as [|[k w] l IH]; cbn [filter lsum fst snd]; [reflexivity|].
      rewrite mem_sw. destruct (mem ekey_eqb (swap_key k) d); cbn [negb dsum]; rewrite IH; lra. }
    rewrite H1, H2 in H. rewrite dsum_lsum in H.
    assert (H3 : lsum (fun kw => Q2R (snd kw) * up (fst kw)) d
                 = lsum (pairY d) d
                   + lsum (fun kw => if mem ekey_eqb (swap_key (fst kw)) d then 0 else Q2R (snd kw) * up (fst kw)) d).
    { rewrite <- lsum_plus. apply lsum_ext_in. intros kw _. unfold pairY.
      destruct (mem ekey_eqb (swap_key (fst kw)) d); lra. }
    lra.
  Qed.

  Lemma sparse_val_snoc acc t :
    sparse_val G F (mkSparse (sG acc ++ [t]) (sF acc) (sC acc)) = sparse_val G F acc + tri_val G t.
  Proof. unfold sparse_val. cbn [sG sF sC]. rewrite lsum_app. cbn [lsum]. lra. Qed.

  Lemma tri_val_offdiag a b v : a <> b -> tri_val G (Nat.max a b, Nat.min a b, v) = Q2R v * (G a b + G b a).
  Proof.
    intros Hne. unfold tri_val. cbn [fst snd].
    destruct (Nat.eqb_spec (Nat.max a b) (Nat.min a b)) as [He|_]; [lia|].
    destruct (Nat.le_ge_cases a b) as [Hab|Hab].
    - rewrite (Nat.max_r a b Hab), (Nat.min_l a b Hab). lra.
    - rewrite (Nat.max_l a b Hab), (Nat.min_r a b Hab). lra.
  Qed.

  (** One iteration adds the weight of its key, plus what the key takes over from its mirror ([pairX]),
      minus what it leaves to its mirror ([pairY]); the constant is assigned, not added. *)
  Lemma sparse_step_val d acc kw :
    symG G -> eND d -> In kw d -> (fst kw = K1 -> Q2R (sC acc) = 0) ->
    sparse_val G F (sparse_step d acc kw)
    = sparse_val G F acc + (Q2R (snd kw) * evalKGF G F (fst kw) + pairX d kw - pairY d kw).
  Proof.
    intros Hs Hnd Hin Hc. unfold sparse_step, pairX, pairY.
    destruct kw as [[e|a b|] w]; cbn [fst snd swap_key up evalKGF].
    - unfold sparse_val. cbn [sG sF sC]. rewrite lsum_app. cbn [lsum fst snd].
      destruct (mem ekey_eqb (KF e) d); lra.
    - pose proof (In_lookup ekey ekey_eqb ekey_eqb_spec (KG a b) w d Hnd Hin) as Hself.
      unfold get, mem. destruct (lookup ekey_eqb (KG b a) d) as [ws|] eqn:Hl.
      + destruct (Nat.leb_spec b a) as [Hle|Hlt].
        * rewrite sparse_val_snoc. apply Rplus_eq_compat_l. unfold tri_val. cbn [fst snd].
          rewrite Q2R_half_sum.
          destruct (Nat.eqb_spec a b) as [->|Hne].
          -- (* diagonal key: its mirror is itself *)
             rewrite Hself in Hl. injection Hl as <-. rewrite Nat.ltb_irrefl. lra.
          -- rewrite (proj2 (Nat.ltb_lt b a) (proj2 (Nat.le_neq b a) (conj Hle (not_eq_sym Hne)))),
               (proj2 (Nat.ltb_ge a b) Hle), (Hs b a). lra.
        * rewrite (proj2 (Nat.ltb_ge b a) (Nat.lt_le_incl a b Hlt)), (proj2 (Nat.ltb_lt a b) Hlt). lra.
      + assert (Hne : a <> b) by (intros ->; rewrite Hself in Hl; discriminate).
        rewrite sparse_val_snoc, (tri_val_offdiag a b _ Hne), Q2R_half_sum, Q2R_0, (Hs b a). lra.
    - unfold sparse_val. cbn [sG sF sC]. rewrite Hc by reflexivity. destruct (mem ekey_eqb K1 d); lra.
  Qed.

  Lemma sparse_step_const d acc k w : k <> K1 -> sC (sparse_step d acc (k, w)) = sC acc.
  Proof.
    intros Hk. unfold sparse_step. destruct k as [e|i j|]; cbn [fst]; [reflexivity| |congruence].
    destruct (lookup ekey_eqb (KG j i) d); [destruct (Nat.leb j i)|]; reflexivity.
  Qed.

  Lemma fold_sparse d : symG G -> eND d -> forall l acc,
      eND l -> incl l d ->
      (In K1 (keys l) -> Q2R (sC acc) = 0) ->
      sparse_val G F (fold_left (sparse_step d) l acc)
      = sparse_val G F acc
        + lsum (fun kw => Q2R (snd kw) * evalKGF G F (fst kw) + pairX d kw - pairY d kw) l.
  Proof.
    intros Hs Hd. induction l as [|[k w] l IH]; intros acc Hnd Hl Hc; cbn [fold_left lsum]; [lra|].
    apply NoDup_cons_iff in Hnd as [Hni Hnd']. apply incl_cons_inv in Hl as [Hin Hl].
    rewrite IH, (sparse_step_val d acc (k, w) Hs Hd Hin); [lra| |exact Hnd'|exact Hl|].
    - intros Hk. apply Hc. left. exact Hk.
    - intros Hin'. rewrite sparse_step_const by (intros ->; exact (Hni Hin')). apply Hc. right. exact Hin'.
  Qed.

  Theorem sparse_correct x :
    symG G -> eND (dict_of x) ->
    sparse_val G F (expression_to_sparse_matrices x) = evalGF G F (dict_of x).
  Proof.
    intros Hs Hnd. destruct x as [c|d]; cbn [expression_to_sparse_matrices dict_of] in *.
    - unfold sparse_val, sparse_leaf. cbn. rewrite Q2R_0. lra.
    - unfold sparse_loop.
      rewrite (fold_sparse d Hs Hnd d sparse0 Hnd (incl_refl d)) by (intros _; apply Q2R_0).
      unfold sparse_val at 1. cbn [sparse0 sG sF sC lsum].
      rewrite Q2R_0, evalGF_lsum, lsum_plus_minus, (pairing d Hnd). lra.
  Qed.

End GF.

(** every triple is lower-triangular, whatever the dictionary *)
Lemma sparse_step_lower d acc kw : lower_triangular acc -> lower_triangular (sparse_step d acc kw).
Proof.
  unfold lower_triangular, sparse_step. intros H. destruct (fst kw) as [e|i j|]; [exact H| |exact H].
  destruct (lookup ekey_eqb (KG j i) d); [destruct (Nat.leb_spec j i); [|exact H]|];
    cbn [sG]; apply Forall_app; (split; [exact H|]); repeat constructor; cbn [fst snd]; [assumption|lia].
Qed.

Lemma fold_sparse_lower d l : forall acc,
    lower_triangular acc -> lower_triangular (fold_left (sparse_step d) l acc).
Proof. induction l as [|kw l IH]; intros acc H; [exact H|]. apply IH, sparse_step_lower, H. Qed.

(** the objective: the largest [tau] under [tau - m_k <= 0] for every metric is their minimum *)
Lemma min_list_le m0 ms : Forall (fun m => min_list m0 ms - m <= 0) (m0 :: ms).
Proof.
  unfold min_list. revert m0. induction ms as [|m ms IH]; intros m0; cbn [fold_left].
  - constructor; [lra|constructor].
  - destruct (proj1 (Forall_cons_iff _ _ _) (IH (Rmin m0 m))) as [H1 H2].
    pose proof (Rmin_l m0 m). pose proof (Rmin_r m0 m). constructor; [lra|constructor; [lra|exact H2]].
Qed.

Lemma min_list_glb m0 ms t : Forall (fun m => t - m <= 0) (m0 :: ms) -> t <= min_list m0 ms.
Proof.
  unfold min_list. revert m0. induction ms as [|m ms IH]; intros m0 H; cbn [fold_left];
    apply Forall_cons_iff in H as [H0 H]; [lra|].
  apply Forall_cons_iff in H as [H1 H]. apply IH. constructor; [|exact H].
  apply Rmin_case; assumption.
Qed.
