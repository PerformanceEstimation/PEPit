(** C09, the worlds of the classes that [dfn_world] and [fn_world] do not serve, and the stationary samples of a
    run (the class theorems themselves are in Props/C09.v).

    Worlds:
    - [pfn_world]: an EXTENDED-valued function with a subgradient selection on its domain; a sample is genuine
      provided its point is in the domain, and the theorems assume that every recorded evaluation point is, at the
      values of the run, in the domain (points outside the domain are never evaluated) -- StronglyConvex,
      ConvexIndicator;
    - [support_world]: a support function with an argmax selection -- ConvexSupport;
    - [graph_world]: a single-valued selection T of a graph A that respects [veq], with a zero xs -- the eight
      operator classes;
    - [lin_world] / [lin2_world]: a linear map (and its transpose, as a second function of the run: [fstate_of2],
      [run_state_genuine2]) -- SymmetricLinear, SkewSymmetricLinear, LinearOperator.
    ConvexQG / RsiEb (plans starting with "declare a stationary point if none was recorded") are stated for programs
    that contain [MStat 0], i.e. a stationary point IS recorded ([mstat_f_stat]), and every stationary sample is then
    valued at the world's stationary point ([f_stat_at_stat]).
    Not composed: SmoothStronglyConvexQuadraticFunction, BlockSmoothConvexFunction. *)
From Coq Require Import List QArith Reals Qreals Lra String Lia.
From PV Require Import Base.IPS Model.Dict Model.Terms Model.Method Model.MethodDump Model.ClassGen
  Spec.Sem Spec.World Spec.Classes Proofs.DictLemmas Proofs.MethodLemmas Proofs.ClassGenLemmas Proofs.C04Lemmas
  Proofs.C03Core Proofs.C03Assembly Proofs.C09Compose.
From PV Require Import Gen.Classes.
Import ListNotations.
Local Open Scope R_scope.

(** parameter tables *)
Definition par_at (p : nat) (q : Q) : nat -> Q := fun k => if Nat.eqb k p then q else 0%Q.
Definition par_at2 (p1 : nat) (q1 : Q) (p2 : nat) (q2 : Q) : nat -> Q :=
  fun k => if Nat.eqb k p1 then q1 else if Nat.eqb k p2 then q2 else 0%Q.

(** [fstate_of] never sets an [np.inf] flag; [set_inf] does (ConvexIndicator's D, ConvexSupport's M) *)
Definition set_inf (inf : nat -> bool) (st : fstate) : fstate :=
  mkF (f_id st) (f_par st) inf (f_points st) (f_stat st) (f_tpoints st) (f_v st)
      (f_next_point st) (f_next_expr st) (f_next_uid st) (f_nblocks st) (f_Lk st).
Definition inf_flag (p : nat) (o : option R) : nat -> bool :=
  fun k => match o with None => Nat.eqb k p | Some _ => false end.

Lemma samples_mono ops : forall s e, In e (m_samples s) -> In e (m_samples (mrun ops s)).
Proof.
  induction ops as [|o ops IH]; intros s e H; cbn [mrun fold_left]; [exact H|].
  apply (IH (mstep s o)). destruct o as [| | | | | | | | | |? ? ? []]; cbn [mstep m_samples];
    [exact H|apply in_or_app; left; exact H..].
Qed.

Lemma mstat_recorded ops f : forall s,
  In (MStat f) ops -> exists x fx, In (f, (x, [], fx)) (m_samples (mrun ops s)).
Proof.
  induction ops as [|o ops IH]; intros s Hin; [destruct Hin|]. destruct Hin as [Heq|Hin]; cbn [mrun fold_left].
  - subst o. exists [(m_np s, 1%Q)], [(KF (m_ne s), 1%Q)]. apply (samples_mono ops (mstep s (MStat f))).
    cbn [mstep m_samples]. apply in_or_app. right. left. reflexivity.
  - exact (IH (mstep s o) Hin).
Qed.

(** a program that declares a stationary point of function f records a stationary sample *)
Lemma mstat_f_stat par ops f : In (MStat f) ops -> f_stat (fstate_of par (mrun ops minit) f) <> [].
Proof.
  intros Hin. destruct (mstat_recorded ops f minit Hin) as (x & fx & Hs).
  apply In_samples_of_conv in Hs.
  destruct (to_samples_In 0 _ x [] fx Hs) as (sm & Hsm & _ & Hg & _).
  cbn [fstate_of f_stat]. intros He.
  assert (H : In sm (filter is_stationary (to_samples 0 (samples_of f (mrun ops minit))))).
  { apply filter_In. split; [exact Hsm|]. unfold is_stationary. rewrite Hg. reflexivity. }
  rewrite He in H. destruct H.
Qed.

Lemma mem_fresh n k (d : pdict) : keys_below n d = true -> (n <= k)%nat -> mem Nat.eqb k d = false.
Proof.
  intros Hk Hle. unfold mem. destruct (lookup Nat.eqb k d) eqn:Hl; [|reflexivity]. exfalso.
  assert (Hin : In k (keys d)).
  { clear - Hl. induction d as [|[k' v] d IH]; cbn [lookup] in Hl; [discriminate|].
    destruct (Nat.eqb_spec k k') as [->|]; [left; reflexivity|right; exact (IH Hl)]. }
  pose proof (proj1 (keys_below_iff n d) Hk k Hin). lia.
Qed.

(** the (sub)gradient (x0 - x) / gamma recorded by an inexact proximal step 'PD_gapIII' mentions the fresh leaf x *)
Lemma ip3_grad_nonempty n (x0 : pdict) gamma :
  keys_below n x0 = true -> qpos gamma = true -> ip3_grad n x0 gamma <> [].
Proof.
  intros Hk Hpos He. pose proof (qpos_pos gamma Hpos) as Hg.
  pose proof (mem_fresh n n x0 Hk (Nat.le_refl n)) as Hmem.
  assert (Hin0 : exists c0, In (n, c0) (p_sub x0 [(n, 1%Q)]) /\ Q2R c0 = -1).
  { eexists. split.
    - unfold p_sub, p_add, prune. apply filter_In. split.
      + unfold pmerge, merge. apply in_or_app. right. cbn [p_neg p_scal scale map filter]. rewrite Hmem. left. reflexivity.
      + reflexivity.
    - unfold Q2R. cbn. lra. }
  destruct Hin0 as (c0 & Hin0 & Hc0).
  assert (Hin : In (n, (c0 * (1 / gamma))%Q) (ip3_grad n x0 gamma)).
  { unfold ip3_grad, prune. apply filter_In. split.
    - unfold p_div, p_scal, scale. apply in_map_iff. exists (n, c0). split; [reflexivity|exact Hin0].
    - unfold nonzero. apply negb_true_iff. destruct (Qeq_bool (c0 * (1 / gamma)) 0) eqn:Hc; [|reflexivity]. exfalso.
      apply Qeq_bool_eq in Hc. apply Qeq_eqR in Hc. rewrite Q2R_mult, Q2R_0, Hc0 in Hc.
      rewrite (SemLemmas.Q2R_one_div gamma (qpos_nz gamma Hg)) in Hc.
      assert (0 < 1 / Q2R gamma) by (apply Rdiv_lt_0_compat; lra). lra. }
  rewrite He in Hin. destruct Hin.
Qed.

(** the dual point recorded by a Bregman proximal step of non-zero step size mentions the fresh leaf gx *)
Lemma breg_dual_fresh_nonempty n k (sx0 : pdict) gamma :
  keys_below n sx0 = true -> (n <= k)%nat -> Qeq_bool gamma 0 = false -> breg_dual sx0 [(k, 1%Q)] gamma <> [].
Proof.
  intros Hk Hle Hg He.
  set (c := (1 * gamma * -1)%Q).
  assert (Hc : nonzero c = true).
  { unfold nonzero. apply negb_true_iff. destruct (Qeq_bool c 0) eqn:Hc; [|reflexivity]. exfalso.
    apply Qeq_bool_eq in Hc. assert (Hz : (gamma == 0)%Q).
    { setoid_replace gamma with (- c)%Q by (unfold c; ring). rewrite Hc. reflexivity. }
    apply Qeq_eq_bool in Hz. congruence. }
  pose proof (mem_fresh n k sx0 Hk Hle) as Hmem.
  assert (Hin : In (k, c) (breg_dual sx0 [(k, 1%Q)] gamma)).
  { unfold breg_dual, p_sub, p_add, prune. apply filter_In. split; [|exact Hc]. apply filter_In. split; [|exact Hc].
    unfold pmerge, merge. apply in_or_app. right. cbn [p_neg p_scal scale map filter]. fold c.
    rewrite Hmem. left. reflexivity. }
  rewrite He in Hin. destruct Hin.
Qed.

Section StatInv.
  Context {E : ips}.
  Variable W : @world E.

  (** the point of every stationary sample (empty gradient dictionary) is valued at the world's
      stationary point of its function *)
  Definition SInv (s : mstate) (vs : (nat -> E) * (nat -> R)) : Prop :=
    forall f x fx, In (f, (x, [], fx)) (m_samples s) ->
      keys_below (m_np s) x = true /\ veq (evalP (fst vs) x) (fst (stat W f)).

  Lemma SInv_step s vs o :
    SInv s vs -> op_wf s o = true -> linopt_dir_nonzero o = true -> SInv (mstep s o) (wstep W vs s o).
  Proof.
    intros HI Hwf Hnz.
    destruct (wstep_agree W vs s o) as [Hr _]. destruct (mstep_counters s o) as [Hc _].
    assert (Hnew : forall new, m_samples (mstep s o) = m_samples s ++ new ->
              Forall (fun ft => snd (fst (snd ft)) = [] ->
                        keys_below (m_np (mstep s o)) (fst (fst (snd ft))) = true /\
                        veq (evalP (fst (wstep W vs s o)) (fst (fst (snd ft)))) (fst (stat W (fst ft)))) new ->
              SInv (mstep s o) (wstep W vs s o)).
    { intros new Hs Hn f x fx Hin. rewrite Hs in Hin. apply in_app_or in Hin as [Hin|Hin].
      - destruct (HI f x fx Hin) as [Hk Hv]. split; [exact (keys_below_mono _ _ x Hc Hk)|].
        rewrite (evalP_agree (fst vs) _ (m_np s) x Hk Hr). exact Hv.
      - exact (proj1 (Forall_forall _ _) Hn (f, (x, [], fx)) Hin eq_refl). }
    (* a new sample with an empty gradient dictionary: the stationary point of [MStat]; the other steps record a
       fresh leaf or a dictionary the hypotheses make non-empty *)
    destruct o as [|g p|g|g p gamma|g dir|g p rel eps|g x0 dirs|g p|h gx0 sx0 gamma|h g sx0 gamma|g x0 gamma []];
      (eapply Hnew; [first [reflexivity|symmetry; apply app_nil_r]|]); clear Hnew HI Hr Hc;
      repeat apply Forall_cons; try apply Forall_nil; cbn [fst snd]; intros Hg; try discriminate Hg;
      cbn [linopt_dir_nonzero op_wf] in Hnz, Hwf.
    - split; [cbn [mstep m_np]; auto with leaves|].
      cbn [wstep fst]. eapply veq_trans; [apply leaf_veq|]. rewrite upd_same. apply veq_refl.
    - rewrite Hg in Hnz. discriminate Hnz.
    - rewrite Hg in Hnz. discriminate Hnz.
    - apply andb_prop in Hwf as [Hwf _]. apply andb_prop in Hwf as [Hk _].
      destruct (breg_dual_fresh_nonempty (m_np s) (S (m_np s)) sx0 gamma Hk (Nat.le_succ_diag_r _)
                  (proj1 (negb_true_iff _) Hnz) Hg).
    - apply andb_prop in Hwf as [Hwf Hpos]. apply andb_prop in Hwf as [Hk _].
      destruct (ip3_grad_nonempty (m_np s) x0 gamma Hk Hpos Hg).
  Qed.

  Theorem stationary_samples_at_stat ops : forall s vs,
    mwf ops s = true -> forallb linopt_dir_nonzero ops = true -> SInv s vs -> SInv (mrun ops s) (wrun W ops s vs).
  Proof. exact (wrun_inv W SInv linopt_dir_nonzero SInv_step ops). Qed.

  (** worlds without a linear minimisation oracle, mirror maps and Bregman proximal operators: no such step at all *)
  Lemma no_lmo_nonzero ops :
    (forall f, has_lmo W f = false) -> (forall h, has_mirror W h = false) -> (forall h f, has_bprox W h f = false) ->
    steps_ok W ops = true -> forallb linopt_dir_nonzero ops = true.
  Proof.
    intros Hno Hnm Hnb. unfold steps_ok. induction ops as [|o ops IH]; cbn [forallb]; [reflexivity|].
    intros H. apply andb_prop in H as [Ho H]. rewrite (IH H), andb_true_r.
    destruct o as [|g p|g|g p gamma|g dir|g p rel eps|g x0 dirs|g p|h gx0 sx0 gamma|h g sx0 gamma|g x0 gamma opt]; try reflexivity;
      cbn [step_ok] in Ho; rewrite ?Hno, ?Hnm, ?Hnb in Ho; discriminate Ho.
  Qed.

  (** ... as the class generator sees them *)
  Lemma f_stat_at_stat par ops vs f sm :
    mwf ops minit = true ->
    forallb linopt_dir_nonzero ops = true ->
    In sm (f_stat (fstate_of par (mrun ops minit) f)) ->
    In sm (f_points (fstate_of par (mrun ops minit) f)) /\ s_g sm = [] /\
    veq (px (fst (wrun W ops minit vs)) sm) (fst (stat W f)).
  Proof.
    cbn [fstate_of f_stat f_points]. intros Hwf0 Hnz Hin. apply filter_In in Hin as [Hin Hst].
    assert (Hg : s_g sm = []) by (unfold is_stationary in Hst; destruct (s_g sm); [reflexivity|discriminate]).
    split; [exact Hin|]. split; [exact Hg|].
    apply In_to_samples in Hin as (t & Ht & Ex & Eg & Ef). apply In_samples_of in Ht.
    destruct t as [[x g] fx]. cbn [fst snd] in *. rewrite Hg in Eg. subst g.
    assert (H0 : SInv minit vs) by (intros ? ? ? []).
    destruct (stationary_samples_at_stat ops minit vs Hwf0 Hnz H0 f x fx Ht) as [_ Hv].
    unfold px. rewrite Ex. exact Hv.
  Qed.
End StatInv.

(** what it means for [lm] to be a linear minimisation oracle of the member a world is made of: the point
    [lm d] with the vector -d (and the value there) is a genuine sample; [hl = false]: none is claimed *)
Definition lmo_spec {E : ips} (G : E * E * R -> Prop) (valf : E -> R) (hl : bool) (lm : E -> E) : Prop :=
  hl = true -> forall d, G (lm d, vneg d, valf (lm d)).

Section All.
  Context {E : ips}.

  (** RSI / EB around xs is a statement about F as seen through inner products *)
  Lemma rsi_eb_member_veq (F : @dfn E) (xs : E) mu L (x' : E) :
    respects_veq F -> rsi_eb_member mu L F xs -> veq x' xs -> rsi_eb_member mu L F x'.
  Proof.
    intros Hext [H0 H] Hv. split.
    - eapply veq_trans; [exact (proj1 (Hext x' xs Hv))|exact H0].
    - intros x. destruct (H x) as [H1 H2].
      assert (Hd : veq (vsub x x') (vsub x xs)) by (apply veq_sub; [apply veq_refl|exact Hv]).
      rewrite (nrm2_veq _ _ Hd), (veq_inner_r _ _ (dgrad F x) Hd). split; assumption.
  Qed.

  (** ** extended-valued functions: a subgradient selection on the domain only *)
  Section PartialFn.
    Variable F : @fn E.
    Variable sel : E -> E.
    Hypothesis Hsel : forall x, dom F x -> subgrad F x (sel x).
    Variable xs : E.
    Hypothesis Hxs : subgrad F xs vzero.
    Hypothesis Hext : fn_respects_veq F.
    Variable hp : bool.
    Variable res : R -> E -> E.
    Hypothesis Hres : prox_spec (genuine_sub F) (val F) hp res.
    (* optionally: a linear minimisation oracle, lm d a minimiser of <d, .> over dom F (F an indicator) *)
    Variable hl : bool.
    Variable lm : E -> E.
    Hypothesis Hlm : lmo_spec (genuine_sub F) (val F) hl lm.

    (** genuine provided the point is in the domain *)
    Definition pgen (t : E * E * R) : Prop := dom F (fst (fst t)) -> genuine_sub F t.

    Lemma pfn_orc_genuine (f : nat) (x : E) : pgen (x, sel x, val F x).
    Proof. intros Hd. split; [apply Hsel, Hd|reflexivity]. Qed.
    Lemma pfn_stat_genuine (f : nat) : pgen (xs, vzero, val F xs).
    Proof. intros _. split; [exact Hxs|reflexivity]. Qed.
    Lemma pfn_gen_veq (f : nat) (x g g' : E) (v : R) : pgen (x, g, v) -> veq g g' -> pgen (x, g', v).
    Proof. intros H Hq Hd. exact (fn_gen_veq F f x g g' v (H Hd) Hq). Qed.
    Lemma pfn_gen_xveq (f : nat) (x x' g : E) (v : R) : pgen (x, g, v) -> veq x x' -> pgen (x', g, v).
    Proof.
      intros H Hq Hd. cbn [fst] in *.
      assert (Hdx : dom F x) by exact (proj1 (Hext x' x (veq_sym _ _ Hq)) Hd).
      exact (fn_gen_xveq F Hext f x x' g v (H Hdx) Hq).
    Qed.

    Definition pfn_world : @world E :=
      mkW (fun _ x => (sel x, val F x)) (fun _ t => pgen t) (fun _ => (xs, val F xs))
          pfn_orc_genuine pfn_stat_genuine pfn_gen_veq pfn_gen_xveq
          (fun _ => hp) (fun _ => res) (fun _ gamma x0 => val F (res gamma x0))
          (fun _ gamma x0 H Hg _ => Hres H gamma x0 Hg)
          (fun _ => hl) (fun _ d => (lm d, val F (lm d))) (fun _ d H _ => Hlm H d)
          (fun f _ _ x => sel x) (exact_inexact_bound (fun _ x => (sel x, val F x)))
          (fun _ => false) (fun _ x0 _ => x0) (no_ls _ _)
          (exact_epssub (fun _ x => (sel x, val F x))) (exact_epssub_spec (fun _ x => (sel x, val F x)) (fun _ t => pgen t) pfn_orc_genuine)
          (fun _ => false) (fun _ sd => (sd, 0)) (no_mirror _ _)
          (fun _ _ => false) (fun _ _ _ sd => ((sd, sd), (0, 0))) (no_bprox _ _)
          (exact_iprox (fun _ x => (sel x, val F x))) (exact_iprox_spec (fun _ x => (sel x, val F x)) (fun _ t => pgen t) pfn_orc_genuine pfn_gen_veq).

    Variable ops : list mop.
    Variable vs : (nat -> E) * (nat -> R).
    Hypothesis Hwf : mwf ops minit = true.
    Hypothesis Hnd : Forall op_nodup ops.
    Hypothesis Hpx : steps_ok pfn_world ops = true.
    Let rho := fst (wrun pfn_world ops minit vs).
    Let phi := snd (wrun pfn_world ops minit vs).

    (** the run only evaluates points of the domain *)
    Definition evaluated_in_dom (par : nat -> Q) : Prop :=
      forall sm, In sm (f_points (fstate_of par (mrun ops minit) 0)) -> dom F (px rho sm).

    Lemma pfn_genuine par :
      evaluated_in_dom par ->
      forall sm, In sm (f_points (fstate_of par (mrun ops minit) 0)) -> genuine_sub F (sval rho phi sm).
    Proof.
      intros Hdom sm Hsm. destruct (run_state_genuine pfn_world par ops vs 0 Hwf Hpx Hnd) as [_ Hgen].
      exact (Hgen sm Hsm (Hdom sm Hsm)).
    Qed.

    (** ConvexIndicatorFunction(D): F the indicator of its domain, the oracle a selection of the normal
        cone on the set.  [D = None] is [D = np.inf]: the flag is set in the generator's state. *)
    Theorem run_satisfies_convex_indicator (D : option R) (qD : Q) :
      indicator_member D F -> (forall d, D = Some d -> Q2R qD = d) -> evaluated_in_dom (par_at 3 qD) ->
      all_satisfied rho phi
        (run_plan plan_ConvexIndicatorFunction (set_inf (inf_flag 3 D) (fstate_of (par_at 3 qD) (mrun ops minit) 0))).
    Proof.
      intros HF Hq Hdom. destruct (run_state_genuine pfn_world (par_at 3 qD) ops vs 0 Hwf Hpx Hnd) as [Hst _].
      apply (c03_ConvexIndicatorFunction _ _ D F); try assumption.
      - destruct D as [d|]; cbn; [split; [reflexivity|exact (Hq d eq_refl)]|reflexivity].
      - apply pfn_genuine, Hdom.
    Qed.
  End PartialFn.

  (** ** ConvexSupportFunction(M): sigma the support function of C, the oracle an argmax selection *)
  Section Support.
    Variable C : E -> Prop.
    Variable sigma : E -> R.
    Variable sel : E -> E.
    Hypothesis Hsel : forall x, C (sel x) /\ inner (sel x) x = sigma x.
    (* a minimiser xs of sigma: 0 is a subgradient there, i.e. 0 is in C and sigma xs = 0 (only used by MStat) *)
    Variable xs : E.
    Hypothesis Hzero : C vzero.
    Hypothesis Hxs : sigma xs = 0.
    Hypothesis HCext : forall g g' : E, veq g g' -> C g -> C g'.
    Hypothesis Hsext : forall x x' : E, veq x x' -> sigma x = sigma x'.
    Variable hp : bool.
    Variable res : R -> E -> E.
    Hypothesis Hres : prox_spec (genuine_support C sigma) sigma hp res.

    Lemma sup_orc_genuine (f : nat) (x : E) : genuine_support C sigma (x, sel x, sigma x).
    Proof. destruct (Hsel x). repeat split; assumption. Qed.
    Lemma sup_stat_genuine (f : nat) : genuine_support C sigma (xs, vzero, sigma xs).
    Proof. split; [exact Hzero|]. split; [rewrite inner_zero_l, Hxs; reflexivity|reflexivity]. Qed.
    Lemma sup_gen_veq (f : nat) (x g g' : E) (v : R) :
      genuine_support C sigma (x, g, v) -> veq g g' -> genuine_support C sigma (x, g', v).
    Proof. intros (H1 & H2 & H3) Hq. split; [exact (HCext g g' Hq H1)|]. split; [rewrite <- (Hq x); exact H2|exact H3]. Qed.
    Lemma sup_gen_xveq (f : nat) (x x' g : E) (v : R) :
      genuine_support C sigma (x, g, v) -> veq x x' -> genuine_support C sigma (x', g, v).
    Proof.
      intros (H1 & H2 & H3) Hq. split; [exact H1|]. rewrite <- (Hsext x x' Hq).
      split; [rewrite <- (veq_inner_r _ _ g Hq); exact H2|exact H3].
    Qed.

    Definition support_world : @world E :=
      mkW (fun _ x => (sel x, sigma x)) (fun _ t => genuine_support C sigma t) (fun _ => (xs, sigma xs))
          sup_orc_genuine sup_stat_genuine sup_gen_veq sup_gen_xveq
          (fun _ => hp) (fun _ => res) (fun _ gamma x0 => sigma (res gamma x0))
          (fun _ gamma x0 H Hg => Hres H gamma x0 Hg)
          (fun _ => false) (fun _ d => (d, 0)) (no_lmo _ _)
          (fun f _ _ x => fst ((fun _ x => (sel x, sigma x)) f x)) (exact_inexact_bound (fun _ x => (sel x, sigma x)))
          (fun _ => false) (fun _ x0 _ => x0) (no_ls _ _)
          (exact_epssub (fun _ x => (sel x, sigma x))) (exact_epssub_spec (fun _ x => (sel x, sigma x)) (fun _ t => genuine_support C sigma t) sup_orc_genuine)
          (fun _ => false) (fun _ sd => (sd, 0)) (no_mirror _ _)
          (fun _ _ => false) (fun _ _ _ sd => ((sd, sd), (0, 0))) (no_bprox _ _)
          (exact_iprox (fun _ x => (sel x, sigma x))) (exact_iprox_spec (fun _ x => (sel x, sigma x)) (fun _ t => genuine_support C sigma t) sup_orc_genuine sup_gen_veq).

  End Support.

  (** ** operator classes: a single-valued selection of a graph *)
  Definition graph_respects_veq (A : @graph E) : Prop :=
    forall x x' g g' : E, veq x x' -> veq g g' -> A x g -> A x' g'.

  Section Graph.
    Variable A : @graph E.
    Variable T : E -> E.
    Hypothesis HT : forall x, A x (T x).
    Variable xs : E.
    Hypothesis Hxs : A xs vzero.
    Hypothesis Hext : graph_respects_veq A.
    (* optionally: the resolvent of A, A (res gamma x0) ((x0 - res gamma x0) / gamma) *)
    Variable hp : bool.
    Variable res : R -> E -> E.
    Hypothesis Hres : prox_spec (genuine_op A) (fun _ => 0) hp res.

    Lemma graph_orc_genuine (f : nat) (x : E) : genuine_op A (x, T x, 0).
    Proof. apply HT. Qed.
    Lemma graph_stat_genuine (f : nat) : genuine_op A (xs, vzero, 0).
    Proof. exact Hxs. Qed.
    Lemma graph_gen_veq (f : nat) (x g g' : E) (v : R) : genuine_op A (x, g, v) -> veq g g' -> genuine_op A (x, g', v).
    Proof. intros H Hq. exact (Hext x x g g' (veq_refl x) Hq H). Qed.
    Lemma graph_gen_xveq (f : nat) (x x' g : E) (v : R) : genuine_op A (x, g, v) -> veq x x' -> genuine_op A (x', g, v).
    Proof. intros H Hq. exact (Hext x x' g g Hq (veq_refl g) H). Qed.

    Definition graph_world : @world E :=
      mkW (fun _ x => (T x, 0)) (fun _ t => genuine_op A t) (fun _ => (xs, 0))
          graph_orc_genuine graph_stat_genuine graph_gen_veq graph_gen_xveq
          (fun _ => hp) (fun _ => res) (fun _ _ _ => 0)
          (fun _ gamma x0 H Hg => Hres H gamma x0 Hg)
          (fun _ => false) (fun _ d => (d, 0)) (no_lmo _ _)
          (fun f _ _ x => fst ((fun _ x => (T x, 0)) f x)) (exact_inexact_bound (fun _ x => (T x, 0)))
          (fun _ => false) (fun _ x0 _ => x0) (no_ls _ _)
          (exact_epssub (fun _ x => (T x, 0))) (exact_epssub_spec (fun _ x => (T x, 0)) (fun _ t => genuine_op A t) graph_orc_genuine)
          (fun _ => false) (fun _ sd => (sd, 0)) (no_mirror _ _)
          (fun _ _ => false) (fun _ _ _ sd => ((sd, sd), (0, 0))) (no_bprox _ _)
          (exact_iprox (fun _ x => (T x, 0))) (exact_iprox_spec (fun _ x => (T x, 0)) (fun _ t => genuine_op A t) graph_orc_genuine graph_gen_veq).

  End Graph.

  (** ** linear operators: g = M x; the zero vector is the stationary point *)
  Section Lin.
    Variable M : E -> E.
    Hypothesis HM : linear M.
    (* optionally: the resolvent (I + gamma M)^-1 *)
    Variable hp : bool.
    Variable res : R -> E -> E.
    Hypothesis Hres : prox_spec (genuine_lin M) (fun _ => 0) hp res.

    Lemma lin_orc_genuine (f : nat) (x : E) : genuine_lin M (x, M x, 0).
    Proof. apply veq_refl. Qed.
    Lemma lin_stat_genuine (f : nat) : genuine_lin M (vzero, vzero, 0).
    Proof. apply veq_sym. apply (lin_zero M HM). Qed.
    Lemma lin_gen_veq (f : nat) (x g g' : E) (v : R) : genuine_lin M (x, g, v) -> veq g g' -> genuine_lin M (x, g', v).
    Proof. intros H Hq. eapply veq_trans; [apply veq_sym; exact Hq|exact H]. Qed.
    Lemma lin_gen_xveq (f : nat) (x x' g : E) (v : R) : genuine_lin M (x, g, v) -> veq x x' -> genuine_lin M (x', g, v).
    Proof. intros H Hq. eapply veq_trans; [exact H|apply (lin_ext M HM), Hq]. Qed.

    Definition lin_world : @world E :=
      mkW (fun _ x => (M x, 0)) (fun _ t => genuine_lin M t) (fun _ => (vzero, 0))
          lin_orc_genuine lin_stat_genuine lin_gen_veq lin_gen_xveq
          (fun _ => hp) (fun _ => res) (fun _ _ _ => 0)
          (fun _ gamma x0 H Hg => Hres H gamma x0 Hg)
          (fun _ => false) (fun _ d => (d, 0)) (no_lmo _ _)
          (fun f _ _ x => fst ((fun _ x => (M x, 0)) f x)) (exact_inexact_bound (fun _ x => (M x, 0)))
          (fun _ => false) (fun _ x0 _ => x0) (no_ls _ _)
          (exact_epssub (fun _ x => (M x, 0))) (exact_epssub_spec (fun _ x => (M x, 0)) (fun _ t => genuine_lin M t) lin_orc_genuine)
          (fun _ => false) (fun _ sd => (sd, 0)) (no_mirror _ _)
          (fun _ _ => false) (fun _ _ _ sd => ((sd, sd), (0, 0))) (no_bprox _ _)
          (exact_iprox (fun _ x => (M x, 0))) (exact_iprox_spec (fun _ x => (M x, 0)) (fun _ t => genuine_lin M t) lin_orc_genuine lin_gen_veq).

  End Lin.

  (** LinearOperator(L): the operator is function 0 of the run, its transpose function 1
      ([self.T] is a different Function object): two lists of recorded samples *)
  Definition fstate_of2 (par : nat -> Q) (s : mstate) (f fT : nat) : fstate :=
    let pts := to_samples 0 (samples_of f s) in
    let tpts := to_samples (List.length pts) (samples_of fT s) in
    mkF "f" par (fun _ => false) pts (filter is_stationary pts) tpts None (m_np s) (m_ne s)
        (List.length pts + List.length tpts) 0 (fun _ => 0%Q).

  (** the state with two lists of samples is well formed, and both lists are genuine at the values of the run *)
  Theorem run_state_genuine2 (W : @world E) (par : nat -> Q) ops vs f fT :
    mwf ops minit = true -> steps_ok W ops = true -> Forall op_nodup ops ->
    let st := fstate_of2 par (mrun ops minit) f fT in
    let rho := fst (wrun W ops minit vs) in
    let phi := snd (wrun W ops minit vs) in
    wf_state st /\ (forall sm, In sm (f_points st) -> Gen W f (sval rho phi sm)) /\
    (forall sm, In sm (f_tpoints st) -> Gen W fT (sval rho phi sm)).
  Proof.
    intros Hwf Hpx Hnd st rho phi.
    pose proof (fun g uid sm => run_samples_genuine W ops vs g uid sm Hwf Hpx Hnd) as Hs.
    split; [|split; intros sm Hin; apply (Hs _ _ sm Hin)].
    split; [|split; [|split]].
    - intros sm Hin. apply (Hs f _ sm Hin).
    - intros sm Hin. apply filter_In in Hin as [Hin _]. apply (Hs f _ sm Hin).
    - intros sm Hin. apply (Hs fT _ sm Hin).
    - exact I.
  Qed.

  Section Lin2.
    Variable M Mt : E -> E.
    Hypothesis HM : linear M.
    Hypothesis HMt : linear Mt.

    Definition pick (f : nat) : E -> E := if Nat.eqb f 0 then M else Mt.
    Lemma pick_linear f : linear (pick f).
    Proof. unfold pick. destruct (Nat.eqb f 0); assumption. Qed.

    (* no proximal operator in this world: programs contain no proximal step ([steps_ok]) *)
    Lemma lin2_prox_genuine (f : nat) (gamma : R) (x0 : E) :
      false = true -> 0 < gamma -> genuine_lin (pick f) (x0, vscal (1 / gamma) (vsub x0 x0), 0).
    Proof. discriminate. Qed.

    Definition lin2_world : @world E :=
      mkW (fun f x => (pick f x, 0)) (fun f t => genuine_lin (pick f) t) (fun _ => (vzero, 0))
          (fun f => lin_orc_genuine (pick f) f) (fun f => lin_stat_genuine (pick f) (pick_linear f) f)
          (fun f => lin_gen_veq (pick f) f) (fun f => lin_gen_xveq (pick f) (pick_linear f) f)
          (fun _ => false) (fun _ _ x0 => x0) (fun _ _ _ => 0) lin2_prox_genuine
          (fun _ => false) (fun _ d => (d, 0)) (no_lmo _ _)
          (fun f _ _ x => fst ((fun f x => (pick f x, 0)) f x)) (exact_inexact_bound (fun f x => (pick f x, 0)))
          (fun _ => false) (fun _ x0 _ => x0) (no_ls _ _)
          (exact_epssub (fun f x => (pick f x, 0))) (exact_epssub_spec (fun f x => (pick f x, 0)) (fun f t => genuine_lin (pick f) t) (fun f => lin_orc_genuine (pick f) f))
          (fun _ => false) (fun _ sd => (sd, 0)) (no_mirror _ _)
          (fun _ _ => false) (fun _ _ _ sd => ((sd, sd), (0, 0))) (no_bprox _ _)
          (exact_iprox (fun f x => (pick f x, 0))) (exact_iprox_spec (fun f x => (pick f x, 0)) (fun f t => genuine_lin (pick f) t) (fun f => lin_orc_genuine (pick f) f) (fun f => lin_gen_veq (pick f) f)).

  End Lin2.
End All.
