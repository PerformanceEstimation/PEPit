(** C08, generated programs = specification: every GENERATED step program (Gen/Steps.v) returns and
    records exactly what its hand-written specification (Spec/StepsSpec.v) says, for every start point, step size,
    accuracy, function identifier and initial state; and the specification leaves no freedom
    (any outcome satisfying it equals the program's outcome up to the representation of
    dictionaries).  The specifications of the inexact proximal steps speak of the primal-dual gap
    [pd_gap]: its reformulation ([pd_gap_identity]) and its values for the three options are here too.

    [_records]: the verification condition of the program ([wp], Proofs/C08Lemmas.v) hands over the
    dictionaries the program built together with their meanings; they are the witnesses of the
    specification.  [_exact]: the specification determines every witness up to meaning, and outcomes are
    built from the witnesses by constructors that respect equality of meaning. *)
From Coq Require Import List Reals Qreals Lra String.
From PV Require Import Base.IPS Model.Dict Model.Terms Model.StepsRT Gen.Steps Spec.Sem Spec.Classes Spec.StepsSpec
                       Proofs.DictLemmas Proofs.SemLemmas Proofs.C08Lemmas.
Import ListNotations.
Local Open Scope R_scope.
(* [veq] is only used through its congruence instances here (setoid rewriting) *)
Local Opaque veq.

(** run the verification condition of a generated program: its instructions, the environment look-ups and
    the counters are computed, the meanings are spelled out.  What is left: for every assignment of the
    program, in order, [forall d, pND d -> (forall E rho, veq (evalP rho d) <meaning of the right-hand side>) ->]
    ([eND], [evalE] for an expression; [forall k, snd k = <sense> -> (forall E rho phi, holds rho phi k <-> ..) ->]
    for a comparison), for every oracle call the well-formedness of what it returned, and at the end the
    postcondition at the returned tuple and the final state, written with these [d], [k]. *)
Ltac vc :=
  cbv [wp den_p den_x setp setx setc e_p e_x e_c init_env mk_args a_pts a_fun a_scal a_dirs nth map eval_rv
       denoteP denoteX denoteC sdenote csense pow pdefb xdefb cdefb sdefb seval andb
       prog_proximal_step prog_linear_optimization_step prog_bregman_gradient_step prog_bregman_proximal_step
       prog_inexact_gradient_step_absolute prog_inexact_gradient_step_relative prog_epsilon_subgradient_step
       prog_inexact_proximal_step_PD_gapI prog_inexact_proximal_step_PD_gapII prog_inexact_proximal_step_PD_gapIII];
  cbn [upd Nat.eqb pt_ctr ex_ctr bump add_sample add_cons Nat.add].

(** outcomes built alike from components of equal meaning are equal up to representation *)
Create HintDb outeq discriminated.
#[local] Hint Resolve peq_refl xeq_refl ceq_refl smp_eq_refl state_eq_refl state_eq_add_sample state_eq_add_cons
  state_eq_add_conss Forall2_cons Forall2_nil conj : outeq.
#[local] Hint Extern 1 (smp_eq _ _) => split; [|split] : outeq.
#[local] Hint Extern 1 (rval_eq _ _) => cbn [rval_eq] : outeq.
Ltac outcomes_equal := split; cbn [fst snd result_eq]; auto 9 with outeq.

Lemma proximal_step_records x0 f gamma s :
  pwf x0 -> proximal_step_spec x0 f gamma s (run prog_proximal_step (mk_args [x0] [f] [gamma] []) s).
Proof.
  intros Hx0. apply run_wp; [apply wfe_init; auto|]. vc.
  (* forall d, pND d -> (forall E rho, veq (evalP rho d) (vsub (evalP rho x0) (vscal (Q2R gamma) (rho (pt_ctr s))))) ->
     proximal_step_spec x0 f gamma s
       (ROk [RP (prune d); RP (prune (leafP (pt_ctr s))); RX (prune (leafX (ex_ctr s)))],
        add_sample f (prune d, prune (leafP (pt_ctr s)), prune (leafX (ex_ctr s))) (bump 0 1 (bump 1 0 s)))
     (the one assignment is x = x0 - gamma * gx; [add_point] prunes the triple) *)
  intros x Hx Hm. exists (prune x). split; [reflexivity|exact (prune_meaning x _ Hx Hm)].
Qed.

Lemma proximal_step_exact x0 f gamma s out :
  pwf x0 -> proximal_step_spec x0 f gamma s out ->
  out_eq out (run prog_proximal_step (mk_args [x0] [f] [gamma] []) s).
Proof.
  intros Hx0 (x & -> & _ & Hx).
  destruct (proximal_step_records x0 f gamma s Hx0) as (x' & -> & _ & Hx').
  pose proof (peq_same_meaning _ _ _ Hx Hx'). outcomes_equal.
Qed.

Lemma linear_optimization_step_records dir ind s :
  pwf dir ->
  linear_optimization_step_spec dir ind s (run prog_linear_optimization_step (mk_args [dir] [ind] [] []) s).
Proof.
  intros Hd. apply run_wp; [apply wfe_init; auto|]. vc.
  intros g Hg Hm. exists (prune g). split; [reflexivity|exact (prune_meaning g _ Hg Hm)].
Qed.

Lemma linear_optimization_step_exact dir ind s out :
  pwf dir -> linear_optimization_step_spec dir ind s out ->
  out_eq out (run prog_linear_optimization_step (mk_args [dir] [ind] [] []) s).
Proof.
  intros Hd (g & -> & _ & Hg).
  destruct (linear_optimization_step_records dir ind s Hd) as (g' & -> & _ & Hg').
  pose proof (peq_same_meaning _ _ _ Hg Hg'). outcomes_equal.
Qed.

Lemma bregman_gradient_step_records gx0 sx0 h gamma s :
  pwf gx0 -> pwf sx0 ->
  bregman_gradient_step_spec gx0 sx0 h gamma s
    (run prog_bregman_gradient_step (mk_args [gx0; sx0] [h] [gamma] []) s).
Proof.
  intros Hg Hs. apply run_wp; [apply wfe_init; auto|]. vc.
  intros x Hx Hm. exists (prune x). split; [reflexivity|exact (prune_meaning x _ Hx Hm)].
Qed.

Lemma bregman_gradient_step_exact gx0 sx0 h gamma s out :
  pwf gx0 -> pwf sx0 -> bregman_gradient_step_spec gx0 sx0 h gamma s out ->
  out_eq out (run prog_bregman_gradient_step (mk_args [gx0; sx0] [h] [gamma] []) s).
Proof.
  intros Hg Hs (sx & -> & _ & Hsx).
  destruct (bregman_gradient_step_records gx0 sx0 h gamma s Hg Hs) as (sx' & -> & _ & Hsx').
  pose proof (peq_same_meaning _ _ _ Hsx Hsx'). outcomes_equal.
Qed.

(** ** bregman_proximal_step: the sample (x, gx, fx) goes to the minimised function, (x, sx, hx)
    to the mirror map *)
Lemma bregman_proximal_step_records sx0 h f gamma s :
  pwf sx0 ->
  bregman_proximal_step_spec sx0 h f gamma s
    (run prog_bregman_proximal_step (mk_args [sx0] [h; f] [gamma] []) s).
Proof.
  intros Hs. apply run_wp; [apply wfe_init; auto|]. vc.
  intros x Hx Hm. exists (prune x). split; [reflexivity|exact (prune_meaning x _ Hx Hm)].
Qed.

Lemma bregman_proximal_step_exact sx0 h f gamma s out :
  pwf sx0 -> bregman_proximal_step_spec sx0 h f gamma s out ->
  out_eq out (run prog_bregman_proximal_step (mk_args [sx0] [h; f] [gamma] []) s).
Proof.
  intros Hs (sx & -> & _ & Hsx).
  destruct (bregman_proximal_step_records sx0 h f gamma s Hs) as (sx' & -> & _ & Hsx').
  pose proof (peq_same_meaning _ _ _ Hsx Hsx'). outcomes_equal.
Qed.

(** linear arithmetic once the squared norms are inner products and the rational literals 0 and 2 of the
    programs are read as reals; an equivalence is split first *)
Ltac lra_literals := unfold nrm2; rewrite ?Q2R_0, ?Q2R_2; try (split; intros); lra.

Lemma inexact_gradient_step_records relative x0 f gamma eps s :
  pwf x0 -> state_wf s ->
  inexact_gradient_step_spec relative x0 f gamma eps s
    (run (if relative then prog_inexact_gradient_step_relative else prog_inexact_gradient_step_absolute)
         (mk_args [x0] [f] [gamma; eps] []) s).
Proof.
  intros Hx0 Hs. unfold inexact_gradient_step_spec. destruct relative.
  all: apply run_wp; [apply wfe_init; auto|]; vc.
  all: split; [exact Hs|]; destruct (oracle_leaf f x0 s) as [[[g v] x0'] s1].
  all: intros _ _ _ _ c Hc Hcm x Hx Hm; exists x, c.
  all: split; [reflexivity|]; split; [exact Hx|]; split; [exact Hm|split; [exact Hc|]].
  all: intros E rho phi; rewrite Hcm; lra_literals.
Qed.

Lemma inexact_gradient_step_invalid_records x0 f gamma eps s :
  inexact_gradient_step_invalid_spec x0 f s
    (run prog_inexact_gradient_step_invalid (mk_args [x0] [f] [gamma; eps] []) s).
Proof.
  unfold inexact_gradient_step_invalid_spec, run, run_full, prog_inexact_gradient_step_invalid.
  cbn [exec exec_s init_env mk_args a_fun a_pts e_p nth].
  destruct (oracle_leaf f x0 s) as [[[g v] x0'] s1]. reflexivity.
Qed.

(** the option strings select these programs, every other string the failing one *)
Lemma inexact_gradient_step_dispatch :
  step_program "inexact_gradient_step" "absolute" = prog_inexact_gradient_step_absolute
  /\ step_program "inexact_gradient_step" "relative" = prog_inexact_gradient_step_relative
  /\ default_inexact_gradient_step = "absolute"%string
  /\ forall o, o <> "absolute"%string -> o <> "relative"%string ->
       step_program "inexact_gradient_step" o = prog_inexact_gradient_step_invalid.
Proof.
  repeat split. intros o H1 H2. unfold step_program. cbn [String.eqb Ascii.eqb Bool.eqb].
  destruct (String.eqb_spec o "absolute"); [contradiction|].
  destruct (String.eqb_spec o "relative"); [contradiction|]. reflexivity.
Qed.

Lemma inexact_gradient_step_exact relative x0 f gamma eps s out :
  pwf x0 -> state_wf s -> inexact_gradient_step_spec relative x0 f gamma eps s out ->
  out_eq out (run (if relative then prog_inexact_gradient_step_relative else prog_inexact_gradient_step_absolute)
                  (mk_args [x0] [f] [gamma; eps] []) s).
Proof.
  intros Hx0 Hs H. pose proof (inexact_gradient_step_records relative x0 f gamma eps s Hx0 Hs) as H'.
  unfold inexact_gradient_step_spec in H, H'. destruct (oracle_leaf f x0 s) as [[[g v] x0'] s1].
  destruct H as (x & c & -> & _ & Hx & Hc & Hh), H' as (x' & c' & -> & _ & Hx' & Hc' & Hh').
  pose proof (peq_same_meaning _ _ _ Hx Hx').
  pose proof (ceq_same_meaning _ _ (fun E rho phi => _ <= _) (eq_trans Hc (eq_sym Hc')) Hh Hh'). outcomes_equal.
Qed.

Lemma epsilon_subgradient_step_records x0 f gamma s :
  pwf x0 -> state_wf s ->
  epsilon_subgradient_step_spec x0 f gamma s
    (run prog_epsilon_subgradient_step (mk_args [x0] [f] [gamma] []) s).
Proof.
  intros Hx0 Hs. apply run_wp; [apply wfe_init; auto|]. unfold epsilon_subgradient_step_spec. vc.
  split; [exact Hs|]. destruct (value_leaf f x0 _) as [[v x0'] s1].
  intros _ _ _ x Hx Hm fs _ _ c Hc Hcm.
  exists x, c. split; [reflexivity|]. split; [exact Hx|]. split; [exact Hm|]. split; [exact Hc|exact Hcm].
Qed.

Lemma epsilon_subgradient_step_exact x0 f gamma s out :
  pwf x0 -> state_wf s -> epsilon_subgradient_step_spec x0 f gamma s out ->
  out_eq out (run prog_epsilon_subgradient_step (mk_args [x0] [f] [gamma] []) s).
Proof.
  intros Hx0 Hs H. pose proof (epsilon_subgradient_step_records x0 f gamma s Hx0 Hs) as H'.
  unfold epsilon_subgradient_step_spec in H, H'. destruct (value_leaf f x0 (bump 1 0 s)) as [[v x0'] s1].
  destruct H as (x & c & -> & _ & Hx & Hc & Hh), H' as (x' & c' & -> & _ & Hx' & Hc' & Hh').
  pose proof (peq_same_meaning _ _ _ Hx Hx').
  pose proof (ceq_same_meaning _ _ (fun E rho phi => _ <= _) (eq_trans Hc (eq_sym Hc')) Hh Hh'). outcomes_equal.
Qed.

(** the reformulation of the primal-dual gap stated in the docstring:
    Phi_p(x) - Phi_d(v) = 1/2 |e|^2 + gamma eps_sub,  e = x - x0 + gamma v,
    eps_sub = f(x) - f(w) - <v, x - w>  (= f(x) + f*(v) - <v, x>) *)
Lemma pd_gap_identity {E : ips} (gamma : R) (x0 x : E) fx (v w : E) fw :
  pd_gap gamma x0 x fx v w fw
  = 1 / 2 * nrm2 (vadd (vsub x x0) (vscal gamma v)) + gamma * (fx - fw - inner v (vsub x w)).
Proof. unfold pd_gap, phi_p, phi_d. bilin. orient [x0; x; v; w]. field. Qed.

(** the two terms of the reformulated gap are non-negative *)
Lemma pd_gap_terms {E : ips} (F : @fn E) gamma (x0 x v w : E) :
  0 <= gamma -> dom F x -> subgrad F w v ->
  0 <= nrm2 (vadd (vsub x x0) (vscal gamma v)) /\ 0 <= gamma * (val F x - val F w - inner v (vsub x w)).
Proof.
  intros Hg Hdx [_ Hs]. split; [apply nrm2_pos|]. pose proof (Hs x Hdx) as P. apply Rmult_le_pos; lra.
Qed.

(** the gap only sees the meaning of the dictionaries it is taken at *)
#[local] Instance pd_gap_Proper {E : ips} :
  Proper (eq ==> eq ==> veq ==> eq ==> veq ==> veq ==> eq ==> eq) (@pd_gap E).
Proof.
  intros ? gamma -> ? x0 -> x x' Hx ? fx -> v v' Hv w w' Hw ? fw ->. unfold pd_gap, phi_p, phi_d.
  rewrite Hx, Hv, Hw. reflexivity.
Qed.

(** PD_gapII takes v = gx and w = x = x0 - gamma gx + e: the gap is the half square of the error e *)
Lemma pd_gap_II {E : ips} gamma (x0 x g e : E) fx :
  veq x (vadd (vsub x0 (vscal gamma g)) e) -> pd_gap gamma x0 x fx g x fx = 1 / 2 * nrm2 e.
Proof.
  intros Hx. rewrite pd_gap_identity, inner_sub_r.
  assert (He : veq (vadd (vsub x x0) (vscal gamma g)) e) by (rewrite Hx; apply veq_intro; intros u; bilin; ring).
  rewrite He. ring.
Qed.

(** PD_gapIII takes v = (x0 - x) / gamma: the error vanishes, the gap is gamma eps_sub *)
Lemma pd_gap_III {E : ips} gamma (x0 x v w : E) fx fw :
  gamma <> 0 -> veq v (vscal (1 / gamma) (vsub x0 x)) ->
  pd_gap gamma x0 x fx v w fw = gamma * (fx - fw - inner v (vsub x w)).
Proof.
  intros Hg Hv. rewrite pd_gap_identity.
  assert (He : veq (vadd (vsub x x0) (vscal gamma v)) vzero)
    by (rewrite Hv; apply veq_intro; intros u; bilin; field; exact Hg).
  rewrite He. unfold nrm2. rewrite inner_zero_l. ring.
Qed.

Lemma inexact_proximal_step_I_records x0 f gamma s :
  pwf x0 ->
  inexact_proximal_step_I_spec x0 f gamma s
    (run prog_inexact_proximal_step_PD_gapI (mk_args [x0] [f] [gamma] []) s).
Proof.
  intros Hx0. apply run_wp; [apply wfe_init; auto|]. vc.
  intros e _ _ es _ _ c Hc Hcm.
  exists c. split; [reflexivity|]. split; [exact Hc|].
  intros E rho phi. rewrite Hcm, pd_gap_identity. lra_literals.
Qed.

Lemma inexact_proximal_step_II_records x0 f gamma s :
  pwf x0 ->
  inexact_proximal_step_II_spec x0 f gamma s
    (run prog_inexact_proximal_step_PD_gapII (mk_args [x0] [f] [gamma] []) s).
Proof.
  intros Hx0. apply run_wp; [apply wfe_init; auto|]. vc.
  intros x Hx Hm c Hc Hcm. destruct (prune_meaning x _ Hx Hm) as [Hw Hpm].
  exists (prune x), c. split; [reflexivity|]. split; [exact Hw|]. split; [exact Hpm|split; [exact Hc|]].
  intros E rho phi. rewrite Hcm, (pd_gap_II _ _ _ _ _ _ (Hpm E rho)). lra_literals.
Qed.

Lemma inexact_proximal_step_III_records x0 f gamma s :
  pwf x0 -> ~ (gamma == 0)%Q ->
  inexact_proximal_step_III_spec x0 f gamma s
    (run prog_inexact_proximal_step_PD_gapIII (mk_args [x0] [f] [gamma] []) s).
Proof.
  intros Hx0 Hg.
  assert (Hb : Qeq_bool gamma 0 = false).
  { destruct (Qeq_bool gamma 0) eqn:Hq; [|reflexivity]. apply Qeq_bool_iff in Hq. contradiction. }
  assert (HgR : Q2R gamma <> 0).
  { intros Hz. apply Hg. apply eqR_Qeq. rewrite Hz, Q2R_0. reflexivity. }
  apply run_wp; [apply wfe_init; auto|]. vc. rewrite Hb. cbn [negb].
  intros v Hv Hvm es _ _ c Hc Hcm. destruct (prune_meaning v _ Hv Hvm) as [Hw Hpm].
  exists (prune v), c. split; [reflexivity|]. split; [exact Hw|]. split; [exact Hpm|split; [exact Hc|]].
  intros E rho phi. rewrite Hcm, (pd_gap_III _ _ _ _ _ _ _ HgR (Hpm E rho)), (Hpm E rho). reflexivity.
Qed.

Lemma inexact_proximal_step_III_zero_records x0 f gamma s :
  (gamma == 0)%Q ->
  inexact_proximal_step_III_zero_spec s
    (run prog_inexact_proximal_step_PD_gapIII (mk_args [x0] [f] [gamma] []) s).
Proof.
  intros Hg. apply Qeq_bool_iff in Hg.
  unfold inexact_proximal_step_III_zero_spec, run, run_full, prog_inexact_proximal_step_PD_gapIII.
  cbn [exec exec_s pdefb sdefb seval andb mk_args a_scal nth]. rewrite Hg. reflexivity.
Qed.

Lemma inexact_proximal_step_invalid_records x0 f gamma s :
  inexact_proximal_step_invalid_spec s
    (run prog_inexact_proximal_step_invalid (mk_args [x0] [f] [gamma] []) s).
Proof. reflexivity. Qed.

Lemma inexact_proximal_step_dispatch :
  step_program "inexact_proximal_step" "PD_gapI" = prog_inexact_proximal_step_PD_gapI
  /\ step_program "inexact_proximal_step" "PD_gapII" = prog_inexact_proximal_step_PD_gapII
  /\ step_program "inexact_proximal_step" "PD_gapIII" = prog_inexact_proximal_step_PD_gapIII
  /\ default_inexact_proximal_step = "PD_gapII"%string
  /\ forall o, o <> "PD_gapI"%string -> o <> "PD_gapII"%string -> o <> "PD_gapIII"%string ->
       step_program "inexact_proximal_step" o = prog_inexact_proximal_step_invalid.
Proof.
  repeat split. intros o H1 H2 H3. unfold step_program. cbn [String.eqb Ascii.eqb Bool.eqb].
  destruct (String.eqb_spec o "PD_gapI"); [contradiction|].
  destruct (String.eqb_spec o "PD_gapII"); [contradiction|].
  destruct (String.eqb_spec o "PD_gapIII"); [contradiction|]. reflexivity.
Qed.

Lemma inexact_proximal_step_I_exact x0 f gamma s out :
  pwf x0 -> inexact_proximal_step_I_spec x0 f gamma s out ->
  out_eq out (run prog_inexact_proximal_step_PD_gapI (mk_args [x0] [f] [gamma] []) s).
Proof.
  intros Hx0 (c & -> & Hc & Hh).
  destruct (inexact_proximal_step_I_records x0 f gamma s Hx0) as (c' & -> & Hc' & Hh').
  pose proof (ceq_same_meaning _ _ (fun E rho phi => _ <= _) (eq_trans Hc (eq_sym Hc')) Hh Hh'). outcomes_equal.
Qed.

Lemma inexact_proximal_step_II_exact x0 f gamma s out :
  pwf x0 -> inexact_proximal_step_II_spec x0 f gamma s out ->
  out_eq out (run prog_inexact_proximal_step_PD_gapII (mk_args [x0] [f] [gamma] []) s).
Proof.
  intros Hx0 (x & c & -> & _ & Hx & Hc & Hh).
  destruct (inexact_proximal_step_II_records x0 f gamma s Hx0) as (x' & c' & -> & _ & Hx' & Hc' & Hh').
  assert (Hxx : peq x x') by exact (peq_same_meaning _ _ _ Hx Hx').
  assert (Hcc : ceq c c').
  { split; [congruence|]. intros E rho phi. rewrite Hh, Hh', (Hxx E rho). reflexivity. }
  outcomes_equal.
Qed.

Lemma inexact_proximal_step_III_exact x0 f gamma s out :
  pwf x0 -> ~ (gamma == 0)%Q -> inexact_proximal_step_III_spec x0 f gamma s out ->
  out_eq out (run prog_inexact_proximal_step_PD_gapIII (mk_args [x0] [f] [gamma] []) s).
Proof.
  intros Hx0 Hg (v & c & -> & _ & Hv & Hc & Hh).
  destruct (inexact_proximal_step_III_records x0 f gamma s Hx0 Hg) as (v' & c' & -> & _ & Hv' & Hc' & Hh').
  assert (Hvv : peq v v') by exact (peq_same_meaning _ _ _ Hv Hv').
  assert (Hcc : ceq c c').
  { split; [congruence|]. intros E rho phi. rewrite Hh, Hh', (Hvv E rho). reflexivity. }
  outcomes_equal.
Qed.

Lemma exact_linesearch_step_records x0 f dirs s :
  pwf x0 -> Forall pwf dirs -> state_wf s ->
  exact_linesearch_step_spec x0 f dirs s
    (run prog_exact_linesearch_step (mk_args [x0] [f] [] dirs) s).
Proof.
  intros Hx0 Hd Hs. apply run_wp; [apply wfe_init; auto|].
  unfold exact_linesearch_step_spec, prog_exact_linesearch_step.
  (* [cbn], not [vc]: the environment is handed over whole to the loop and must stay readable *)
  cbn [wp den_p den_x setp setx setc e_p e_x e_c upd Nat.eqb init_env mk_args a_pts a_fun a_scal a_dirs nth
       denoteP denoteX denoteC sdenote csense pt_ctr ex_ctr bump Nat.add].
  split; [exact Hs|]. destruct (oracle_leaf f _ _) as [[[g v] x'] s1].
  intros _ _ _ Hpe c0 Hc0 Hc0m He.
  match goal with
  | |- context [exec_loop ?a ?d [LetC ?c ?t; SetName _ ?nm; AddConstraint ?fi _] dirs (?e, ?s2)] =>
      destruct (record_loop a d c fi t nm eq_refl dirs e s2 He Hd) as (e' & cs & -> & He' & Hp' & Hx'' & Hcs)
  end.
  cbn [wp map eval_rv]. split; [exact He'|]. rewrite (Hp' 1%nat), (Hp' 2%nat), Hx'' by discriminate.
  exists c0, cs. split; [reflexivity|]. split; [|split; [exact Hc0|split]].
  - intros E rho. rewrite (Hpe E rho). apply evalP_leaf.
  - intros E rho phi. rewrite Hc0m. lra_literals.
  - revert Hcs. apply Forall2_imp. intros dv k [Hk Hkm]. split; [exact Hk|]. intros E rho phi.
    rewrite Hkm. cbn [denoteC denoteX denoteP sdenote upd Nat.eqb e_p setp setx setc]. lra_literals.
Qed.

Lemma exact_linesearch_step_exact x0 f dirs s out :
  pwf x0 -> Forall pwf dirs -> state_wf s -> exact_linesearch_step_spec x0 f dirs s out ->
  out_eq out (run prog_exact_linesearch_step (mk_args [x0] [f] [] dirs) s).
Proof.
  intros Hx0 Hd Hs H. pose proof (exact_linesearch_step_records x0 f dirs s Hx0 Hd Hs) as H'.
  unfold exact_linesearch_step_spec in H, H'.
  destruct (oracle_leaf f (leafP (pt_ctr s)) (bump 1 0 s)) as [[[g v] x'] s1].
  destruct H as (c0 & cs & -> & _ & Hc & Hh & Hcs), H' as (c0' & cs' & -> & _ & Hc' & Hh' & Hcs').
  pose proof (ceq_same_meaning _ _ (fun E rho phi => _ = _) (eq_trans Hc (eq_sym Hc')) Hh Hh').
  pose proof (Forall2_ceq_same_meaning _ (fun d E rho phi => inner (evalP rho d) (evalP rho g) = 0) _ _ _ Hcs Hcs').
  outcomes_equal.
Qed.
