(** C01, regression for the repaired finding F-C01a (PEPit commit bd99691).  BEFORE the repair check_feasibility
    combined the expressions of an LMI with eval_dual(), the dual matrix S of [M >> 0], and the multipliers
    u_kij of the entry equalities M_k[i][j] == e_kij were discarded; for an LMI that is NOT symmetric as written
    that combination does not certify the bound.  [Model.Cert.old_combination] keeps that formula; this file holds
    the model of the original trigger and the facts about it from which C01_old_formula_refuted and
    C01_asym_observed_value (Props/C01.v) show the old formula refuted, and the CURRENT formula (entry
    multipliers, [Model.Cert.combination]) returning the true dual value on the same instance - which therefore
    also serves as the asymmetric non-vacuity example of the identity theorem.

    Witness: leaf point p, leaf expressions t, s, objective o;   o <= t,   <p,p> <= 81/100,
    [[<p,p>, t], [s + 1, 1]] >> 0.  The emitted problem forces t = M01 = M10 = s + 1 and <p,p> * 1 >= t^2, so its
    optimal value is 9/10.  The duals below satisfy stationarity and are dual feasible.  Old formula: 281/400
    (and 2/5 for the optimal dual, the number observed on the real code before the repair), below the feasible
    objective value 9/10.  Current formula: 481/400, resp. 9/10 (observed after the repair). *)
From Coq Require Import List Reals Qreals Psatz.
From PV Require Import Model.Dict Model.Terms Model.Sent Model.Cvxpy Model.Cert
     Spec.GramSem Spec.KKT Proofs.PSDLemmas.
Import ListNotations.
Local Open Scope R_scope.

Definition w_obj : edict := [(KF 2, 1%Q)].
Definition w_lmi : list (list edict) :=
  [ [ [(KG 0 0, 1%Q)] ; [(KF 0, 1%Q)] ];
    [ [(KF 1, 1%Q); (K1, 1%Q)] ; [(K1, 1%Q)] ] ].
Definition w_sent : sent :=
  [ SC [(KF 2, 1%Q); (KF 0, (-1)%Q)] Ineq;                 (* o - t <= 0 *)
    SC [(KG 0 0, 1%Q); (K1, (-81 # 100)%Q)] Ineq;          (* <p,p> - 81/100 <= 0 *)
    LMI w_lmi ].

(** duals in the order of [emit w_sent]:
    G >> 0 | o<=t | <p,p><=.81 | M >> 0 | M00==<p,p> | M01==t | M10==s+1 | M11==1 *)
Definition w_duals (a u11 : Q) : list dval :=
  [ VM [[0%Q]]; VS 1%Q; VS a; VM [[a; (-1 # 2)%Q]; [(-1 # 2)%Q; u11]];
    VS a; VS (-1)%Q; VS 0%Q; VS u11 ].

(** a feasible point of the declared model with objective value 9/10 *)
Definition w_G : nat -> nat -> R := fun _ _ => 81 / 100.
Definition w_F : nat -> R := fun k => match k with 1%nat => - (1 / 10) | _ => 9 / 10 end.

(* shows lra the numerator and denominator of every rational literal *)
Ltac q2r := unfold Q2R; cbn [Qnum Qden].

Lemma w_emit : emit w_sent =
  [ RGram; RLe [(KF 2, 1%Q); (KF 0, (-1)%Q)]; RLe [(KG 0 0, 1%Q); (K1, (-81 # 100)%Q)];
    RPsd 0 2 2; REnt 0 0 0 [(KG 0 0, 1%Q)]; REnt 0 0 1 [(KF 0, 1%Q)];
    REnt 0 1 0 [(KF 1, 1%Q); (K1, 1%Q)]; REnt 0 1 1 [(K1, 1%Q)] ].
Proof. reflexivity. Qed.

(** the duals fit, and the Lagrangian is the constant a * 81/100 + u11, for every a and u11 *)
Theorem w_kkt a u11 : kkt_dual w_obj (emit w_sent) (w_duals a u11) (Q2R a * (81 / 100) + Q2R u11).
Proof.
  rewrite w_emit. unfold w_duals. split.
  - repeat (constructor; try exact I); cbn; repeat constructor.
  - intros G F M HG HM. unfold lagrangian, w_obj.
    cbn [rows_term row_term evalGF evalKGF mdot mdot_from rdot].
    pose proof (HM 0%nat 0%nat 1%nat) as Hs.
    q2r. lra.
Qed.

Lemma w_not_symmetric : all_lmis_symmetric w_sent = false.
Proof. vm_compute. reflexivity. Qed.

Ltac nodup := unfold wf_edict, keys; cbn [map fst];
  repeat (apply NoDup_cons; [cbn [In]; intuition discriminate|]); apply NoDup_nil.

Lemma w_wf : wf_edict w_obj /\ wf_sent w_sent.
Proof.
  split; [nodup|].
  unfold w_sent, wf_sent, w_lmi.
  apply Forall_cons; [cbn [wf_item]; nodup|].
  apply Forall_cons; [cbn [wf_item]; nodup|].
  apply Forall_cons; [|apply Forall_nil].
  cbn [wf_item]. unfold ncols. cbn [hd length].
  repeat (apply Forall_cons || apply Forall_nil || split || reflexivity || nodup).
Qed.

Lemma w_G_psd : symG w_G /\ psd_qf 1 w_G.
Proof. split; [intros i j; reflexivity|]. split; [reflexivity|]. intro c. cbn [sumn]. unfold w_G. nra. Qed.

Lemma w_feasible : feasible 1 w_sent w_G w_F /\ evalGF w_G w_F w_obj = 9 / 10.
Proof.
  split.
  - split; [apply w_G_psd|]. split; [apply w_G_psd|].
    repeat apply Forall_cons; [| |apply psd_qf_unit_corner|apply Forall_nil];
      unfold lmi_value, entry, w_lmi; cbn [item_holds holdsGF fst snd nth evalGF evalKGF];
      unfold w_G, w_F; q2r; lra.
  - cbn [w_obj evalGF evalKGF]. unfold w_F. q2r. lra.
Qed.

Definition w_ids : list nat := [0; 1; 2]%nat.

Lemma w_ids_ok : NoDup w_ids /\ length w_ids = length w_sent.
Proof. split; [|reflexivity]. unfold w_ids. repeat (apply NoDup_cons; [cbn; intuition lia|]). apply NoDup_nil. Qed.

(** dual feasibility of what the objects show for a = 1/4, u11 = 1:  S = v v^T with v = (1/2, -1), and S is the
    symmetric part of u = [[1/4, -1], [0, 1]] *)
Lemma w_dual_feasible :
  let '(a, res) := exposed w_sent w_ids (w_duals (1 # 4) 1) in
  dual_feasible a /\ rank1sum (res_matrix res) 1.
Proof.
  cbn. split; [|exact (rank1sum_outer [0%Q])].
  split; [q2r; lra|]. split; [q2r; lra|].
  split; [exact (rank1sum_outer [1 # 2; -1]%Q)|].
  split; [split; [reflexivity|repeat constructor]|]. split; [|exact I].
  unfold same_sym_part. apply below_2; unfold matR, matq; cbn [nth]; q2r; lra.
Qed.

Definition old_value (temp : list dval) : Q :=
  let '(a, res) := exposed w_sent w_ids temp in old_reconstruct w_obj (res_matrix res) a.
Definition new_value (temp : list dval) : Q := snd (certificate w_obj w_sent w_ids temp).

(** what PEPit returned before the repair, and what it returns now *)
Lemma w_old_feasible_dual : old_value (w_duals (1 # 4) 1) == 281 # 400.
Proof. vm_compute. reflexivity. Qed.
Lemma w_old_optimal_dual : old_value (w_duals (5 # 9) (9 # 20)) == 2 # 5.
Proof. vm_compute. reflexivity. Qed.
Lemma w_new_feasible_dual : new_value (w_duals (1 # 4) 1) == 481 # 400.
Proof. vm_compute. reflexivity. Qed.
Lemma w_new_optimal_dual : new_value (w_duals (5 # 9) (9 # 20)) == 9 # 10.
Proof. vm_compute. reflexivity. Qed.
