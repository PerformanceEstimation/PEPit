(** C03 — non-vacuity: for six classes of different kinds a concrete real member, a concrete generator
    state with three recorded samples (leaf points, a linear combination of leaves, a stationary
    sample / repeated point / transpose samples), and a valuation under which EVERY hypothesis of the
    class theorem holds; the theorem then applies, and the generator does produce constraints. *)
From Coq Require Import List Reals Qreals Lra Lia String.
From PV Require Import Base.IPS Model.Dict Model.Terms Model.ClassGen Spec.Sem Spec.Reference Spec.Classes.
From PV Require Import Proofs.DictLemmas Proofs.SemLemmas Proofs.ClassGenLemmas Proofs.FormulaEq Proofs.C04Lemmas.
From PV Require Import Proofs.MembersA Proofs.MembersB Proofs.MembersC Proofs.C03Core Proofs.C03Assembly.
From PV Require Import Gen.Classes.
Import ListNotations.
Local Open Scope R_scope.

Definition leaf_vals {A} (d : A) (l : list A) : nat -> A := fun n => nth n l d.
Definition par1 (p : nat) (v : Q) : nat -> Q := fun q => if Nat.eqb q p then v else 0%Q.
Definition par2 (p1 : nat) (v1 : Q) (p2 : nat) (v2 : Q) : nat -> Q :=
  fun q => if Nat.eqb q p1 then v1 else if Nat.eqb q p2 then v2 else 0%Q.
Definition no_inf : nat -> bool := fun _ => false.
Definition no_Lk : nat -> Q := fun _ => 0%Q.

Ltac in_cases H := cbn [In] in H; repeat (destruct H as [H|H]; [subst|]); [..|destruct H].
(** every sample of a list, down to the distinctness of its keys *)
Ltac wf_list_tac := let s := fresh "s" in let H := fresh "H" in intros s H; in_cases H; unfold wf_sample; cbn; repeat split.
(** a concrete state is well formed: its three lists of samples, then the optional point [f_v]; what is left of
    each is [True] or the distinctness of a concrete list of keys *)
Ltac wf_state_tac :=
  unfold wf_state; cbn; split; [|split; [|split]];
  [ wf_list_tac | wf_list_tac | wf_list_tac | ];
  first [exact I | unfold NoDupKeys, keys; cbn; repeat constructor; cbn; intuition (try discriminate; try lia)].
Ltac finish := repeat (split; [assumption|]); try split; reflexivity.
Ltac calc := cbn; unfold Q2R; cbn; lra.

(** ** 1. a smooth class: SmoothConvexFunction(L = 2), F x = x^2 on the real line *)
Definition ex1_rho : nat -> R1 := @leaf_vals R 0 [1; 2; 0; -1].
Definition ex1_phi : nat -> R := leaf_vals 0 [1; 0].
Definition ex1_s1 := mkSample [(0%nat, 1%Q)] [(1%nat, 1%Q)] [(KF 0, 1%Q)] (Some "x0"%string) 0 1 2 [].   (* (1, 2, 1) *)
Definition ex1_s2 := mkSample [(2%nat, 1%Q)] [] [(KF 1, 1%Q)] None 3 4 5 [].                                (* stationary (0, 0, 0) *)
Definition ex1_s3 := mkSample [(0%nat, 1%Q); (3%nat, 2%Q)] [(1%nat, (-1)%Q)] [(KF 0, 1%Q)] None 6 7 8 [].  (* x0 + 2 p3 = -1: (-1, -2, 1) *)
Definition ex1_st : fstate :=
  mkF "f" (par1 0 2%Q) no_inf [ex1_s1; ex1_s2; ex1_s3] [ex1_s2] [] None 4 2 9 0 no_Lk.
Definition ex1_F : @dfn R1 := @mkD R1 (fun x : R => x * x) (fun x : R => 2 * x).

Lemma ex1_member : smooth_convex_member 2 ex1_F.
Proof. exact (proj1 smooth_classes_nonvacuous). Qed.

Example ex_SmoothConvexFunction :
  0 < 2 /\ smooth_convex_member 2 ex1_F /\ par_is ex1_st 0 2 /\ wf_state ex1_st /\
  (forall s, In s (f_points ex1_st) -> genuine_grad ex1_F (sval ex1_rho ex1_phi s)) /\
  all_satisfied ex1_rho ex1_phi (run_plan plan_SmoothConvexFunction ex1_st) /\
  List.length (g_cons (run_plan plan_SmoothConvexFunction ex1_st)) = 6%nat.
Proof.
  assert (H1 : 0 < 2) by lra.
  assert (H3 : par_is ex1_st 0 2) by (unfold par_is; calc).
  assert (H4 : wf_state ex1_st) by wf_state_tac.
  assert (H5 : forall s, In s (f_points ex1_st) -> genuine_grad ex1_F (sval ex1_rho ex1_phi s)).
  { intros s H. cbn [f_points ex1_st] in H. in_cases H; (split; [intro w; calc|calc]). }
  pose proof ex1_member as H2.
  pose proof (c03_SmoothConvexFunction ex1_rho ex1_phi 2 ex1_F ex1_st H1 H2 H3 H4 H5) as Hall.
  finish.
Qed.

(** ** 2. a non-smooth class: ConvexFunction, F x = |x|, with a subgradient 1/2 chosen at the kink *)
Definition ex2_rho : nat -> R1 := @leaf_vals R 0 [1; 1; -2; -1; 0; 1].
Definition ex2_phi : nat -> R := leaf_vals 0 [1; 2; 0].
Definition ex2_s1 := mkSample [(0%nat, 1%Q)] [(1%nat, 1%Q)] [(KF 0, 1%Q)] None 0 1 2 [].            (* (1, 1, 1) *)
Definition ex2_s2 := mkSample [(2%nat, 1%Q)] [(3%nat, 1%Q)] [(KF 1, 1%Q)] None 3 4 5 [].            (* (-2, -1, 2) *)
Definition ex2_s3 := mkSample [(4%nat, 1%Q)] [(5%nat, (1 # 2)%Q)] [(KF 2, 1%Q)] None 6 7 8 [].      (* (0, 1/2, 0) *)
Definition ex2_st : fstate :=
  mkF "f" (fun _ => 0%Q) no_inf [ex2_s1; ex2_s2; ex2_s3; ex2_s1] [] [] None 6 3 9 0 no_Lk.      (* s1 recorded twice *)
Definition ex2_F : @fn R1 := @mkFn R1 (fun _ => True) (fun x : R => Rabs x).

(** g is a subgradient of |.| at x as soon as |g| <= 1 and g x = |x| *)
Lemma abs_subgrad (x g : R) : -1 <= g <= 1 -> g * x = Rabs x -> subgrad ex2_F x g.
Proof.
  intros Hg Hx. split; [exact I|]. intros y _. change R in y. cbn. rewrite <- Hx.
  unfold Rabs. destruct (Rcase_abs y); nra.
Qed.

Example ex_ConvexFunction :
  wf_state ex2_st /\
  (forall s, In s (f_points ex2_st) -> genuine_sub ex2_F (sval ex2_rho ex2_phi s)) /\
  all_satisfied ex2_rho ex2_phi (run_plan plan_ConvexFunction ex2_st) /\
  List.length (g_cons (run_plan plan_ConvexFunction ex2_st)) = 10%nat.
Proof.
  assert (H4 : wf_state ex2_st) by wf_state_tac.
  assert (H5 : forall s, In s (f_points ex2_st) -> genuine_sub ex2_F (sval ex2_rho ex2_phi s)).
  { intros s H. cbn [f_points ex2_st] in H.
    in_cases H; (split; [apply abs_subgrad|]); cbn; unfold Q2R; cbn; unfold Rabs; try destruct Rcase_abs; lra. }
  pose proof (c03_ConvexFunction ex2_rho ex2_phi ex2_F ex2_st H4 H5) as Hall.
  finish.
Qed.

(** ** 3. ConvexIndicatorFunction(D = 2): the indicator of [-1, 1] *)
Definition ex3_rho : nat -> R1 := @leaf_vals R 0 [1; 3; 0; -1].
Definition ex3_phi : nat -> R := leaf_vals 0 [0; 0; 0].
Definition ex3_s1 := mkSample [(0%nat, 1%Q)] [(1%nat, 1%Q)] [(KF 0, 1%Q)] None 0 1 2 [].            (* (1, 3, 0): 3 in N_C(1) *)
Definition ex3_s2 := mkSample [(2%nat, 1%Q)] [] [(KF 1, 1%Q)] None 3 4 5 [].                        (* (0, 0, 0) *)
Definition ex3_s3 := mkSample [(3%nat, 1%Q)] [(3%nat, 1%Q)] [(KF 2, 1%Q)] None 6 7 8 [].            (* (-1, -1, 0) *)
Definition ex3_st : fstate :=
  mkF "f" (par1 3 2%Q) no_inf [ex3_s1; ex3_s2; ex3_s3] [] [] None 4 3 9 0 no_Lk.
Definition ex3_F : @fn R1 := @mkFn R1 (fun x : R => -1 <= x <= 1) (fun _ => 0).

Example ex_ConvexIndicatorFunction :
  indicator_member (Some 2) ex3_F /\ opt_par_is ex3_st 3 (Some 2) /\ wf_state ex3_st /\
  (forall s, In s (f_points ex3_st) -> genuine_sub ex3_F (sval ex3_rho ex3_phi s)) /\
  all_satisfied ex3_rho ex3_phi (run_plan plan_ConvexIndicatorFunction ex3_st) /\
  List.length (g_cons (run_plan plan_ConvexIndicatorFunction ex3_st)) = 15%nat.
Proof.
  assert (H1 : indicator_member (Some 2) ex3_F).
  { split; [intros x _; reflexivity|]. intros x y Hx Hy. cbn in *. change R in x, y. unfold nrm2, vsub, vneg. cbn. nra. }
  assert (H3 : opt_par_is ex3_st 3 (Some 2)) by (split; [reflexivity|calc]).
  assert (H4 : wf_state ex3_st) by wf_state_tac.
  assert (H5 : forall s, In s (f_points ex3_st) -> genuine_sub ex3_F (sval ex3_rho ex3_phi s)).
  { intros s H. cbn [f_points ex3_st] in H.
    in_cases H; (split; [split; [|intros y Hy; change R in y]|]); cbn in *; unfold Q2R; cbn; lra. }
  pose proof (c03_ConvexIndicatorFunction ex3_rho ex3_phi (Some 2) ex3_F ex3_st H1 H3 H4 H5) as Hall.
  finish.
Qed.

(** ** 4. an operator class: CocoerciveOperator(beta = 1/2), A x = 2 x *)
Definition ex4_rho : nat -> R1 := @leaf_vals R 0 [1; 2; 0; 3].
Definition ex4_s1 := mkSample [(0%nat, 1%Q)] [(1%nat, 1%Q)] [(KF 0, 1%Q)] None 0 1 2 [].                    (* (1, 2) *)
Definition ex4_s2 := mkSample [(2%nat, 1%Q)] [(2%nat, 1%Q)] [(KF 1, 1%Q)] None 3 4 5 [].                    (* fixed point of I - A... (0, 0) *)
Definition ex4_s3 := mkSample [(3%nat, (1 # 2)%Q); (0%nat, 1%Q)] [(3%nat, 1%Q); (1%nat, 1%Q)] [(KF 2, 1%Q)] None 6 7 8 []. (* (5/2, 5) *)
Definition ex4_st : fstate :=
  mkF "A" (par1 4 (1 # 2)%Q) no_inf [ex4_s1; ex4_s2; ex4_s3] [] [] None 4 3 9 0 no_Lk.
Definition ex4_A : @graph R1 := fun x g : R => g = 2 * x.

Example ex_CocoerciveOperator :
  cocoercive_op (1 / 2) ex4_A /\ par_is ex4_st 4 (1 / 2) /\ wf_state ex4_st /\
  (forall s, In s (f_points ex4_st) -> genuine_op ex4_A (sval ex4_rho (fun _ => 0) s)) /\
  all_satisfied ex4_rho (fun _ => 0) (run_plan plan_CocoerciveOperator ex4_st) /\
  List.length (g_cons (run_plan plan_CocoerciveOperator ex4_st)) = 3%nat.
Proof.
  assert (H1 : cocoercive_op (1 / 2) ex4_A) by exact (proj1 (proj2 (proj2 operator_classes_nonvacuous))).
  assert (H3 : par_is ex4_st 4 (1 / 2)) by (unfold par_is; calc).
  assert (H4 : wf_state ex4_st) by wf_state_tac.
  assert (H5 : forall s, In s (f_points ex4_st) -> genuine_op ex4_A (sval ex4_rho (fun _ => 0) s)).
  { intros s H. cbn [f_points ex4_st] in H. in_cases H; unfold ex4_A; calc. }
  pose proof (c03_CocoerciveOperator ex4_rho (fun _ => 0) (1 / 2) ex4_A ex4_st H1 H3 H4 H5) as Hall.
  finish.
Qed.

(** ** 5. a linear-operator class with LMIs: LinearOperator(L = 1), the quarter turn J of R^2 and its
       transpose; two samples of J, one of J^T *)
Definition ex5_rho : nat -> Rn 2 := @leaf_vals (nat -> R) (vec2 0 0) [vec2 1 0; vec2 0 1; vec2 0 2; vec2 (-2) 0; vec2 0 (-1)].
Definition ex5_s1 := mkSample [(0%nat, 1%Q)] [(1%nat, 1%Q)] [] None 0 1 2 [].                               (* x = e1, J x = e2 *)
Definition ex5_s2 := mkSample [(0%nat, 1%Q); (2%nat, 1%Q)] [(3%nat, 1%Q); (1%nat, 1%Q)] [] None 3 4 5 [].   (* x = (1,2), J x = (-2,1) *)
Definition ex5_t1 := mkSample [(0%nat, 1%Q)] [(4%nat, 1%Q)] [] None 6 7 8 [].                               (* u = e1, J^T u = -e2 *)
Definition ex5_st : fstate :=
  mkF "M" (par1 0 1%Q) no_inf [ex5_s1; ex5_s2] [] [ex5_t1] None 5 0 9 0 no_Lk.
Definition ex5_J := mat2 0 (-1) 1 0.
Definition ex5_Jt := mat2 0 1 (-1) 0.

Example ex_LinearOperator :
  bounded_pair 1 ex5_J ex5_Jt /\ par_is ex5_st 0 1 /\ wf_state ex5_st /\
  (forall s, In s (f_points ex5_st) -> genuine_lin ex5_J (sval ex5_rho (fun _ => 0) s)) /\
  (forall s, In s (f_tpoints ex5_st) -> genuine_lin ex5_Jt (sval ex5_rho (fun _ => 0) s)) /\
  all_satisfied ex5_rho (fun _ => 0) (run_plan plan_LinearOperator ex5_st) /\
  List.length (g_cons (run_plan plan_LinearOperator ex5_st)) = 2%nat /\
  List.length (g_lmis (run_plan plan_LinearOperator ex5_st)) = 2%nat.
Proof.
  assert (H1 : bounded_pair 1 ex5_J ex5_Jt) by exact (proj1 linear_operator_nonvacuous).
  assert (H3 : par_is ex5_st 0 1) by (unfold par_is; calc).
  assert (H4 : wf_state ex5_st) by wf_state_tac.
  assert (H5 : forall s, In s (f_points ex5_st) -> genuine_lin ex5_J (sval ex5_rho (fun _ => 0) s)).
  { intros s H. cbn [f_points ex5_st] in H.
    in_cases H; apply mat2_veq; calc. }
  assert (H6 : forall s, In s (f_tpoints ex5_st) -> genuine_lin ex5_Jt (sval ex5_rho (fun _ => 0) s)).
  { intros s H. cbn [f_tpoints ex5_st] in H.
    in_cases H; apply mat2_veq; calc. }
  pose proof (c03_LinearOperator ex5_rho (fun _ => 0) 1 ex5_J ex5_Jt ex5_st H1 H3 H4 H5 H6) as Hall.
  finish.
Qed.

(** ** 6. SmoothStronglyConvexQuadraticFunction(mu = 1, L = 3):
       F x = 5 + 1/2 <x - xs, Q (x - xs)>, Q = [[2,1],[1,2]], xs = (1,1); the stationary sample created
       by the constructor comes first *)
Definition ex6_rho : nat -> Rn 2 := @leaf_vals (nat -> R) (vec2 0 0) [vec2 1 1; vec2 2 1; vec2 0 (-1)].
Definition ex6_phi : nat -> R := leaf_vals 0 [5; 6].
Definition ex6_s0 := mkSample [(0%nat, 1%Q)] [] [(KF 0, 1%Q)] None 0 1 2 [].                                 (* (xs, 0, 5) *)
Definition ex6_s1 := mkSample [(1%nat, 1%Q)] [(1%nat, 1%Q)] [(KF 1, 1%Q)] None 3 4 5 [].                     (* x = (2,1), g = (2,1), f = 6 *)
Definition ex6_s2 := mkSample [(0%nat, 1%Q); (2%nat, 1%Q)] [(2%nat, 2%Q); (1%nat, (-1)%Q); (0%nat, 1%Q)] [(KF 0, 1%Q); (K1, 1%Q)] None 6 7 8 [].
                                                                       (* x = (1,0), x - xs = (0,-1), g = (-1,-2), f = 5 + 1 *)
Definition ex6_st : fstate :=
  mkF "f" (par2 0 3%Q 1 1%Q) no_inf [ex6_s0; ex6_s1; ex6_s2] [ex6_s0] [] None 3 2 9 0 no_Lk.
Definition ex6_Q := mat2 2 1 1 2.

Example ex_SmoothStronglyConvexQuadraticFunction :
  sa_bounded 1 3 ex6_Q /\ par_is ex6_st 0 3 /\ par_is ex6_st 1 1 /\ wf_state ex6_st /\
  (forall s, In s (f_points ex6_st) ->
             genuine_quad ex6_Q (stat_x ex6_rho ex6_st) (stat_f ex6_rho ex6_phi ex6_st) (sval ex6_rho ex6_phi s)) /\
  all_satisfied ex6_rho ex6_phi (run_plan plan_SmoothStronglyConvexQuadraticFunction ex6_st) /\
  List.length (g_cons (run_plan plan_SmoothStronglyConvexQuadraticFunction ex6_st)) = 6%nat /\
  List.length (g_lmis (run_plan plan_SmoothStronglyConvexQuadraticFunction ex6_st)) = 1%nat.
Proof.
  assert (H1 : sa_bounded 1 3 ex6_Q) by exact Q2112_bounded.
  assert (H2 : par_is ex6_st 0 3) by (unfold par_is; calc).
  assert (H3 : par_is ex6_st 1 1) by (unfold par_is; calc).
  assert (H4 : wf_state ex6_st) by wf_state_tac.
  assert (H5 : forall s, In s (f_points ex6_st) ->
             genuine_quad ex6_Q (stat_x ex6_rho ex6_st) (stat_f ex6_rho ex6_phi ex6_st) (sval ex6_rho ex6_phi s)).
  { intros s H. cbn [f_points ex6_st] in H.
    in_cases H; (split; [apply mat2_veq|]); calc. }
  pose proof (c03_SmoothStronglyConvexQuadraticFunction ex6_rho ex6_phi 1 3 ex6_Q ex6_st H1 H2 H3 H4 H5) as Hall.
  finish.
Qed.
