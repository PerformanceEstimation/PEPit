(** C15 — a few facts about lists, then Model/Blocks.v: closed form of a decomposition, histories of
    get_block calls with the ghost record of who was decomposed when, the invariant they preserve
    (freshness of the allocated leaves), the generated constraint list by indices. *)
From Coq Require Import List Reals Lra Lia.
From PV Require Import Model.Dict Model.Terms Model.Blocks Proofs.DictLemmas Proofs.SemLemmas.
Import ListNotations.
Local Open Scope R_scope.

Lemma NoDup_app_inv {A} (l1 l2 : list A) :
  NoDup (l1 ++ l2) -> NoDup l2 /\ forall x, In x l1 -> ~ In x l2.
Proof.
  induction l1 as [|a l1 IH]; cbn; intros H; [split; [exact H|intros x []]|].
  apply NoDup_cons_iff in H as [Hn H]. apply IH in H as [H2 Hd]. split; [exact H2|].
  intros x [<-|Hx]; [|exact (Hd x Hx)]. intros Ha. apply Hn, in_or_app. right. exact Ha.
Qed.

Lemma NoDup_flat_map_disjoint {A B} (f : A -> list B) l a1 a2 x :
  NoDup (flat_map f l) -> In a1 l -> In a2 l -> In x (f a1) -> In x (f a2) -> a1 = a2.
Proof.
  induction l as [|a l IH]; cbn; [tauto|]. intros Hnd H1 H2 Hx1 Hx2.
  apply NoDup_app_inv in Hnd as (Hl & Hdis).
  destruct H1 as [<-|H1], H2 as [<-|H2]; [reflexivity| | |apply IH; assumption]; exfalso.
  - apply (Hdis x Hx1), in_flat_map. exists a2; auto.
  - apply (Hdis x Hx2), in_flat_map. exists a1; auto.
Qed.

Lemma NoDup_map_inj {A B} (f : A -> B) l a b :
  NoDup (map f l) -> In a l -> In b l -> f a = f b -> a = b.
Proof.
  induction l as [|x l IH]; cbn; [tauto|]. intros H Ha Hb Hab. apply NoDup_cons_iff in H as [Hn H].
  destruct Ha as [<-|Ha], Hb as [<-|Hb]; auto; exfalso; apply Hn.
  - rewrite Hab. apply in_map, Hb.
  - rewrite <- Hab. apply in_map, Ha.
Qed.

Lemma NoDup_pairs {A B} (f : A -> list B) (l : list A) :
  NoDup l -> (forall a, NoDup (f a)) -> NoDup (flat_map (fun a => map (pair a) (f a)) l).
Proof.
  induction l as [|a l IH]; cbn; intros Hl Hf; [constructor|]. apply NoDup_cons_iff in Hl as [Hn Hl].
  apply NoDup_app_disjoint; [|apply IH; assumption|].
  - apply (NoDup_map_inv snd). rewrite map_map, map_id. apply Hf.
  - intros [a' b'] H1 H2. apply in_map_iff in H1 as [b1 [[= <- _] _]].
    apply in_flat_map in H2 as [a2 [Ha2 H2]]. apply in_map_iff in H2 as [b2 [[= -> _] _]]. tauto.
Qed.

Lemma list_prod_flat {A B} (l : list A) (l' : list B) :
  list_prod l l' = flat_map (fun a => map (pair a) l') l.
Proof. induction l as [|a l IH]; cbn; [reflexivity|rewrite IH; reflexivity]. Qed.

Lemma NoDup_list_prod {A B} (l : list A) (l' : list B) : NoDup l -> NoDup l' -> NoDup (list_prod l l').
Proof. intros H H'. rewrite list_prod_flat. apply NoDup_pairs; auto. Qed.

Lemma flat_map_flat_map {A B C} (f : B -> list C) (g : A -> list B) l :
  flat_map f (flat_map g l) = flat_map (fun a => flat_map f (g a)) l.
Proof. induction l as [|a l IH]; cbn; [reflexivity|rewrite flat_map_app, IH; reflexivity]. Qed.

Lemma flat_map_map {A B C} (f : B -> list C) (g : A -> B) l :
  flat_map f (map g l) = flat_map (fun a => f (g a)) l.
Proof. induction l as [|a l IH]; cbn; [reflexivity|rewrite IH; reflexivity]. Qed.

Lemma map_flat_map {A B C} (f : B -> C) (g : A -> list B) l :
  map f (flat_map g l) = flat_map (fun a => map f (g a)) l.
Proof. induction l as [|a l IH]; cbn; [reflexivity|rewrite map_app, IH; reflexivity]. Qed.

Lemma flat_map_nth {A B} (f : A -> list B) (dflt : A) l :
  flat_map f l = flat_map (fun i => f (nth i l dflt)) (seq 0 (length l)).
Proof.
  induction l as [|a l IH]; cbn [length seq flat_map nth]; [reflexivity|].
  rewrite <- seq_shift, flat_map_map. cbn [nth]. rewrite <- IH. reflexivity.
Qed.

Fixpoint lsum (l : list R) : R := match l with [] => 0 | x :: l' => x + lsum l' end.

Lemma lsum_app l1 l2 : lsum (l1 ++ l2) = lsum l1 + lsum l2.
Proof. induction l1 as [|x l1 IH]; cbn; [lra|rewrite IH; lra]. Qed.

Lemma lsum_map_zero {A} (f : A -> R) dflt l :
  (forall i, (i < length l)%nat -> f (nth i l dflt) = 0) -> lsum (map f l) = 0.
Proof.
  induction l as [|a l IH]; cbn [length map lsum]; intros H; [reflexivity|].
  rewrite IH by (intros i Hi; apply (H (S i)); lia).
  specialize (H 0%nat). cbn [nth] in H. rewrite H by lia. apply Rplus_0_l.
Qed.

Lemma lsum_map_single {A} (f : A -> R) dflt l : forall k, (k < length l)%nat ->
  (forall i, (i < length l)%nat -> i <> k -> f (nth i l dflt) = 0) -> lsum (map f l) = f (nth k l dflt).
Proof.
  induction l as [|a l IH]; cbn [length map lsum]; intros k Hk H; [lia|]. destruct k as [|k]; cbn [nth].
  - rewrite (lsum_map_zero f dflt) by (intros i Hi; apply (H (S i)); lia). apply Rplus_0_r.
  - rewrite (IH k) by (try lia; intros i Hi Hne; apply (H (S i)); lia).
    specialize (H 0%nat). cbn [nth] in H. rewrite H by lia. apply Rplus_0_l.
Qed.

Lemma lsum_seq_shift (val : nat -> R) m : forall n,
  lsum (map val (seq n m)) = lsum (map (fun k => val (n + k)%nat) (seq 0 m)).
Proof.
  induction m as [|m IH]; intros n; cbn [seq map lsum]; [reflexivity|].
  rewrite IH, <- seq_shift, map_map, Nat.add_0_r. f_equal. f_equal. apply map_ext. intros k.
  f_equal. lia.
Qed.

(** An op of a history of ONE partition: a [get_block] call (object identity, the object's
    dictionary at the time of the call, block number), or a leaf point created elsewhere (which
    advances Point.counter). *)
Inductive op : Type :=
| OGet (obj : objid) (pd : pdict) (k : nat)
| OLeaf.

Definition step (st : pstate) (o : op) : pstate :=
  match o with
  | OGet obj pd k => snd (get_block st obj pd k)
  | OLeaf => mkP (bp_d st) (S (bp_next st)) (bp_blocks st)
  end.

Definition run (st : pstate) (ops : list op) : pstate := fold_left step ops st.

Definition decomposed (o : objid) (st : pstate) : bool :=
  match find_blocks o (bp_blocks st) with Some _ => true | None => false end.

(** Ghost record of a decomposition: which object, with which dictionary, and the value of
    Point.counter at that moment (= id of its first fresh leaf). *)
Record entry : Type := mkE { e_obj : objid; e_pd : pdict; e_n : nat }.

Definition gstep (st : pstate) (g : list entry) (o : op) : list entry :=
  match o with
  | OGet obj pd k => if decomposed obj st then g else g ++ [mkE obj pd (bp_next st)]
  | OLeaf => g
  end.

Fixpoint trace (st : pstate) (g : list entry) (ops : list op) : pstate * list entry :=
  match ops with
  | [] => (st, g)
  | o :: r => trace (step st o) (gstep st g o) r
  end.

(** What is assumed of the dictionaries handed to get_block: unique keys, and every leaf they
    mention already exists (its id is below the current Point.counter). *)
Definition op_ok (st : pstate) (o : op) : Prop :=
  match o with
  | OGet obj pd k => pND pd /\ (forall x, In x (keys pd) -> (x < bp_next st)%nat)
  | OLeaf => True
  end.

Fixpoint ok (st : pstate) (ops : list op) : Prop :=
  match ops with
  | [] => True
  | o :: r => op_ok st o /\ ok (step st o) r
  end.

Definition acc_step (a : pdict) (i : nat) : pdict := p_add a (leaf_dict i).
(** [accumulation] after the loop that created leaves n, n+1, ..., n+m-1 *)
Definition acc_of (n m : nat) : pdict := fold_left acc_step (seq n m) null_dict.
(** the d block dictionaries of a point decomposed when Point.counter was n *)
Definition dblocks (d n : nat) (pd : pdict) : list pdict :=
  map leaf_dict (seq n (d - 1)) ++ [p_sub pd (acc_of n (d - 1))].
Definition blocks_of (d : nat) (e : entry) : list pdict := dblocks d (e_n e) (e_pd e).
Definition leaves_of (d : nat) (e : entry) : list nat := seq (e_n e) (d - 1).

Lemma fresh_loop_spec m : forall next acc part,
  fresh_loop m next acc part
  = ((next + m)%nat, fold_left acc_step (seq next m) acc, part ++ map leaf_dict (seq next m)).
Proof.
  induction m as [|m IH]; intros next acc part; cbn [fresh_loop seq fold_left map].
  - rewrite Nat.add_0_r, app_nil_r. reflexivity.
  - rewrite IH, <- app_assoc, Nat.add_succ_comm. reflexivity.
Qed.

Lemma decompose_spec d n pd : decompose d n pd = ((n + (d - 1))%nat, dblocks d n pd).
Proof. unfold decompose. rewrite fresh_loop_spec. reflexivity. Qed.

Lemma length_dblocks d n pd : (1 <= d)%nat -> length (dblocks d n pd) = d.
Proof. intros H. unfold dblocks. rewrite app_length, map_length, seq_length. cbn. lia. Qed.

Lemma nth_dblocks_leaf d n pd k : (k < d - 1)%nat -> nth k (dblocks d n pd) [] = leaf_dict (n + k).
Proof.
  intros H. unfold dblocks. rewrite app_nth1 by (rewrite map_length, seq_length; exact H).
  rewrite (nth_indep _ [] (leaf_dict 0)) by (rewrite map_length, seq_length; exact H).
  rewrite map_nth, seq_nth by exact H. reflexivity.
Qed.

Lemma nth_dblocks_last d n pd : nth (d - 1) (dblocks d n pd) [] = p_sub pd (acc_of n (d - 1)).
Proof.
  unfold dblocks. rewrite app_nth2 by (rewrite map_length, seq_length; lia).
  rewrite map_length, seq_length, Nat.sub_diag. reflexivity.
Qed.

Lemma find_blocks_app o l1 l2 :
  find_blocks o (l1 ++ l2)
  = match find_blocks o l1 with Some bl => Some bl | None => find_blocks o l2 end.
Proof. induction l1 as [|[o' b'] l1 IH]; cbn; [|destruct (Nat.eqb o o')]; auto. Qed.

Lemma find_blocks_snoc o l bl : find_blocks o l = None -> find_blocks o (l ++ [(o, bl)]) = Some bl.
Proof. intros H. rewrite find_blocks_app, H. cbn. rewrite Nat.eqb_refl. reflexivity. Qed.

Lemma find_blocks_None o l : find_blocks o l = None <-> ~ In o (map fst l).
Proof.
  induction l as [|[o' b'] l IH]; cbn; [tauto|].
  destruct (Nat.eqb_spec o o') as [->|Hne].
  - split; [discriminate|intros H; exfalso; apply H; left; reflexivity].
  - split.
    + intros H [H1|H1]; [congruence|]. apply IH in H. exact (H H1).
    + intros H. apply IH. intros H1. apply H. right; exact H1.
Qed.

Lemma find_blocks_In o bl l : NoDup (map fst l) -> In (o, bl) l -> find_blocks o l = Some bl.
Proof.
  induction l as [|[o' b'] l IH]; cbn; [tauto|]. intros Hnd [H|H].
  - injection H as -> ->. rewrite Nat.eqb_refl. reflexivity.
  - apply NoDup_cons_iff in Hnd as [Hni Hnd]. destruct (Nat.eqb_spec o o') as [->|Hne]; [|auto].
    exfalso. apply Hni. apply in_map_iff. exists (o', bl); auto.
Qed.

Lemma find_blocks_Some_In o bl l : find_blocks o l = Some bl -> In (o, bl) l.
Proof.
  induction l as [|[o' b'] l IH]; cbn; [discriminate|].
  destruct (Nat.eqb_spec o o') as [->|Hne]; [intros [= ->]; left; reflexivity|right; auto].
Qed.

Lemma get_block_old st obj pd k bl :
  find_blocks obj (bp_blocks st) = Some bl -> get_block st obj pd k = (nth k bl [], st).
Proof. intros H. unfold get_block. rewrite H. reflexivity. Qed.

Lemma get_block_new st obj pd k :
  find_blocks obj (bp_blocks st) = None ->
  get_block st obj pd k
  = (nth k (dblocks (bp_d st) (bp_next st) pd) [],
     mkP (bp_d st) (bp_next st + (bp_d st - 1)) (bp_blocks st ++ [(obj, dblocks (bp_d st) (bp_next st) pd)])).
Proof. intros H. unfold get_block. rewrite H, decompose_spec. reflexivity. Qed.

(** A [get_block] step changes the state exactly when the ghost record grows. *)
Lemma step_get st obj pd k :
  step st (OGet obj pd k)
  = if decomposed obj st then st
    else mkP (bp_d st) (bp_next st + (bp_d st - 1))
             (bp_blocks st ++ [(obj, dblocks (bp_d st) (bp_next st) pd)]).
Proof.
  unfold step, decomposed. destruct (find_blocks obj (bp_blocks st)) eqn:Hf.
  - rewrite (get_block_old _ _ _ _ _ Hf). reflexivity.
  - rewrite (get_block_new _ _ _ _ Hf). reflexivity.
Qed.

Lemma run_d ops : forall st, bp_d (run st ops) = bp_d st.
Proof.
  unfold run. induction ops as [|o ops IH]; intros st; cbn [fold_left]; [reflexivity|]. rewrite IH.
  destruct o; [rewrite step_get; destruct (decomposed _ _)|]; reflexivity.
Qed.

Lemma run_stable ops : forall st obj bl,
  find_blocks obj (bp_blocks st) = Some bl -> find_blocks obj (bp_blocks (run st ops)) = Some bl.
Proof.
  unfold run. induction ops as [|o ops IH]; intros st obj bl H; cbn [fold_left]; [exact H|]. apply IH.
  destruct o; [rewrite step_get; destruct (decomposed _ _)|]; cbn; rewrite ?find_blocks_app, H; reflexivity.
Qed.

(** Asking again — immediately or after any further history, with any block number and whatever the
    object's dictionary has become — returns the stored blocks and leaves the state (in particular
    Point.counter) untouched. *)
Lemma idempotent st obj pd k :
  exists bl,
    find_blocks obj (bp_blocks (snd (get_block st obj pd k))) = Some bl
    /\ fst (get_block st obj pd k) = nth k bl []
    /\ forall ops pd' k',
         let st2 := run (snd (get_block st obj pd k)) ops in
         get_block st2 obj pd' k' = (nth k' bl [], st2).
Proof.
  assert (exists bl, find_blocks obj (bp_blocks (snd (get_block st obj pd k))) = Some bl
                     /\ fst (get_block st obj pd k) = nth k bl []) as (bl & H1 & H2).
  { destruct (find_blocks obj (bp_blocks st)) as [bl|] eqn:Hf.
    - exists bl. rewrite (get_block_old _ _ _ _ _ Hf). auto.
    - rewrite (get_block_new _ _ _ _ Hf). eexists. split; [apply find_blocks_snoc, Hf|reflexivity]. }
  exists bl. repeat split; [exact H1|exact H2|]. intros ops pd' k'. apply get_block_old, run_stable, H1.
Qed.

Lemma keys_prune_incl {K} (d : dict K) x : In x (keys (prune d)) -> In x (keys d).
Proof. apply (incl_map fst), incl_filter. Qed.

Lemma keys_p_add a b x : In x (keys (p_add a b)) -> In x (keys a) \/ In x (keys b).
Proof.
  intros H. apply keys_prune_incl in H. unfold pmerge, merge, keys in *. rewrite map_app, map_map in H.
  apply in_app_or in H as [H|H].
  - left. apply in_map_iff in H as [[k v] [<- Hin]]. apply in_map_iff. exists (k, v).
    split; [|exact Hin]. destruct (lookup Nat.eqb k b); reflexivity.
  - right. exact (incl_map fst (incl_filter _ _) x H).
Qed.

Lemma keys_p_sub a b x : In x (keys (p_sub a b)) -> In x (keys a) \/ In x (keys b).
Proof.
  unfold p_sub. intros H. apply keys_p_add in H as [H|H]; [left; exact H|right].
  unfold p_neg, p_scal in H. rewrite keys_scale in H. exact H.
Qed.

Lemma pND_leaf i : pND (leaf_dict i).
Proof. unfold NoDupKeys, leaf_dict; cbn. constructor; [tauto|constructor]. Qed.

Lemma acc_of_S n m : acc_of n (S m) = p_add (acc_of n m) (leaf_dict (n + m)).
Proof. unfold acc_of. rewrite seq_S, fold_left_app. reflexivity. Qed.

Lemma pND_acc n m : pND (acc_of n m).
Proof. induction m as [|m IH]; [constructor|rewrite acc_of_S; apply pND_add; [exact IH|apply pND_leaf]]. Qed.

Lemma keys_acc n m x : In x (keys (acc_of n m)) -> (n <= x < n + m)%nat.
Proof.
  induction m as [|m IH]; [intros []|]. rewrite acc_of_S. intros H.
  apply keys_p_add in H as [H|[<-|[]]]; [apply IH in H|cbn [fst]]; lia.
Qed.

Lemma pND_dblocks d n pd k : pND pd -> pND (nth k (dblocks d n pd) []).
Proof.
  intros Hpd. destruct (nth_in_or_default k (dblocks d n pd) []) as [H| ->]; [|constructor].
  apply in_app_or in H as [H|[<-|[]]].
  - apply in_map_iff in H as [i [<- _]]. apply pND_leaf.
  - apply pND_sub; [exact Hpd|apply pND_acc].
Qed.

Lemma keys_blocks d e b x :
  In b (blocks_of d e) -> In x (keys b) -> In x (keys (e_pd e)) \/ In x (leaves_of d e).
Proof.
  intros H Hx. apply in_app_or in H as [H|[<-|[]]].
  - apply in_map_iff in H as [i [<- Hi]]. destruct Hx as [<-|[]]. right; exact Hi.
  - apply keys_p_sub in Hx as [Hx|Hx]; [left; exact Hx|right; apply in_seq, keys_acc, Hx].
Qed.

Lemma keys_nth_blocks d e k x :
  In x (keys (nth k (blocks_of d e) [])) -> In x (keys (e_pd e)) \/ In x (leaves_of d e).
Proof.
  destruct (nth_in_or_default k (blocks_of d e) []) as [Hin| ->]; [apply keys_blocks, Hin|intros []].
Qed.

Section Sums.
  Variable val : nat -> R.
  Notation ds := (dsum nat val).

  Lemma ds_p_add a b : pND a -> pND b -> ds (p_add a b) = ds a + ds b.
  Proof.
    intros Ha Hb. unfold p_add, pmerge. rewrite dsum_prune.
    apply (dsum_merge nat Nat.eqb nat_eqb_spec); assumption.
  Qed.

  Lemma ds_p_sub a b : pND a -> pND b -> ds (p_sub a b) = ds a - ds b.
  Proof.
    intros Ha Hb. unfold p_sub. rewrite ds_p_add by (try apply pND_neg; assumption).
    unfold p_neg, p_scal. rewrite dsum_scale, Q2R_m1. lra.
  Qed.

  Lemma ds_leaf i : ds (leaf_dict i) = val i.
  Proof. unfold leaf_dict. cbn [dsum]. rewrite Q2R_1. lra. Qed.

  Lemma ds_acc n m : ds (acc_of n m) = lsum (map val (seq n m)).
  Proof.
    induction m as [|m IH]; [reflexivity|].
    rewrite acc_of_S, seq_S, map_app, lsum_app, ds_p_add, ds_leaf, IH by (apply pND_acc || apply pND_leaf).
    cbn. lra.
  Qed.

  Lemma ds_dblocks d n pd : pND pd -> lsum (map ds (dblocks d n pd)) = ds pd.
  Proof.
    intros H. unfold dblocks. rewrite map_app, lsum_app, map_map. cbn [map lsum].
    rewrite ds_p_sub, ds_acc by (exact H || apply pND_acc).
    rewrite (map_ext _ val) by (intro; apply ds_leaf). lra.
  Qed.
End Sums.

Record Inv (d : nat) (st : pstate) (g : list entry) : Prop := {
  inv_d : bp_d st = d;
  inv_blocks : bp_blocks st = map (fun e => (e_obj e, blocks_of d e)) g;
  inv_nodup : NoDup (map e_obj g);
  inv_pd : forall e, In e g ->
           pND (e_pd e) /\ (forall x, In x (keys (e_pd e)) -> (x < e_n e)%nat)
           /\ (e_n e + (d - 1) <= bp_next st)%nat;
  inv_leaves : NoDup (flat_map (leaves_of d) g)
}.

Lemma Inv_init d n0 : Inv d (init_partition d n0) [].
Proof. constructor; cbn; try constructor; tauto. Qed.

Lemma Inv_step d st g o : Inv d st g -> op_ok st o -> Inv d (step st o) (gstep st g o).
Proof.
  intros [Id Ib In_ Ip Il] Hok. destruct o as [obj pd k|]; cbn [gstep].
  - rewrite step_get. unfold decomposed.
    destruct (find_blocks obj (bp_blocks st)) eqn:Hf; [constructor; assumption|].
    destruct Hok as [Hnd Hlt]. constructor; cbn [bp_d bp_next bp_blocks].
    + exact Id.
    + rewrite Ib, map_app, Id. reflexivity.
    + rewrite map_app. apply NoDup_app_disjoint; [exact In_|repeat constructor; tauto|].
      intros x Hx [<-|[]]. apply find_blocks_None in Hf. rewrite Ib, map_map in Hf. exact (Hf Hx).
    + intros e He. apply in_app_or in He as [He|[<-|[]]].
      * destruct (Ip e He) as (A & B & C). repeat split; [exact A|exact B|].
        exact (Nat.le_trans _ _ _ C (Nat.le_add_r _ _)).
      * repeat split; [exact Hnd|exact Hlt|]. cbn [e_n]. rewrite Id. apply Nat.le_refl.
    + rewrite flat_map_app. cbn [flat_map]. rewrite app_nil_r.
      apply NoDup_app_disjoint; [exact Il|apply seq_NoDup|]. intros x Hx Hx'.
      apply in_flat_map in Hx as (e & He & Hx). apply in_seq in Hx, Hx'.
      destruct (Ip e He) as (_ & _ & C). cbn [e_n] in Hx'. lia.
  - constructor; cbn [step bp_d bp_next bp_blocks]; try assumption.
    intros e He. destruct (Ip e He) as (A & B & C). repeat split; [exact A|exact B|].
    apply Nat.le_le_succ_r, C.
Qed.

Lemma trace_ind_from (Q : pstate -> list entry -> Prop) d :
  (forall st g o, Inv d st g -> Q st g -> op_ok st o -> Q (step st o) (gstep st g o)) ->
  forall ops st g, Inv d st g -> Q st g -> ok st ops -> Q (fst (trace st g ops)) (snd (trace st g ops)).
Proof.
  intros Hstep. induction ops as [|o ops IH]; intros st g I HQ Hok; [exact HQ|].
  destruct Hok as [Ho Hr]. apply IH; [apply Inv_step|apply Hstep|]; assumption.
Qed.

Lemma trace_Inv d n0 ops :
  ok (init_partition d n0) ops ->
  Inv d (fst (trace (init_partition d n0) [] ops)) (snd (trace (init_partition d n0) [] ops)).
Proof.
  apply (trace_ind_from (Inv d) d); [intros st g o I _; apply Inv_step, I|apply Inv_init..].
Qed.

Lemma trace_run ops : forall st g, fst (trace st g ops) = run st ops.
Proof. induction ops as [|o ops IH]; intros; cbn; [reflexivity|apply IH]. Qed.

Section Consequences.
  Variables (d : nat) (st : pstate) (g : list entry).
  Hypothesis I : Inv d st g.

  Lemma Inv_find e : In e g -> find_blocks (e_obj e) (bp_blocks st) = Some (blocks_of d e).
  Proof.
    intros He. rewrite (inv_blocks _ _ _ I). apply find_blocks_In.
    - rewrite map_map. apply (inv_nodup _ _ _ I).
    - apply (in_map (fun e => (e_obj e, blocks_of d e))), He.
  Qed.

  Lemma Inv_pND e k : In e g -> pND (nth k (blocks_of d e) []).
  Proof. intros He. apply pND_dblocks, (inv_pd _ _ _ I e He). Qed.

  Lemma Inv_fresh e x : In e g -> In x (leaves_of d e) -> ~ In x (keys (e_pd e)) /\ (x < bp_next st)%nat.
  Proof.
    intros He Hx. destruct (inv_pd _ _ _ I e He) as (_ & B & C). apply in_seq in Hx.
    split; [intros Hk; specialize (B x Hk)|]; lia.
  Qed.

  Lemma Inv_keys_lt e b x : In e g -> In b (blocks_of d e) -> In x (keys b) -> (x < bp_next st)%nat.
  Proof.
    intros He Hb Hx. apply (keys_blocks _ _ _ _ Hb) in Hx as [Hx|Hx]; [|apply (Inv_fresh e x He Hx)].
    destruct (inv_pd _ _ _ I e He) as (_ & B & C). specialize (B x Hx). lia.
  Qed.

  Lemma Inv_disjoint e1 e2 x :
    In e1 g -> In e2 g -> In x (leaves_of d e1) -> In x (leaves_of d e2) -> e1 = e2.
  Proof. apply NoDup_flat_map_disjoint, (inv_leaves _ _ _ I). Qed.

  Lemma Inv_obj_inj e1 e2 : In e1 g -> In e2 g -> e_obj e1 = e_obj e2 -> e1 = e2.
  Proof. apply NoDup_map_inj, (inv_nodup _ _ _ I). Qed.
End Consequences.

(** all (k, l) with l < k < d, in the order of the two inner loops *)
Definition tri (d : nat) : list (nat * nat) := flat_map (fun k => map (pair k) (seq 0 k)) (seq 0 d).
(** all ((i, j), (k, l)) in the order of the four loops *)
Definition idx4 (m d : nat) : list ((nat * nat) * (nat * nat)) :=
  list_prod (list_prod (seq 0 m) (seq 0 m)) (tri d).

Definition blk (st : pstate) (i k : nat) : pdict := nth k (nth i (map snd (bp_blocks st)) []) [].
Definition cons_at (st : pstate) (q : (nat * nat) * (nat * nat)) : edict * sense :=
  let '((i, j), (k, l)) := q in block_constraint (blk st i k) (blk st j l).

Lemma In_tri d k l : In (k, l) (tri d) <-> (k < d /\ l < k)%nat.
Proof.
  unfold tri. rewrite in_flat_map. split.
  - intros [k' [Hk' H]]. apply in_map_iff in H as [l' [Heq Hl']]. injection Heq as -> ->.
    apply in_seq in Hk', Hl'. lia.
  - intros [Hk Hl]. exists k. split; [apply in_seq; lia|]. apply in_map, in_seq. lia.
Qed.

Lemma In_idx4 m d i j k l :
  In ((i, j), (k, l)) (idx4 m d) <-> (i < m /\ j < m /\ k < d /\ l < k)%nat.
Proof.
  unfold idx4. rewrite !in_prod_iff, In_tri, !in_seq. lia.
Qed.

Lemma NoDup_tri d : NoDup (tri d).
Proof. unfold tri. apply NoDup_pairs; [apply seq_NoDup|intro; apply seq_NoDup]. Qed.

Lemma NoDup_idx4 m d : NoDup (idx4 m d).
Proof. unfold idx4. apply NoDup_list_prod; [apply NoDup_list_prod; apply seq_NoDup|apply NoDup_tri]. Qed.

Lemma length_tri d : (2 * length (tri d) = d * (d - 1))%nat.
Proof.
  unfold tri. induction d as [|d IH]; [reflexivity|].
  rewrite seq_S, flat_map_app, app_length. cbn [flat_map plus]. rewrite app_nil_r, map_length, seq_length.
  destruct d; cbn in *; lia.
Qed.

Lemma length_idx4 m d : (2 * length (idx4 m d) = m * m * (d * (d - 1)))%nat.
Proof. unfold idx4. rewrite !prod_length, !seq_length. pose proof (length_tri d). nia. Qed.

(** The four nested loops of add_partition_constraints over any list of values and any body. *)
Section Loops.
  Context {V C : Type} (F : V -> V -> nat -> nat -> C).

  Definition loops (vals : list V) (d : nat) : list C :=
    flat_map (fun xi => flat_map (fun xj => flat_map (fun k => map (F xi xj k) (seq 0 k)) (seq 0 d)) vals) vals.

  Lemma In_loops {A} (h : A -> V) (l : list A) d c :
    In c (loops (map h l) d) <->
    exists a1 a2 k l', In a1 l /\ In a2 l /\ (k < d)%nat /\ (l' < k)%nat /\ c = F (h a1) (h a2) k l'.
  Proof.
    unfold loops. split.
    - intros H. apply in_flat_map in H as (xi & Hi & H). apply in_flat_map in H as (xj & Hj & H).
      apply in_flat_map in H as (k & Hk & H). apply in_map_iff in H as (l' & <- & Hl).
      apply in_map_iff in Hi as (a1 & <- & H1). apply in_map_iff in Hj as (a2 & <- & H2).
      apply in_seq in Hk as [_ Hk], Hl as [_ Hl]. exists a1, a2, k, l'. auto.
    - intros (a1 & a2 & k & l' & H1 & H2 & Hk & Hl & ->).
      apply in_flat_map. exists (h a1). split; [apply in_map, H1|].
      apply in_flat_map. exists (h a2). split; [apply in_map, H2|].
      apply in_flat_map. exists k. split; [apply in_seq; lia|]. apply in_map, in_seq. lia.
  Qed.

  Lemma loops_by_index (dflt : V) vals d :
    loops vals d
    = map (fun '((i, j), (k, l)) => F (nth i vals dflt) (nth j vals dflt) k l) (idx4 (length vals) d).
  Proof.
    unfold loops, idx4, tri. rewrite !list_prod_flat, flat_map_flat_map, map_flat_map.
    rewrite (flat_map_nth _ dflt vals). apply flat_map_ext. intros i.
    rewrite flat_map_map, map_flat_map. rewrite (flat_map_nth _ dflt vals). apply flat_map_ext. intros j.
    rewrite map_map, map_flat_map. apply flat_map_ext. intros k. rewrite map_map. reflexivity.
  Qed.
End Loops.

(** the body of the loops: [xi[k] * xj[l] == 0] *)
Definition pair_constraint (xi xj : list pdict) (k l : nat) : edict * sense :=
  block_constraint (nth k xi []) (nth l xj []).

Lemma constraints_loops st :
  partition_constraints st = loops pair_constraint (map snd (bp_blocks st)) (bp_d st).
Proof. reflexivity. Qed.

Lemma constraints_by_index st :
  partition_constraints st = map (cons_at st) (idx4 (length (bp_blocks st)) (bp_d st)).
Proof. rewrite constraints_loops, (loops_by_index _ []), map_length. reflexivity. Qed.

Lemma length_constraints st :
  (2 * length (partition_constraints st)
   = length (bp_blocks st) * length (bp_blocks st) * (bp_d st * (bp_d st - 1)))%nat.
Proof. rewrite constraints_by_index, map_length. apply length_idx4. Qed.

(** one-block and never-used partitions generate nothing: the count is zero *)
Lemma constraints_none st : bp_d st = 1%nat \/ bp_blocks st = [] -> partition_constraints st = [].
Proof.
  intros H. apply length_zero_iff_nil. pose proof (length_constraints st) as L.
  destruct H as [H|H]; rewrite H in L; cbn in L; lia.
Qed.

Lemma In_constraints st c :
  In c (partition_constraints st) <->
  exists xi xj k l, In xi (map snd (bp_blocks st)) /\ In xj (map snd (bp_blocks st))
                    /\ (k < bp_d st)%nat /\ (l < k)%nat
                    /\ c = block_constraint (nth k xi []) (nth l xj []).
Proof.
  pose proof (In_loops pair_constraint (fun x => x) (map snd (bp_blocks st)) (bp_d st) c) as H.
  rewrite map_id in H. exact H.
Qed.

Lemma Inv_constraints d st g c :
  Inv d st g ->
  (In c (partition_constraints st) <->
   exists e1 e2 k l, In e1 g /\ In e2 g /\ (k < d)%nat /\ (l < k)%nat
     /\ c = block_constraint (nth k (blocks_of d e1) []) (nth l (blocks_of d e2) [])).
Proof.
  intros I. rewrite constraints_loops, (inv_blocks _ _ _ I), map_map, (inv_d _ _ _ I).
  exact (In_loops pair_constraint (blocks_of d) g d c).
Qed.

Lemma p_sub_null pd : p_sub pd null_dict = prune pd.
Proof.
  unfold p_sub, p_neg, p_scal, p_add, pmerge, merge, null_dict. cbn [scale map filter].
  rewrite app_nil_r. f_equal. induction pd as [|[k v] pd IH]; cbn [map lookup]; [reflexivity|].
  f_equal. exact IH.
Qed.

Lemma prune_idem {K} (d : dict K) : prune (prune d) = prune d.
Proof.
  unfold prune. induction d as [|[k v] d IH]; cbn; [reflexivity|].
  destruct (nonzero v) eqn:Hv; cbn; [rewrite Hv, IH; reflexivity|exact IH].
Qed.

Lemma one_block st obj pd k :
  bp_d st = 1%nat -> find_blocks obj (bp_blocks st) = None ->
  get_block st obj pd k
  = (nth k [prune pd] [], mkP 1 (bp_next st) (bp_blocks st ++ [(obj, [prune pd])])).
Proof.
  intros Hd Hf. rewrite (get_block_new _ _ _ _ Hf), Hd. unfold dblocks, acc_of. cbn.
  rewrite p_sub_null, Nat.add_0_r. reflexivity.
Qed.
