(** C03 — non-gradient members of the operator classes: the scaled rotations  A = a I + b J  of the plane,
    A (x0, x1) = (a x0 - b x1, b x0 + a x1).

    <A u, u> = a |u|^2 and |A u|^2 = (a^2 + b^2) |u|^2, so A is EXACTLY a-strongly monotone, a/(a^2+b^2)-cocoercive
    and sqrt(a^2+b^2)-Lipschitz: it sits on the boundary of these classes, and for b <> 0 it is not the gradient
    of any function.  Such members separate the operator classes from the classes of gradients: e.g. the
    inequality  <dg, dx> >= (beta |dg|^2 + mu |dx|^2) / (1 + mu beta), valid for gradients of mu-strongly convex
    1/beta-smooth functions, FAILS for a member of CocoerciveStronglyMonotoneOperator(mu, beta)
    ([rotation_violates_gradient_only_inequality]). *)
From Coq Require Import List Reals Qreals Lra String.
From PV Require Import Base.IPS Model.Dict Model.Terms Model.ClassGen Spec.Sem Spec.Reference Spec.Classes.
From PV Require Import Proofs.DictLemmas Proofs.SemLemmas Proofs.ClassGenLemmas Proofs.C04Lemmas.
From PV Require Import Proofs.MembersB Proofs.MembersC Proofs.C03Core Proofs.C03Assembly Proofs.C03Examples.
From PV Require Import Gen.Classes.
Import ListNotations.
Local Open Scope R_scope.

Definition rotS (a b : R) : Rn 2 -> Rn 2 := mat2 a (- b) b a.
(** the graph of the operator (outputs observed through inner products) *)
Definition rot_graph (a b : R) : @graph (Rn 2) := fun x g => veq g (rotS a b x).

Lemma rot_coords a b (x g : Rn 2) :
  rot_graph a b x g -> g 0%nat = a * x 0%nat - b * x 1%nat /\ g 1%nat = b * x 0%nat + a * x 1%nat.
Proof. intros H. apply veq_Rn2 in H. unfold rotS, mat2, vec2 in H. cbn in H. destruct H as [H0 H1]. split; lra. Qed.

Lemma rot_inner a b x u y v :
  rot_graph a b x u -> rot_graph a b y v ->
  inner (vsub u v) (vsub x y) = a * nrm2 (vsub x y) /\
  nrm2 (vsub u v) = (a * a + b * b) * nrm2 (vsub x y).
Proof.
  intros Hu Hv. destruct (rot_coords a b x u Hu) as [U0 U1]. destruct (rot_coords a b y v Hv) as [V0 V1].
  unfold nrm2, vsub, vneg. cbn. rewrite U0, U1, V0, V1. split; ring.
Qed.

Theorem rotation_scaled_strongly_monotone a b : strongly_monotone_op a (rot_graph a b).
Proof. intros x u y v Hu Hv. destruct (rot_inner a b x u y v Hu Hv) as [H _]. rewrite H. lra. Qed.

Theorem rotation_scaled_lipschitz a b L : a * a + b * b <= L ^ 2 -> lipschitz_op L (rot_graph a b).
Proof.
  intros HL x u y v Hu Hv. destruct (rot_inner a b x u y v Hu Hv) as [_ H]. rewrite H.
  apply Rmult_le_compat_r; [apply inner_pos|exact HL].
Qed.

Theorem rotation_scaled_cocoercive a b : 0 < a * a + b * b -> cocoercive_op (a / (a * a + b * b)) (rot_graph a b).
Proof.
  intros Hr x u y v Hu Hv. destruct (rot_inner a b x u y v Hu Hv) as [H1 H2]. rewrite H1, H2.
  right. field. lra.
Qed.

Theorem rotation_scaled_cocoercive_strongly_monotone a b :
  0 < a * a + b * b -> cocoercive_strongly_monotone_op a (a / (a * a + b * b)) (rot_graph a b).
Proof. intros Hr. split; [apply rotation_scaled_strongly_monotone|apply rotation_scaled_cocoercive; exact Hr]. Qed.

Theorem rotation_monotone b : monotone_op (rot_graph 0 b).
Proof. intros x u y v Hu Hv. destruct (rot_inner 0 b x u y v Hu Hv) as [H _]. rewrite H. lra. Qed.

Theorem rotation_nonexpansive a b : a * a + b * b <= 1 -> nonexpansive_op (rot_graph a b).
Proof. intros H. apply rotation_scaled_lipschitz. lra. Qed.

(** The gradient-only combined inequality does not hold on the class: A = I + J is 1-strongly monotone and
    1/2-cocoercive, and on the pair ((1,0), 0) it gives  1 >= (1/2 * 2 + 1 * 1) / (1 + 1/2) = 4/3. *)
Theorem rotation_violates_gradient_only_inequality :
  let A := rot_graph 1 1 in
  cocoercive_strongly_monotone_op 1 (1 / 2) A /\
  exists x u y v, A x u /\ A y v /\
    ~ (inner (vsub u v) (vsub x y) >= (1 / 2 * nrm2 (vsub u v) + 1 * nrm2 (vsub x y)) / (1 + 1 * (1 / 2))).
Proof.
  intros A. split.
  - replace (1 / 2) with (1 / (1 * 1 + 1 * 1)) by lra. apply rotation_scaled_cocoercive_strongly_monotone. lra.
  - exists (vec2 1 0), (vec2 1 1), (vec2 0 0), (vec2 0 0). split; [|split].
    + apply mat2_veq; cbn; lra.
    + apply mat2_veq; cbn; lra.
    + unfold nrm2, vsub, vneg, vec2. cbn. lra.
Qed.

(** ** the class theorem applied to a non-gradient member on the boundary of the class:
       CocoerciveStronglyMonotoneOperator(mu = 1, beta = 1/2), A = I + J, samples (1,0) -> (1,1), (0,1) -> (-1,1)
       and the zero of A *)
Definition rot_rho : nat -> Rn 2 :=
  @leaf_vals (nat -> R) (vec2 0 0) [vec2 1 0; vec2 1 1; vec2 0 1; vec2 (-1) 1; vec2 0 0].
Definition rot_s1 := mkSample [(0%nat, 1%Q)] [(1%nat, 1%Q)] [] None 0 1 2 [].
Definition rot_s2 := mkSample [(2%nat, 1%Q)] [(3%nat, 1%Q)] [] None 3 4 5 [].
Definition rot_s3 := mkSample [(4%nat, 1%Q)] [] [] None 6 7 8 [].
Definition rot_st : fstate :=
  mkF "A" (par2 1 1%Q 4 (1 # 2)%Q) no_inf [rot_s1; rot_s2; rot_s3] [rot_s3] [] None 5 0 9 0 no_Lk.

Example rotation_member_example :
  cocoercive_strongly_monotone_op 1 (1 / 2) (rot_graph 1 1) /\ par_is rot_st 1 1 /\ par_is rot_st 4 (1 / 2) /\
  wf_state rot_st /\
  (forall s, In s (f_points rot_st) -> genuine_op (rot_graph 1 1) (sval rot_rho (fun _ => 0) s)) /\
  all_satisfied rot_rho (fun _ => 0) (run_plan plan_CocoerciveStronglyMonotoneOperator rot_st) /\
  List.length (g_cons (run_plan plan_CocoerciveStronglyMonotoneOperator rot_st)) = 6%nat.
Proof.
  assert (H1 : cocoercive_strongly_monotone_op 1 (1 / 2) (rot_graph 1 1))
    by exact (proj1 rotation_violates_gradient_only_inequality).
  assert (H2 : par_is rot_st 1 1) by (unfold par_is; calc).
  assert (H3 : par_is rot_st 4 (1 / 2)) by (unfold par_is; calc).
  assert (H4 : wf_state rot_st) by wf_state_tac.
  assert (H5 : forall s, In s (f_points rot_st) -> genuine_op (rot_graph 1 1) (sval rot_rho (fun _ => 0) s)).
  { intros s H. cbn [f_points rot_st] in H.
    in_cases H; apply mat2_veq; calc. }
  pose proof (c03_CocoerciveStronglyMonotoneOperator rot_rho (fun _ => 0) 1 (1 / 2) (rot_graph 1 1) rot_st H1 H2 H3 H4 H5) as Hall.
  finish.
Qed.
