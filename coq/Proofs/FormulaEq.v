(** Every class formula found in the sources (Gen/Classes.v, regenerated on every run) denotes exactly
    the reference condition of Spec/Reference.v: same left-minus-right as a function of the samples
    and parameters, same sense, and it is defined (no division by zero) under the stated parameter
    guard.  A changed coefficient, sign, parameter, operand or relation in PEPit's sources changes the
    generated term and breaks the corresponding lemma here.  Proofs are by normalisation
    (bilinearity, orientation of symmetric atoms) followed by [field]/[lra], so re-bracketings and
    reorderings of the source formula leave them valid. *)
From Coq Require Import Reals Qreals Lra.
From PV Require Import Base.IPS Model.Dict Model.Terms Model.ClassGen Spec.Sem Spec.Reference Proofs.SemLemmas.
From PV Require Import Gen.Classes.
Local Open Scope R_scope.

Lemma Q2R_lit n d : Q2R (n # d) = IZR n / IZR (Zpos d).
Proof. unfold Q2R; cbn. reflexivity. Qed.

Lemma pair_eq1 {A B} (a b : A) (s : B) : a = b -> (a, s) = (b, s).
Proof. intros ->; reflexivity. Qed.

Create HintDb refdb.
#[global] Hint Unfold ref_convex ref_ind_value ref_ind_normal ref_diameter ref_bounded_g ref_qg ref_sup_fenchel
  ref_sup_convex ref_strong_monotone ref_lipschitz ref_smooth_convex ref_smooth ref_smooth_strongly_convex
  ref_strongly_convex ref_quad_value ref_quad_sym ref_quad_lmi ref_cocoercive ref_monotone ref_neg_comonotone
  ref_nonexpansive ref_inf_displacement ref_lin_adjoint ref_lin_lmi ref_skew ref_sym ref_sym_lmi
  ref_block_smooth : refdb.

(** One step of bilinearity.  The syntactic match comes first because a [rewrite] that finds nothing is dear. *)
Ltac bilin_step :=
  match goal with
  | |- context [inner (vsub _ _) _] => rewrite inner_sub_l
  | |- context [inner _ (vsub _ _)] => rewrite inner_sub_r
  | |- context [inner (vadd _ _) _] => rewrite inner_add_l
  | |- context [inner _ (vadd _ _)] => rewrite inner_add_r
  | |- context [inner (vscal _ _) _] => rewrite inner_scal_l
  | |- context [inner _ (vscal _ _)] => rewrite inner_scal_r
  | |- context [inner (vneg _) _] => rewrite inner_neg_l
  | |- context [inner _ (vneg _)] => rewrite inner_neg_r
  end.

(** An inner product of vector expressions (not of two variables) becomes a combination of inner products
    of variables.  It is expanded in a goal of its own, so that each rewriting step abstracts over that
    product only and not over the whole equation. *)
Ltac expand_inner :=
  match goal with
  | |- context [@inner ?E ?a ?b] =>
      match constr:((a, b)) with (?u _, ?v _) => is_var u; is_var v; fail 1 | _ => idtac end;
      let H := fresh in
      eassert (H : @inner E a b = _) by (repeat bilin_step; reflexivity);
      rewrite H; clear H
  end.

(** <u_a, u_b> with b < a becomes <u_b, u_a> *)
Ltac orient_inner :=
  repeat match goal with
  | |- context [@inner ?E (?up ?a) (?up ?b)] =>
      let lt := eval vm_compute in (Nat.ltb b a) in
      match lt with true => rewrite (inner_sym E (up a) (up b)) end
  end.

Lemma div_eq_one a b : b <> 0 -> a / b = 1 -> a = b.
Proof. intros Hb H. apply (f_equal (fun t => t * b)) in H. unfold Rdiv in H.
  rewrite Rmult_assoc, Rinv_l, Rmult_1_r, Rmult_1_l in H by exact Hb. exact H. Qed.

(** no denominator of the formula vanishes under the guards of the statement *)
Ltac side_def :=
  cbn [cdef xdef pdef sdef sdenote]; rewrite ?Q2R_lit; repeat split; try exact I; try assumption;
  try (intros Hz;
       first [lra | nra
             | match goal with
               | Hne : ?a <> ?b, HL : ?b <> 0 |- False => apply Hne; apply (div_eq_one a b HL); lra
               end]).

(** the denotation of the formula and its reference, both normalised, are the same real expression *)
Ltac feq_core :=
  cbn [lhs_minus_rhs denoteX denoteP sdenote]; try apply pair_eq1;
  autounfold with refdb; rewrite ?Q2R_lit; unfold nrm2; repeat expand_inner; orient_inner;
  first [reflexivity | lra | field; repeat split; try assumption; try lra].

(** the statements below: the formula is defined, and denotes its reference *)
Ltac feq :=
  intros; match goal with |- _ _ ?f /\ _ => unfold f end; split; [side_def|feq_core].

Section FormulaEq.
  Context {E : ips}.
  Variable par : nat -> R.
  Variable up : nat -> E.
  Variable ux : nat -> R.
  Notation xi := (up 0%nat). Notation gi := (up 1%nat). Notation xj := (up 2%nat). Notation gj := (up 3%nat).
  Notation xs := (up 4%nat). Notation vv := (up 5%nat). Notation gik := (up 6%nat). Notation gjk := (up 7%nat).
  Notation fi := (ux 0%nat). Notation fj := (ux 1%nat). Notation fs := (ux 2%nat).
  Notation pL := (par 0%nat). Notation pmu := (par 1%nat). Notation pM := (par 2%nat). Notation pD := (par 3%nat).
  Notation pbeta := (par 4%nat). Notation prho := (par 5%nat). Notation pLk := (par 6%nat).

  Lemma feq_convex : cdef par f_ConvexFunction_convexity_constraint_i_j /\ lhs_minus_rhs par up ux f_ConvexFunction_convexity_constraint_i_j = (ref_convex xi xj gj fi fj, Ineq).
  Proof. feq. Qed.

  Lemma feq_ind_value : cdef par f_ConvexIndicatorFunction_value_constraint_i /\ lhs_minus_rhs par up ux f_ConvexIndicatorFunction_value_constraint_i = (ref_ind_value fi, Equ).
  Proof. feq. Qed.

  Lemma feq_ind_normal : cdef par f_ConvexIndicatorFunction_convexity_constraint_i_j /\ lhs_minus_rhs par up ux f_ConvexIndicatorFunction_convexity_constraint_i_j = (ref_ind_normal xi xj gj, Ineq).
  Proof. feq. Qed.

  Lemma feq_ind_diameter : cdef par f_ConvexIndicatorFunction_diameter_constraint_i_j /\ lhs_minus_rhs par up ux f_ConvexIndicatorFunction_diameter_constraint_i_j = (ref_diameter pD xi xj, Ineq).
  Proof. feq. Qed.

  Lemma feq_clip_bound : cdef par f_ConvexLipschitzFunction_lipschitz_continuity_constraint_i /\ lhs_minus_rhs par up ux f_ConvexLipschitzFunction_lipschitz_continuity_constraint_i = (ref_bounded_g pM gi, Ineq).
  Proof. feq. Qed.

  Lemma feq_clip_convex : cdef par f_ConvexLipschitzFunction_convexity_constraint_i_j /\ lhs_minus_rhs par up ux f_ConvexLipschitzFunction_convexity_constraint_i_j = (ref_convex xi xj gj fi fj, Ineq).
  Proof. feq. Qed.

  Lemma feq_qg_convex : cdef par f_ConvexQGFunction_convexity_constraint_i_j /\ lhs_minus_rhs par up ux f_ConvexQGFunction_convexity_constraint_i_j = (ref_convex xi xj gj fi fj, Ineq).
  Proof. feq. Qed.

  Lemma feq_qg_qg : pL <> 0 -> cdef par f_ConvexQGFunction_qg_convexity_constraint_i_j /\ lhs_minus_rhs par up ux f_ConvexQGFunction_qg_convexity_constraint_i_j = (ref_qg pL xi xj gj fi fj, Ineq).
  Proof. feq. Qed.

  Lemma feq_sup_fenchel : cdef par f_ConvexSupportFunction_fenchel_value_constraint_i /\ lhs_minus_rhs par up ux f_ConvexSupportFunction_fenchel_value_constraint_i = (ref_sup_fenchel xi gi fi, Equ).
  Proof. feq. Qed.

  Lemma feq_sup_bound : cdef par f_ConvexSupportFunction_lipschitz_continuity_constraint_i /\ lhs_minus_rhs par up ux f_ConvexSupportFunction_lipschitz_continuity_constraint_i = (ref_bounded_g pM gi, Ineq).
  Proof. feq. Qed.

  Lemma feq_sup_convex : cdef par f_ConvexSupportFunction_convexity_constraint_i_j /\ lhs_minus_rhs par up ux f_ConvexSupportFunction_convexity_constraint_i_j = (ref_sup_convex xj gi gj, Ineq).
  Proof. feq. Qed.

  Lemma feq_rsi : cdef par f_RsiEbFunction_rsi_constraints_i_j /\ lhs_minus_rhs par up ux f_RsiEbFunction_rsi_constraints_i_j = (ref_strong_monotone pmu xi gi xj gj, Ineq).
  Proof. feq. Qed.

  Lemma feq_eb : cdef par f_RsiEbFunction_eb_constraints_i_j /\ lhs_minus_rhs par up ux f_RsiEbFunction_eb_constraints_i_j = (ref_lipschitz pL xi gi xj gj, Ineq).
  Proof. feq. Qed.

  Lemma feq_smooth_convex : pL <> 0 -> cdef par f_SmoothConvexFunction_smoothness_convexity_constraint_i_j /\ lhs_minus_rhs par up ux f_SmoothConvexFunction_smoothness_convexity_constraint_i_j = (ref_smooth_convex pL xi gi xj gj fi fj, Ineq).
  Proof. feq. Qed.

  Lemma feq_scl_smooth_convex : pL <> 0 -> cdef par f_SmoothConvexLipschitzFunction_smoothness_convexity_constraint_i_j /\ lhs_minus_rhs par up ux f_SmoothConvexLipschitzFunction_smoothness_convexity_constraint_i_j = (ref_smooth_convex pL xi gi xj gj fi fj, Ineq).
  Proof. feq. Qed.

  Lemma feq_scl_bound : cdef par f_SmoothConvexLipschitzFunction_lipschitz_continuity_constraint_i /\ lhs_minus_rhs par up ux f_SmoothConvexLipschitzFunction_lipschitz_continuity_constraint_i = (ref_bounded_g pM gi, Ineq).
  Proof. feq. Qed.

  Lemma feq_smooth : pL <> 0 -> cdef par f_SmoothFunction_smoothness_i_j /\ lhs_minus_rhs par up ux f_SmoothFunction_smoothness_i_j = (ref_smooth pL xi gi xj gj fi fj, Ineq).
  Proof. feq. Qed.

  Lemma feq_ssc : pL <> 0 -> pmu <> pL -> cdef par f_SmoothStronglyConvexFunction_smoothness_strong_convexity_constraint_i_j /\ lhs_minus_rhs par up ux f_SmoothStronglyConvexFunction_smoothness_strong_convexity_constraint_i_j = (ref_smooth_strongly_convex pmu pL xi gi xj gj fi fj, Ineq).
  Proof. feq. Qed.

  Lemma feq_quad_value : cdef par f_SmoothStronglyConvexQuadraticFunction_value_constraint_i /\ lhs_minus_rhs par up ux f_SmoothStronglyConvexQuadraticFunction_value_constraint_i = (ref_quad_value xi gi xs fi fs, Equ).
  Proof. feq. Qed.

  Lemma feq_quad_sym : cdef par f_SmoothStronglyConvexQuadraticFunction_symmetry_constraint_i_j /\ lhs_minus_rhs par up ux f_SmoothStronglyConvexQuadraticFunction_symmetry_constraint_i_j = (ref_quad_sym xi gi xj gj xs, Equ).
  Proof. feq. Qed.

  Lemma feq_quad_lmi : xdef par lmi_SmoothStronglyConvexQuadraticFunction_1 /\ denoteX par up ux lmi_SmoothStronglyConvexQuadraticFunction_1 = ref_quad_lmi pmu pL xi gi xj gj xs.
  Proof. feq. Qed.

  Lemma feq_strongly_convex : cdef par f_StronglyConvexFunction_strong_convexity_constraint_i_j /\ lhs_minus_rhs par up ux f_StronglyConvexFunction_strong_convexity_constraint_i_j = (ref_strongly_convex pmu xi xj gj fi fj, Ineq).
  Proof. feq. Qed.

  Lemma feq_cocoercive : cdef par f_CocoerciveOperator_cocoercivity_constraint_i_j /\ lhs_minus_rhs par up ux f_CocoerciveOperator_cocoercivity_constraint_i_j = (ref_cocoercive pbeta xi gi xj gj, Ineq).
  Proof. feq. Qed.

  Lemma feq_csm_cocoercive : cdef par f_CocoerciveStronglyMonotoneOperator_cocoercivity_constraint_i_j /\ lhs_minus_rhs par up ux f_CocoerciveStronglyMonotoneOperator_cocoercivity_constraint_i_j = (ref_cocoercive pbeta xi gi xj gj, Ineq).
  Proof. feq. Qed.

  Lemma feq_csm_strong : cdef par f_CocoerciveStronglyMonotoneOperator_strong_monotonicity_constraint_i_j /\ lhs_minus_rhs par up ux f_CocoerciveStronglyMonotoneOperator_strong_monotonicity_constraint_i_j = (ref_strong_monotone pmu xi gi xj gj, Ineq).
  Proof. feq. Qed.

  (** LinearOperator: (xi, yi) a sample of the operator, (uj, vj) = (xj, gj) a sample of its transpose *)
  Lemma feq_lin_adjoint : cdef par f_LinearOperator_adjoint_constraint_i_j /\ lhs_minus_rhs par up ux f_LinearOperator_adjoint_constraint_i_j = (ref_lin_adjoint xi gi xj gj, Equ).
  Proof. feq. Qed.

  Lemma feq_lin_lmi1 : xdef par lmi_LinearOperator_1 /\ denoteX par up ux lmi_LinearOperator_1 = ref_lin_lmi pL xi gi xj gj.
  Proof. feq. Qed.

  Lemma feq_lin_lmi2 : xdef par lmi_LinearOperator_2 /\ denoteX par up ux lmi_LinearOperator_2 = ref_lin_lmi pL xi gi xj gj.
  Proof. feq. Qed.

  Lemma feq_lipschitz : cdef par f_LipschitzOperator_lipschitz_continuity_constraint_i_j /\ lhs_minus_rhs par up ux f_LipschitzOperator_lipschitz_continuity_constraint_i_j = (ref_lipschitz pL xi gi xj gj, Ineq).
  Proof. feq. Qed.

  Lemma feq_lsm_strong : cdef par f_LipschitzStronglyMonotoneOperator_strong_monotonicity_constraint_i_j /\ lhs_minus_rhs par up ux f_LipschitzStronglyMonotoneOperator_strong_monotonicity_constraint_i_j = (ref_strong_monotone pmu xi gi xj gj, Ineq).
  Proof. feq. Qed.

  Lemma feq_lsm_lipschitz : cdef par f_LipschitzStronglyMonotoneOperator_lipschitz_continuity_constraint_i_j /\ lhs_minus_rhs par up ux f_LipschitzStronglyMonotoneOperator_lipschitz_continuity_constraint_i_j = (ref_lipschitz pL xi gi xj gj, Ineq).
  Proof. feq. Qed.

  Lemma feq_monotone : cdef par f_MonotoneOperator_monotonicity_constraint_i_j /\ lhs_minus_rhs par up ux f_MonotoneOperator_monotonicity_constraint_i_j = (ref_monotone xi gi xj gj, Ineq).
  Proof. feq. Qed.

  Lemma feq_neg_comonotone : cdef par f_NegativelyComonotoneOperator_negative_comonotonicity_constraint_i_j /\ lhs_minus_rhs par up ux f_NegativelyComonotoneOperator_negative_comonotonicity_constraint_i_j = (ref_neg_comonotone prho xi gi xj gj, Ineq).
  Proof. feq. Qed.

  Lemma feq_nonexpansive : cdef par f_NonexpansiveOperator_nonexpansiveness_constraint_i_j /\ lhs_minus_rhs par up ux f_NonexpansiveOperator_nonexpansiveness_constraint_i_j = (ref_nonexpansive xi gi xj gj, Ineq).
  Proof. feq. Qed.

  Lemma feq_inf_displacement : cdef par f_NonexpansiveOperator_infimal_displacement_vector_constraint_i /\ lhs_minus_rhs par up ux f_NonexpansiveOperator_infimal_displacement_vector_constraint_i = (ref_inf_displacement vv xi gi, Ineq).
  Proof. feq. Qed.

  Lemma feq_skew : cdef par f_SkewSymmetricLinearOperator_antisymmetric_linear_constraint_i_j /\ lhs_minus_rhs par up ux f_SkewSymmetricLinearOperator_antisymmetric_linear_constraint_i_j = (ref_skew xi gi xj gj, Equ).
  Proof. feq. Qed.

  Lemma feq_skew_lmi : xdef par lmi_SkewSymmetricLinearOperator_1 /\ denoteX par up ux lmi_SkewSymmetricLinearOperator_1 = ref_lin_lmi pL xi gi xj gj.
  Proof. feq. Qed.

  Lemma feq_strongly_monotone : cdef par f_StronglyMonotoneOperator_strong_monotonicity_constraint_i_j /\ lhs_minus_rhs par up ux f_StronglyMonotoneOperator_strong_monotonicity_constraint_i_j = (ref_strong_monotone pmu xi gi xj gj, Ineq).
  Proof. feq. Qed.

  Lemma feq_sym : cdef par f_SymmetricLinearOperator_symmetric_linear_constraint_i_j /\ lhs_minus_rhs par up ux f_SymmetricLinearOperator_symmetric_linear_constraint_i_j = (ref_sym xi gi xj gj, Equ).
  Proof. feq. Qed.

  Lemma feq_sym_lmi : xdef par lmi_SymmetricLinearOperator_1 /\ denoteX par up ux lmi_SymmetricLinearOperator_1 = ref_sym_lmi pmu pL xi gi xj gj.
  Proof. feq. Qed.

  Lemma feq_block_smooth : pLk <> 0 -> cdef par f_BlockSmoothConvexFunction_smoothness_convexity_block /\ lhs_minus_rhs par up ux f_BlockSmoothConvexFunction_smoothness_convexity_block = (ref_block_smooth pLk xi xj gj gik gjk fi fj, Ineq).
  Proof. feq. Qed.

End FormulaEq.
