(** The executable form [inv_b] of the invariant, and its soundness
    [inv_b s = true -> inv s].  Semantic equalities are decided on dictionaries: [a] and [b] mean the
    same when [a - b] prunes to the empty dictionary (sound; complete on dictionaries over leaf
    expressions / leaf points, which is all the bookkeeping produces). *)
From Coq Require Import List Qreals Lra Lia.
From PV Require Import Base.IPS Model.Dict Model.Terms Model.Func Spec.Sem
  Proofs.DictLemmas Proofs.SemLemmas Proofs.C07Dict Proofs.C07Inv.
Import ListNotations.
Local Open Scope R_scope.

Definition q_leib_eqb (a b : Q) : bool := Z.eqb (Qnum a) (Qnum b) && Pos.eqb (Qden a) (Qden b).

Fixpoint list_eqb {A} (eqb : A -> A -> bool) (l1 l2 : list A) : bool :=
  match l1, l2 with
  | [], [] => true
  | a :: r1, b :: r2 => eqb a b && list_eqb eqb r1 r2
  | _, _ => false
  end.

Definition ekey_leib_eqb := ekey_eqb.
Definition pdict_leib_eqb : pdict -> pdict -> bool :=
  list_eqb (fun a b => Nat.eqb (fst a) (fst b) && q_leib_eqb (snd a) (snd b)).
Definition edict_leib_eqb : edict -> edict -> bool :=
  list_eqb (fun a b => ekey_eqb (fst a) (fst b) && q_leib_eqb (snd a) (snd b)).
Definition sample_eqb (t u : sample) : bool :=
  pdict_leib_eqb (xof t) (xof u) && pdict_leib_eqb (gof t) (gof u) && edict_leib_eqb (vof t) (vof u).

Definition peq_b (a b : pdict) : bool := is_nil (p_sub a b).
Definition eeq_b (a b : edict) : bool := is_nil (x_sub a b).

Definition wf_sample_b (s : state) (t : sample) : bool :=
  pwf_b s (xof t) && nodup_by Nat.eqb (keys (gof t)) && nodup_by ekey_eqb (keys (vof t)) && allnz_b (xof t).

(** weighted sums of a list of chosen samples aligned with the weights *)
Fixpoint gsum (W : wdict) (cs : list sample) : pdict :=
  match W, cs with
  | (_, q) :: W', c :: cs' => p_add (p_scal q (gof c)) (gsum W' cs')
  | _, _ => []
  end.
Fixpoint vsum (W : wdict) (cs : list sample) : edict :=
  match W, cs with
  | (_, q) :: W', c :: cs' => x_add (x_scal q (vof c)) (vsum W' cs')
  | _, _ => []
  end.

(** every way of choosing, for each term, a sample recorded for it at the point [x] *)
Fixpoint combos (s : state) (W : wdict) (x : pdict) : list (list sample) :=
  match W with
  | [] => [[]]
  | (i, _) :: W' =>
      flat_map (fun c => map (cons c) (combos s W' x))
               (filter (fun c => dict_eqb Nat.eqb (xof c) x) (f_pts (getf s i)))
  end.

Definition I3_b (s : state) (W : wdict) (t : sample) : bool :=
  existsb (fun cs => peq_b (gof t) (gsum W cs) && eeq_b (vof t) (vsum W cs)) (combos s W (xof t)).

Definition frec_b (s : state) (i : nat) (r : frec) : bool :=
  let n := length (funs s) in
  (if f_leaf r then
     match f_w r with
     | [(k, q)] => Nat.eqb k i && q_leib_eqb q 1%Q
     | _ => false
     end
   else
     nodup_by Nat.eqb (keys (f_w r)) && negb (is_nil (f_w r)) && allnz_b (f_w r) &&
     forallb (fun '(k, _) => Nat.ltb k n && f_leaf (getf s k)) (f_w r) &&
     implb (f_reuse r) (forallb (fun '(k, _) => f_reuse (getf s k)) (f_w r)) &&
     forallb (I3_b s (f_w r)) (f_pts r)) &&
  forallb (wf_sample_b s) (f_pts r) &&
  forallb (fun t => existsb (sample_eqb t) (f_pts r) && is_nil (gof t)) (f_stat r) &&
  forallb (fun t1 => forallb (fun t2 =>
     implb (dict_eqb Nat.eqb (xof t1) (xof t2))
           (eeq_b (vof t1) (vof t2) && implb (f_reuse r) (peq_b (gof t1) (gof t2)))) (f_pts r)) (f_pts r).

Fixpoint forallb_i {A} (p : nat -> A -> bool) (i : nat) (l : list A) : bool :=
  match l with
  | [] => true
  | a :: r => p i a && forallb_i p (S i) r
  end.

Definition inv_b (s : state) : bool := forallb_i (frec_b s) 0 (funs s).

Lemma q_leib_eqb_eq a b : q_leib_eqb a b = true -> a = b.
Proof.
  destruct a as [an ad], b as [bn bd]. unfold q_leib_eqb; cbn. intros H.
  apply andb_true_iff in H as [H1 H2]. apply Z.eqb_eq in H1. apply Pos.eqb_eq in H2. congruence.
Qed.

Lemma list_eqb_eq {A} (eqb : A -> A -> bool) (Heq : forall a b, eqb a b = true -> a = b) l1 l2 :
  list_eqb eqb l1 l2 = true -> l1 = l2.
Proof.
  revert l2. induction l1 as [|a l1 IH]; intros [|b l2]; cbn; try discriminate; [reflexivity|].
  intros H. apply andb_true_iff in H as [H1 H2]. f_equal; auto.
Qed.

Lemma pdict_leib_eqb_eq a b : pdict_leib_eqb a b = true -> a = b.
Proof.
  apply list_eqb_eq. intros [k q] [k' q']; cbn. intros H. apply andb_true_iff in H as [H1 H2].
  apply Nat.eqb_eq in H1. apply q_leib_eqb_eq in H2. congruence.
Qed.

Lemma edict_leib_eqb_eq a b : edict_leib_eqb a b = true -> a = b.
Proof.
  apply list_eqb_eq. intros [k q] [k' q']; cbn. intros H. apply andb_true_iff in H as [H1 H2].
  destruct (ekey_eqb_spec k k'); [|discriminate]. apply q_leib_eqb_eq in H2. congruence.
Qed.

Lemma sample_eqb_eq t u : sample_eqb t u = true -> t = u.
Proof.
  destruct t as [[x g] v], u as [[x' g'] v']. unfold sample_eqb, xof, gof, vof; cbn. intros H.
  apply andb_true_iff in H as [H H3]. apply andb_true_iff in H as [H1 H2].
  apply pdict_leib_eqb_eq in H1, H2. apply edict_leib_eqb_eq in H3. congruence.
Qed.

Lemma peq_b_sound a b : pND a -> pND b -> peq_b a b = true -> peq a b.
Proof.
  intros Na Nb H E rho w. apply is_nil_true in H.
  pose proof (ip_sub rho w a b Na Nb) as Hs. rewrite H, ip_nil in Hs. unfold ip in Hs. lra.
Qed.

Lemma eeq_b_sound a b : eND a -> eND b -> eeq_b a b = true -> eeq a b.
Proof.
  intros Na Nb H E rho phi. apply is_nil_true in H.
  pose proof (evalE_sub rho phi a b Na Nb) as Hs. rewrite H in Hs. cbn in Hs. lra.
Qed.

Lemma wf_sample_b_sound s t : wf_sample_b s t = true -> wf_sample s t.
Proof.
  unfold wf_sample_b. intros H.
  apply andb_true_iff in H as [H H4]. apply andb_true_iff in H as [H H3]. apply andb_true_iff in H as [H1 H2].
  destruct (pwf_b_spec s _ H1) as [A B]. repeat split; auto.
  - apply (nodup_by_spec Nat.eqb nat_eqb_spec). assumption.
  - apply (nodup_by_spec ekey_eqb ekey_eqb_spec). assumption.
Qed.

Lemma combos_spec s x : forall W cs, In cs (combos s W x) ->
  Forall2 (fun iq c => In c (f_pts (getf s (fst iq))) /\ dict_eqb Nat.eqb (xof c) x = true) W cs.
Proof.
  induction W as [|[i q] W IH]; intros cs H; cbn [combos] in H.
  - destruct H as [<-|[]]. constructor.
  - apply in_flat_map in H as (c & Hc & H). apply in_map_iff in H as (cs' & <- & Hcs').
    apply filter_In in Hc as [Hc1 Hc2]. constructor; [split; assumption|apply IH, Hcs'].
Qed.

(** choice function of an aligned list *)
Fixpoint pick (W : wdict) (cs : list sample) : nat -> sample :=
  match W, cs with
  | (k, _) :: W', c :: cs' => chupd (pick W' cs') k c
  | _, _ => fun _ => ([], [], [])
  end.

Lemma sums_of_aligned s x : forall W cs,
  pND W ->
  Forall2 (fun iq c => In c (f_pts (getf s (fst iq))) /\ dict_eqb Nat.eqb (xof c) x = true) W cs ->
  (forall k q c, In (k, q) W -> In c (f_pts (getf s k)) -> pND (gof c) /\ eND (vof c)) ->
  covers s W x (pick W cs) /\ pND (gsum W cs) /\ eND (vsum W cs) /\
  sums W (pick W cs) (gsum W cs) (vsum W cs).
Proof.
  induction W as [|[k q] W IH]; intros cs NW HF Hwf; inversion HF as [|? c ? cs' [Hin He] HF']; subst.
  - split; [intros i q []|]. split; [apply NoDupKeys_nil|]. split; [apply NoDupKeys_nil|].
    split; intros; cbn; [apply ip_nil|reflexivity].
  - destruct (proj1 (NoDup_cons_iff k (keys W)) NW) as [Hnk NW'].
    destruct (IH cs' NW' HF' (fun k' q' c' H => Hwf k' q' c' (or_intror H))) as (Hcov & Ng & Nv & HG & HV).
    destruct (Hwf k q c (or_introl eq_refl) Hin) as [Ngc Nvc]. cbn [pick gsum vsum].
    split; [apply covers_cons; assumption|].
    split; [apply pND_add; [apply pND_scal, Ngc|exact Ng]|].
    split; [apply eND_add; [apply eND_scal, Nvc|exact Nv]|]. split.
    + intros E rho w. rewrite (dsum_chupd (fun t => ip rho w (gof t))) by exact Hnk.
      rewrite ip_add, ip_scal, HG by (auto using pND_scal). reflexivity.
    + intros E rho phi. rewrite (dsum_chupd (fun t => evalE rho phi (vof t))) by exact Hnk.
      rewrite evalE_add, evalE_scal, HV by (auto using eND_scal). reflexivity.
Qed.

Lemma forallb_i_spec {A} (p : nat -> A -> bool) (d : A) : forall l k,
  forallb_i p k l = true -> forall i, (i < length l)%nat -> p (k + i)%nat (nth i l d) = true.
Proof.
  induction l as [|a l IH]; intros k H i Hi; cbn in Hi; [lia|].
  cbn [forallb_i] in H. apply andb_true_iff in H as [H1 H2]. destruct i as [|i]; cbn [nth].
  - rewrite Nat.add_0_r. exact H1.
  - replace (k + S i)%nat with (S k + i)%nat by lia. apply IH; [exact H2|lia].
Qed.

(** what the check of one function record establishes: the weights and the sample lists are those of the
    invariant; the check of I3 is read in [inv_b_sound], where the samples of the terms are known well formed *)
Lemma frec_b_true s i r :
  frec_b s i r = true ->
  wts_ok s i r /\ pts_ok s r /\ (f_leaf r = false -> forall t, In t (f_pts r) -> I3_b s (f_w r) t = true).
Proof.
  unfold frec_b. intros H.
  apply andb_true_iff in H as [H Hp]. apply andb_true_iff in H as [H Hs]. apply andb_true_iff in H as [H Hw].
  rewrite forallb_forall in Hw, Hs, Hp.
  assert (Hwf : forall t, In t (f_pts r) -> wf_sample s t) by (intros t Ht; apply wf_sample_b_sound, Hw, Ht).
  split; [|split; [split; [exact Hwf|split]|]].
  - split; intros Hl; rewrite Hl in H.
    + destruct (f_w r) as [|[k q] [|]]; try discriminate.
      apply andb_true_iff in H as [Hk Hq]. apply Nat.eqb_eq in Hk. apply q_leib_eqb_eq in Hq. congruence.
    + apply andb_true_iff in H as [H _]. apply andb_true_iff in H as [H HI6].
      apply andb_true_iff in H as [H Hlf]. apply andb_true_iff in H as [H Hnz].
      apply andb_true_iff in H as [Hnd Hne]. rewrite forallb_forall in Hlf.
      split; [|split; [destruct (f_w r); [discriminate|congruence]|exact Hnz]].
      split; [apply (nodup_by_spec Nat.eqb nat_eqb_spec), Hnd|].
      intros k Hk. apply in_map_iff in Hk as [[k' q] [<- Hin]].
      specialize (Hlf (k', q) Hin). apply andb_true_iff in Hlf as [A B]. apply Nat.ltb_lt in A.
      split; [exact A|]. split; [exact B|]. intros Hr. rewrite Hr in HI6. cbn [implb] in HI6.
      rewrite forallb_forall in HI6. apply (HI6 (k', q) Hin).
  - intros t Ht. specialize (Hs t Ht). apply andb_true_iff in Hs as [Hex Hn].
    apply existsb_exists in Hex as (u & Hu & He). apply sample_eqb_eq in He. subst u.
    split; [exact Hu|apply is_nil_true, Hn].
  - intros t1 t2 H1 H2 He. specialize (Hp t1 H1). rewrite forallb_forall in Hp. specialize (Hp t2 H2).
    rewrite He in Hp. apply andb_true_iff in Hp as [Hv Hg].
    destruct (Hwf t1 H1) as (_ & Ng1 & Nv1 & _), (Hwf t2 H2) as (_ & Ng2 & Nv2 & _).
    split; [exact (eeq_b_sound _ _ Nv1 Nv2 Hv)|]. intros Hr. rewrite Hr in Hg.
    exact (peq_b_sound _ _ Ng1 Ng2 Hg).
  - intros Hl. rewrite Hl in H. apply andb_true_iff in H as [_ HI3]. apply forallb_forall, HI3.
Qed.

Theorem inv_b_sound s : inv_b s = true -> inv s.
Proof.
  intros H.
  assert (Hf : forall i, (i < nfun s)%nat -> frec_b s i (getf s i) = true)
    by (intros i Hi; apply (forallb_i_spec (frec_b s) dummy (funs s) 0 H i Hi)).
  apply inv_gen_each. intros i Hi. destruct (frec_b_true s i _ (Hf i Hi)) as (Hw & Hp & H3).
  split; [exact Hw|]. split; [exact Hp|]. intros Hl t Ht. right.
  destruct (proj2 Hw Hl) as ((NW & Hterms) & _). specialize (H3 Hl t Ht). unfold I3_b in H3.
  apply existsb_exists in H3 as (cs & Hcs & Hchk). apply andb_true_iff in Hchk as [HG HV].
  destruct (sums_of_aligned s (xof t) _ cs NW (combos_spec s (xof t) _ cs Hcs)) as (Hcov & Ng & Nv & HsG & HsV).
  { intros k q c Hin Hc. destruct (Hterms k (In_keys nat k q _ Hin)) as [Hk _].
    destruct (frec_b_true s k _ (Hf k Hk)) as (_ & (Hwf & _) & _).
    destruct (Hwf c Hc) as (_ & A & B & _). auto. }
  destruct (proj1 Hp t Ht) as (_ & Ngt & Nvt & _).
  exists (pick (f_w (getf s i)) cs). split; [exact Hcov|]. split.
  - intros E rho w. rewrite <- HsG. apply (peq_b_sound _ _ Ngt Ng HG).
  - intros E rho phi. rewrite <- HsV. apply (eeq_b_sound _ _ Nvt Nv HV).
Qed.
