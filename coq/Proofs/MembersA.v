(** Members of the non-smooth function classes satisfy the reference conditions.

    For each class: every genuine sample (pair of samples) of a real member of the class satisfies
    the reference inequality/equality of Spec/Reference.v.  Everything goes through [inner] and the
    bilinearity lemmas of Base/IPS.v (no Leibniz vector equation). *)
From Coq Require Import Reals Psatz List.
From PV Require Import Base.IPS Spec.Reference Spec.Classes.
Import ListNotations.
Local Open Scope R_scope.

Lemma limit_one_minus_t a c :
  0 <= c -> (forall t, 0 < t < 1 -> 0 <= t * (a - c * (1 - t))) -> a >= c.
Proof.
  intros Hc H.
  destruct (Rle_lt_dec c a) as [Hle|Hlt]; [lra|].
  exfalso.
  pose proof (H (1 / 2)) as Hhalf.
  (* at t = (c - a) / (2 c), a - c (1 - t) = - (c - a) / 2 < 0 *)
  set (t := (c - a) / (2 * c)).
  assert (Hct : c * t = (c - a) / 2) by (unfold t; field; lra).
  assert (Ht0 : 0 < t) by (apply Rdiv_lt_0_compat; lra).
  assert (Ht1 : t < 1) by (apply Rmult_lt_reg_l with (r := c); lra).
  pose proof (H t (conj Ht0 Ht1)) as P.
  replace (c * (1 - t)) with (c - c * t) in P by ring. rewrite Hct in P.
  pose proof (Rmult_lt_0_compat t ((c - a) / 2) Ht0) as Q.
  lra.
Qed.

Section MembersA.
  Context {E : ips}.
  Implicit Types xi gi xj gj xs gs : E.
  Implicit Types fi fj fs : R.

  (** inner products and squared norms at a point [x + u], seen from [x] or from another point [y]
      (the test points the member lemmas instantiate a class condition at) *)
  Lemma inner_shift0 (a x u : E) : inner a (vsub (vadd x u) x) = inner a u.
  Proof. rewrite inner_sub_r, inner_add_r. ring. Qed.

  Lemma inner_shift (a x y u : E) : inner a (vsub (vadd x u) y) = inner a (vsub x y) + inner a u.
  Proof. rewrite !inner_sub_r, inner_add_r. ring. Qed.

  Lemma nrm2_scal t (u : E) : nrm2 (vscal t u) = t * t * nrm2 u.
  Proof. unfold nrm2. rewrite inner_scal_l, inner_scal_r. ring. Qed.

  Lemma nrm2_shift0 (x u : E) : nrm2 (vsub (vadd x u) x) = nrm2 u.
  Proof. unfold nrm2. rewrite inner_shift0, (inner_sym E), inner_shift0. reflexivity. Qed.

  (** a value that rises by at least <g, u> along the step u = g and by at most M |u| forces
      |g|^2 <= M^2 (both conditions at the test point x + g) *)
  Lemma step_bound M (x g : E) (fx fy : R) :
    fy >= fx + inner g (vsub (vadd x g) x) -> (fy - fx) ^ 2 <= M ^ 2 * nrm2 (vsub (vadd x g) x) ->
    ref_bounded_g M g <= 0.
  Proof.
    rewrite inner_shift0, nrm2_shift0. unfold ref_bounded_g, nrm2.
    pose proof (inner_pos E g) as Hn. set (n := inner g g) in *. intros Hs Hl.
    assert (Hsq : n * n <= (fy - fx) * (fy - fx)) by (apply Rmult_le_compat; lra).
    destruct (Rle_lt_dec n 0) as [Hz|Hpos]; [pose proof (pow2_ge_0 M); lra|].
    assert (Hfin : n * n <= n * M ^ 2) by lra.
    apply Rmult_le_reg_l in Hfin; [lra|exact Hpos].
  Qed.

  Lemma mem_convex (F : fn) xi gi fi xj gj fj :
    genuine_sub F (xi, gi, fi) -> genuine_sub F (xj, gj, fj) ->
    ref_convex xi xj gj fi fj <= 0.
  Proof.
    intros [[Hdi _] Hfi] [[_ Hj] Hfj].
    unfold ref_convex. subst fi fj.
    pose proof (Hj xi Hdi) as P. lra.
  Qed.

  (** the member's inequality and the subgradient inequality at xj + t (xi - xj), for every t in (0, 1);
      [limit_one_minus_t] removes t *)
  Lemma mem_strongly_convex mu (F : fn) :
    0 <= mu -> strongly_convex_member mu F ->
    forall xi gi fi xj gj fj, genuine_sub F (xi, gi, fi) -> genuine_sub F (xj, gj, fj) ->
    ref_strongly_convex mu xi xj gj fi fj <= 0.
  Proof.
    intros Hmu HF xi gi fi xj gj fj [[Hdi _] Hfi] [[Hdj Hj] Hfj].
    unfold ref_strongly_convex. subst fi fj.
    set (n := nrm2 (vsub xi xj)).
    set (p := inner gj (vsub xi xj)).
    assert (Hn : 0 <= n) by (unfold n, nrm2; apply inner_pos).
    assert (Hc : 0 <= mu / 2 * n) by (apply Rmult_le_pos; lra).
    assert (Hlim : val F xi - val F xj - p >= mu / 2 * n).
    { apply limit_one_minus_t; [exact Hc|].
      intros t Ht.
      destruct (HF xj xi t Hdj Hdi Ht) as [Hds Hv].
      fold n in Hv.
      pose proof (Hj (seg xj xi t) Hds) as Hs.
      unfold seg in Hs, Hv. rewrite inner_shift0, inner_scal_r in Hs. fold p in Hs.
      lra. }
    lra.
  Qed.

  Lemma mem_lipschitz_bound M (F : fn) :
    lipschitz_fn M F -> forall xi gi fi, genuine_sub F (xi, gi, fi) ->
    ref_bounded_g M gi <= 0.
  Proof.
    intros [Hdom Hlip] xi gi fi [[Hdi Hi] Hfi].
    exact (step_bound M xi gi _ _ (Hi _ (Hdom (vadd xi gi))) (Hlip (vadd xi gi) xi)).
  Qed.

  (** ConvexIndicatorFunction *)
  Lemma mem_ind_value D (F : fn) :
    indicator_member D F -> forall xi gi fi, genuine_sub F (xi, gi, fi) -> ref_ind_value fi = 0.
  Proof.
    intros [Hv _] xi gi fi [[Hdi _] Hfi].
    unfold ref_ind_value. subst fi. apply Hv, Hdi.
  Qed.

  Lemma mem_ind_normal D (F : fn) :
    indicator_member D F ->
    forall xi gi fi xj gj fj, genuine_sub F (xi, gi, fi) -> genuine_sub F (xj, gj, fj) ->
    ref_ind_normal xi xj gj <= 0.
  Proof.
    intros [Hv _] xi gi fi xj gj fj [[Hdi _] _] [[Hdj Hj] _].
    unfold ref_ind_normal.
    pose proof (Hj xi Hdi) as P.
    rewrite (Hv xi Hdi), (Hv xj Hdj) in P. lra.
  Qed.

  Lemma mem_ind_diameter d (F : fn) :
    indicator_member (Some d) F ->
    forall xi gi fi xj gj fj, genuine_sub F (xi, gi, fi) -> genuine_sub F (xj, gj, fj) ->
    ref_diameter d xi xj <= 0.
  Proof.
    intros [_ Hd] xi gi fi xj gj fj [[Hdi _] _] [[Hdj _] _].
    unfold ref_diameter.
    pose proof (Hd xi xj Hdi Hdj) as P. lra.
  Qed.

  (** ConvexSupportFunction *)
  Lemma mem_sup_fenchel C sigma xi gi fi :
    genuine_support C sigma (xi, gi, fi) -> ref_sup_fenchel xi gi fi = 0.
  Proof.
    intros [_ [Hg Hf]].
    unfold ref_sup_fenchel. lra.
  Qed.

  Lemma mem_sup_bound m C sigma :
    support_member (Some m) C sigma -> forall xi gi fi, genuine_support C sigma (xi, gi, fi) ->
    ref_bounded_g m gi <= 0.
  Proof.
    intros [_ Hb] xi gi fi [HC _].
    unfold ref_bounded_g.
    pose proof (Hb gi HC) as P. lra.
  Qed.

  Lemma mem_sup_convex M C sigma :
    support_member M C sigma ->
    forall xi gi fi xj gj fj, genuine_support C sigma (xi, gi, fi) -> genuine_support C sigma (xj, gj, fj) ->
    ref_sup_convex xj gi gj <= 0.
  Proof.
    intros [Hup _] xi gi fi xj gj fj [HCi _] [_ [Hgj _]].
    unfold ref_sup_convex.
    rewrite inner_sub_r.
    pose proof (Hup xj gi HCi) as P.
    rewrite (inner_sym E xj gi), (inner_sym E xj gj). lra.
  Qed.

  Lemma mem_qg L (F : fn) :
    0 < L -> qg_member L F ->
    forall xs gs fs xj gj fj, genuine_sub F (xs, vzero, fs) -> genuine_sub F (xj, gj, fj) ->
    ref_qg L xs xj gj fs fj <= 0.
  Proof.
    intros HL [Hdom Hqg] xs _ fs xj gj fj [Hsub0 Hfs] [[Hdj Hj] Hfj].
    unfold ref_qg. subst fs fj.
    (* the subgradient inequality at xj and the growth bound at xs, both at z = xs + gj / L *)
    set (t := 1 / L).
    assert (Ht : L * t = 1) by (unfold t; field; lra).
    pose proof (Hj _ (Hdom (vadd xs (vscal t gj)))) as Hs.
    pose proof (Hqg xs (vadd xs (vscal t gj)) Hsub0) as Hq.
    rewrite inner_shift, inner_scal_r in Hs. rewrite nrm2_shift0, nrm2_scal in Hq.
    fold (nrm2 gj) in Hs. replace (1 / (2 * L)) with (t / 2) by (unfold t; field; lra).
    pose proof (f_equal (fun r => r * (t / 2 * nrm2 gj)) Ht) as P. cbv beta in P.
    lra.
  Qed.
End MembersA.

(** Non-vacuity: on the real line, x |-> x^2 is a 2-strongly convex member and 2 is a subgradient
    at 1, so the hypotheses of [mem_strongly_convex] are satisfiable. *)
Example strongly_convex_nonvacuous :
  let F := @mkFn R1 (fun _ => True) (fun x : R => x * x) in
  strongly_convex_member 2 F /\ subgrad F 1 2.
Proof.
  intro F. split.
  - intros x y t _ _ Ht. split; [exact I|].
    unfold F, seg, vsub, vneg, nrm2. cbn.
    right. field.
  - split; [exact I|].
    intros y _. unfold F, vsub, vneg. cbn. change R in y.
    pose proof (Rle_0_sqr (y - 1)) as P. unfold Rsqr in P.
    lra.
Qed.
