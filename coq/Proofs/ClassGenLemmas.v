(** Pair / single-point enumeration of the generic generators: which constraints are generated, for
    which pairs, how many times; where each table entry sits; and where every constraint of a whole
    plan run comes from ([run_plan_items_spec]). *)
From Coq Require Import List Bool Arith Lia String.
From PV Require Import Model.Dict Model.Terms Model.ClassGen.
Import ListNotations.
Local Open Scope nat_scope.

Lemma enumerate_from_nth_error {A} (l : list A) k i :
  nth_error (enumerate_from k l) i = option_map (fun a => (k + i, a)) (nth_error l i).
Proof.
  revert k i. induction l as [|b l IH]; intros k i; cbn [enumerate_from].
  - destruct i; reflexivity.
  - destruct i as [|i]; cbn [nth_error option_map].
    + rewrite Nat.add_0_r. reflexivity.
    + rewrite IH, Nat.add_succ_comm. reflexivity.
Qed.

Lemma enumerate_nth_error {A} (l : list A) i :
  nth_error (enumerate l) i = option_map (fun a => (i, a)) (nth_error l i).
Proof. apply enumerate_from_nth_error. Qed.

Lemma enumerate_from_In {A} (l : list A) k p a :
  In (p, a) (enumerate_from k l) <-> exists n, p = k + n /\ nth_error l n = Some a.
Proof.
  split.
  - intros H. apply In_nth_error in H as [n H]. rewrite enumerate_from_nth_error in H. exists n.
    destruct (nth_error l n) as [b|]; [|discriminate]. injection H as <- <-. auto.
  - intros (n & -> & H). apply (nth_error_In _ n). rewrite enumerate_from_nth_error, H. reflexivity.
Qed.

Lemma enumerate_nth {A} (l : list A) i a : In (i, a) (enumerate l) <-> nth_error l i = Some a.
Proof.
  unfold enumerate. rewrite enumerate_from_In. split; [intros (n & -> & H); exact H|]. intros H. exists i. auto.
Qed.

Lemma enumerate_from_length {A} (l : list A) k : List.length (enumerate_from k l) = List.length l.
Proof. revert k; induction l; intros; cbn; [reflexivity|rewrite IHl; reflexivity]. Qed.

Lemma enumerate_length {A} (l : list A) : List.length (enumerate l) = List.length l.
Proof. apply enumerate_from_length. Qed.

Lemma enumerate_from_app {A} (l1 l2 : list A) k :
  enumerate_from k (l1 ++ l2) = enumerate_from k l1 ++ enumerate_from (k + List.length l1) l2.
Proof.
  revert k; induction l1 as [|a l1 IH]; intros k; cbn [app enumerate_from List.length].
  - rewrite Nat.add_0_r. reflexivity.
  - rewrite IH, Nat.add_succ_comm. reflexivity.
Qed.

Lemma map_fst_enumerate_from {A} (l : list A) k : map fst (enumerate_from k l) = seq k (List.length l).
Proof. revert k; induction l; intros; cbn; [reflexivity|rewrite IHl; reflexivity]. Qed.

Lemma map_snd_enumerate_from {A} (l : list A) k : map snd (enumerate_from k l) = l.
Proof. revert k; induction l; intros; cbn; [reflexivity|rewrite IHl; reflexivity]. Qed.

Definition row_flat {A} (row : list (option A)) : list A :=
  flat_map (fun o => match o with Some a => [a] | None => [] end) row.

Lemma flatten_opts_cons {A} (r : list (option A)) rs : flatten_opts (r :: rs) = row_flat r ++ flatten_opts rs.
Proof. reflexivity. Qed.

Lemma in_flatten_opts {A} (rows : list (list (option A))) a :
  In a (flatten_opts rows) <-> exists row, In row rows /\ In (Some a) row.
Proof.
  unfold flatten_opts. rewrite in_flat_map. split.
  - intros [row [Hr H]]. exists row. split; [exact Hr|]. apply in_flat_map in H as [o [Ho H]].
    destruct o as [a'|]; [|destruct H]. destruct H as [->|[]]. exact Ho.
  - intros [row [Hr H]]. exists row. split; [exact Hr|]. apply in_flat_map. exists (Some a).
    split; [exact H|left; reflexivity].
Qed.

Lemma flatten_opts_grid {A B C} (p : A -> B -> bool) (g : A -> B -> C) l1 l2 :
  flatten_opts (map (fun a => map (fun b => if p a b then None else Some (g a b)) l2) l1)
  = map (fun ab => g (fst ab) (snd ab)) (filter (fun ab => negb (p (fst ab) (snd ab))) (list_prod l1 l2)).
Proof.
  unfold flatten_opts. induction l1 as [|a l1 IH]; cbn [map flat_map list_prod]; [reflexivity|].
  rewrite filter_app, map_app, IH. f_equal.
  clear IH. induction l2 as [|b l2 IH2]; cbn; [reflexivity|].
  destruct (p a b); cbn; rewrite IH2; reflexivity.
Qed.

Lemma map_list_prod {A B A' B'} (f : A -> A') (g : B -> B') l1 l2 :
  map (fun ab => (f (fst ab), g (snd ab))) (list_prod l1 l2) = list_prod (map f l1) (map g l2).
Proof.
  induction l1 as [|a l1 IH]; cbn; [reflexivity|].
  rewrite map_app, IH, !map_map. reflexivity.
Qed.

Lemma NoDup_app_intro {A} (l1 l2 : list A) :
  NoDup l1 -> NoDup l2 -> (forall a, In a l1 -> ~ In a l2) -> NoDup (l1 ++ l2).
Proof.
  intros H1 H2 Hd. induction H1 as [|a l1 Hna H1 IH]; cbn; [exact H2|].
  constructor.
  - rewrite in_app_iff. intros [H|H]; [contradiction|]. apply (Hd a); [left; reflexivity|exact H].
  - apply IH. intros b Hb. apply Hd. right. exact Hb.
Qed.

Lemma NoDup_list_prod {A B} (l1 : list A) (l2 : list B) : NoDup l1 -> NoDup l2 -> NoDup (list_prod l1 l2).
Proof.
  intros H1 H2. induction H1 as [|a l1 Hna H1 IH]; cbn; [constructor|].
  apply NoDup_app_intro; [|exact IH|].
  - clear -H2. induction H2 as [|b l2 Hnb H2 IH]; cbn; constructor; [|exact IH].
    intros Hin. apply in_map_iff in Hin as [y [Hy Hin]]. injection Hy as ->. contradiction.
  - intros [x y] Hin Hin2. apply in_map_iff in Hin as [y' [Hy _]]. injection Hy as <- <-.
    apply in_prod_iff in Hin2 as [Hin2 _]. contradiction.
Qed.

Lemma NoDup_map_filter_local {A B} (f : A -> B) (p : A -> bool) l :
  NoDup (map f l) -> NoDup (map f (filter p l)).
Proof.
  induction l as [|a l IH]; cbn; [intros; constructor|]. intros H. apply NoDup_cons_iff in H as [Hna Hnd].
  destruct (p a); cbn; [|exact (IH Hnd)]. constructor; [|exact (IH Hnd)].
  intros Hin. apply Hna. apply in_map_iff in Hin as [x [<- Hin]]. apply filter_In in Hin as [Hin _].
  apply in_map, Hin.
Qed.

Definition pair_selected (sym : bool) (i j : nat) (si sj : sample) : Prop :=
  s_uid si <> s_uid sj /\ (sym = true -> i <= j).

Lemma skip_pair_false sym i j si sj : skip_pair sym i j si sj = false <-> pair_selected sym i j si sj.
Proof.
  unfold skip_pair, pair_selected. rewrite orb_false_iff, andb_false_iff, Nat.eqb_neq, Nat.ltb_ge.
  destruct sym; split; intros H.
  - destruct H as [H1 [H2|H2]]; [|discriminate]. split; [exact H1|]. intros _. exact H2.
  - destruct H as [H1 H2]. split; [exact H1|]. left. exact (H2 eq_refl).
  - split; [tauto|discriminate].
  - split; [tauto|right; reflexivity].
Qed.

Definition ipair := (nat * sample)%type.
Definition pskip (sym : bool) (a b : ipair) : bool := skip_pair sym (fst a) (fst b) (snd a) (snd b).
Definition pcitem (st : fstate) (cname : string) (f : cterm) (a b : ipair) : citem :=
  mkC (Some (pair_name st cname (snd a) (snd b) (fst a) (fst b))) (inst st f (snd a) (snd b)).

(** the selected (position, sample) pairs in generation order *)
Definition sel_pairs (sym : bool) (l1 l2 : list sample) : list (ipair * ipair) :=
  filter (fun ab => negb (pskip sym (fst ab) (snd ab))) (list_prod (enumerate l1) (enumerate l2)).

Lemma gen_pairs_eq st l1 l2 cname f sym :
  gen_pairs st l1 l2 cname f sym
  = map (fun a => map (fun b => if pskip sym a b then None else Some (pcitem st cname f a b)) (enumerate l2))
        (enumerate l1).
Proof.
  unfold gen_pairs. apply map_ext. intros [i si]. apply map_ext. intros [j sj]. reflexivity.
Qed.

(** the constraints appended to list_of_class_constraints are, in order, the images of the selected
    pairs: one constraint per selected pair ... *)
Theorem gen_pairs_flat st l1 l2 cname f sym :
  flatten_opts (gen_pairs st l1 l2 cname f sym)
  = map (fun ab => pcitem st cname f (fst ab) (snd ab)) (sel_pairs sym l1 l2).
Proof. rewrite gen_pairs_eq. apply flatten_opts_grid. Qed.

(** ... the selected pairs are exactly the pairs of positions (i, j) that are not skipped ... *)
Theorem sel_pairs_In sym l1 l2 i si j sj :
  In ((i, si), (j, sj)) (sel_pairs sym l1 l2) <->
  nth_error l1 i = Some si /\ nth_error l2 j = Some sj /\ pair_selected sym i j si sj.
Proof.
  rewrite <- !enumerate_nth, <- skip_pair_false, <- (negb_true_iff (skip_pair sym i j si sj)).
  unfold sel_pairs. etransitivity; [apply filter_In|]. rewrite in_prod_iff. apply and_assoc.
Qed.

(** ... and no pair of positions occurs twice. *)
Theorem sel_pairs_NoDup sym l1 l2 :
  NoDup (map (fun ab => (fst (fst ab), fst (snd ab))) (sel_pairs sym l1 l2)).
Proof.
  unfold sel_pairs. apply NoDup_map_filter_local.
  rewrite (map_list_prod fst fst). unfold enumerate. rewrite !map_fst_enumerate_from.
  apply NoDup_list_prod; apply seq_NoDup.
Qed.

Theorem gen_pairs_spec st l1 l2 cname f sym c :
  In c (flatten_opts (gen_pairs st l1 l2 cname f sym)) <->
  exists i j si sj, nth_error l1 i = Some si /\ nth_error l2 j = Some sj /\ pair_selected sym i j si sj /\
                    c = mkC (Some (pair_name st cname si sj i j)) (inst st f si sj).
Proof.
  rewrite gen_pairs_flat, in_map_iff. split.
  - intros [[[i si] [j sj]] [<- Hin]]. apply sel_pairs_In in Hin. exists i, j, si, sj.
    unfold pcitem. cbn [fst snd]. tauto.
  - intros (i & j & si & sj & Hi & Hj & Hsel & ->). exists ((i, si), (j, sj)). split; [reflexivity|].
    apply sel_pairs_In. tauto.
Qed.

(** identities of the recorded triplets are pairwise distinct: position = identity *)
Lemma uid_inj (l : list sample) i j si sj :
  NoDup (map s_uid l) -> nth_error l i = Some si -> nth_error l j = Some sj -> s_uid si = s_uid sj -> i = j.
Proof.
  intros Hnd Hi Hj He.
  assert (Hlen : i < List.length (map s_uid l)).
  { rewrite map_length. apply nth_error_Some. rewrite Hi. discriminate. }
  apply (proj1 (NoDup_nth_error (map s_uid l)) Hnd i j Hlen).
  rewrite !nth_error_map, Hi, Hj. cbn. f_equal. exact He.
Qed.

(** the same list on both sides (distinct triplet objects): every ordered pair i <> j without the
    symmetry flag, every unordered pair i < j with it *)
Theorem pair_selected_same_list (l : list sample) sym i j si sj :
  NoDup (map s_uid l) -> nth_error l i = Some si -> nth_error l j = Some sj ->
  (pair_selected sym i j si sj <-> i <> j /\ (sym = true -> i < j)).
Proof.
  intros Hnd Hi Hj. unfold pair_selected.
  assert (Hu : s_uid si = s_uid sj <-> i = j).
  { split; [exact (uid_inj l i j si sj Hnd Hi Hj)|]. intros ->. rewrite Hi in Hj. injection Hj as ->. reflexivity. }
  rewrite Hu. split; intros [Hne Hs]; (split; [exact Hne|]); intros Ht; specialize (Hs Ht); lia.
Qed.

Theorem gen_pairs_shape st l1 l2 cname f sym :
  List.length (gen_pairs st l1 l2 cname f sym) = List.length l1 /\
  forall row, In row (gen_pairs st l1 l2 cname f sym) -> List.length row = List.length l2.
Proof.
  unfold gen_pairs. split.
  - rewrite map_length. apply enumerate_length.
  - intros row H. apply in_map_iff in H as [[i si] [<- _]]. rewrite map_length. apply enumerate_length.
Qed.

(** numbering of the cells, [number_rows off rows]: erasing the numbers gives [rows] back, and the
    numbered cells read in row-major order are the flat list of objects enumerated from [off] *)
Lemma row_flat_Some {A} (a : A) r : row_flat (Some a :: r) = a :: row_flat r.
Proof. reflexivity. Qed.
Lemma row_flat_None {A} (r : list (option A)) : row_flat (None :: r) = row_flat r.
Proof. reflexivity. Qed.

Lemma number_row_spec {A} (row : list (option A)) off :
  map (option_map snd) (fst (number_row off row)) = row /\
  row_flat (fst (number_row off row)) = enumerate_from off (row_flat row) /\
  snd (number_row off row) = off + List.length (row_flat row).
Proof.
  revert off. induction row as [|[a|] row IH]; intros off; cbn [number_row].
  - cbn. rewrite Nat.add_0_r. auto.
  - destruct (IH (S off)) as (He & Hf & Hn). destruct (number_row (S off) row) as [r' n]. cbn [fst snd] in *.
    cbn [map option_map snd]. rewrite !row_flat_Some, He, Hf, Hn. cbn [enumerate_from List.length].
    rewrite Nat.add_succ_comm. auto.
  - destruct (IH off) as (He & Hf & Hn). destruct (number_row off row) as [r' n]. cbn [fst snd] in *.
    cbn [map option_map]. rewrite !row_flat_None, He. auto.
Qed.

Theorem number_rows_erase {A} (rows : list (list (option A))) off :
  map (map (option_map snd)) (number_rows off rows) = rows.
Proof.
  revert off. induction rows as [|r rows IH]; intros off; [reflexivity|]. cbn [number_rows].
  destruct (number_row_spec r off) as (He & _). destruct (number_row off r) as [r' n]. cbn [fst map] in *.
  rewrite He, IH. reflexivity.
Qed.

Theorem number_rows_flat {A} (rows : list (list (option A))) off :
  flatten_opts (number_rows off rows) = enumerate_from off (flatten_opts rows).
Proof.
  revert off. induction rows as [|r rows IH]; intros off; [reflexivity|]. cbn [number_rows].
  destruct (number_row_spec r off) as (_ & Hf & Hn). destruct (number_row off r) as [r' n]. cbn [fst snd] in *.
  rewrite !flatten_opts_cons, enumerate_from_app, Hf, IH, Hn. reflexivity.
Qed.

Lemma number_rows_length {A} (rows : list (list (option A))) off :
  List.length (number_rows off rows) = List.length rows.
Proof. rewrite <- (number_rows_erase rows off) at 2. rewrite map_length. reflexivity. Qed.

Theorem gen_singles_spec st l cname f c :
  In c (gen_singles st l cname f) <->
  exists i si, nth_error l i = Some si /\ c = mkC (Some (single_name st cname si i)) (inst st f si si).
Proof.
  unfold gen_singles. rewrite in_map_iff. split.
  - intros [[i si] [<- Hi]]. apply enumerate_nth in Hi. exists i, si. auto.
  - intros (i & si & Hi & ->). exists (i, si). split; [reflexivity|apply enumerate_nth; exact Hi].
Qed.

Theorem gen_singles_nth st l cname f i si :
  nth_error l i = Some si ->
  nth_error (gen_singles st l cname f) i = Some (mkC (Some (single_name st cname si i)) (inst st f si si)).
Proof.
  intros Hi. unfold gen_singles. rewrite nth_error_map, enumerate_nth_error, Hi. reflexivity.
Qed.

Lemma gen_singles_length st l cname f : List.length (gen_singles st l cname f) = List.length l.
Proof. unfold gen_singles. rewrite map_length. apply enumerate_length. Qed.

Lemma flatten_opts_single {A} (l : list A) : flatten_opts [map Some l] = l.
Proof. unfold flatten_opts. cbn [flat_map]. rewrite app_nil_r. induction l; cbn; [reflexivity|f_equal; exact IHl]. Qed.

Fixpoint item_cons (st : fstate) (it : plan_item) : list citem :=
  match it with
  | Pairs l1 l2 cname f sym => flatten_opts (gen_pairs st (get_list st l1) (get_list st l2) cname f sym)
  | Singles l cname f => gen_singles st (get_list st l) cname f
  | Guarded g it' => if guard_true st g then item_cons st it' else []
  | AutoStationary => []
  | LMI _ _ => []
  | BlockPairs cprefix f => gen_block_flat st cprefix f (f_points st)
  end.

Fixpoint item_lmis (st : fstate) (it : plan_item) : list (list (list edict)) :=
  match it with
  | LMI l entry => [map (fun si => map (fun sj => instX st entry si sj) (get_list st l)) (get_list st l)]
  | Guarded g it' => if guard_true st g then item_lmis st it' else []
  | _ => []
  end.

Fixpoint item_tables (st : fstate) (off : nat) (it : plan_item) : list table :=
  match it with
  | Pairs l1 l2 cname f sym =>
      match get_list st l1 with
      | [] => []
      | _ => [mkT cname (number_rows off (gen_pairs st (get_list st l1) (get_list st l2) cname f sym))
                  (labels (get_list st l1)) (labels (get_list st l2)) ("IC_" ++ f_id st)]
      end
  | Singles l cname f =>
      [mkT cname (number_rows off [map Some (gen_singles st (get_list st l) cname f)])
           ["0"%string] (labels (get_list st l)) ("IC_" ++ f_id st)]
  | Guarded g it' => if guard_true st g then item_tables st off it' else []
  | BlockPairs cprefix f =>
      match f_points st with
      | [] => []
      | _ => map (block_table st cprefix f (f_points st) off) (seq 0 (f_nblocks st))
      end
  | _ => []
  end.

Fixpoint item_state (st : fstate) (it : plan_item) : fstate :=
  match it with
  | Guarded g it' => if guard_true st g then item_state st it' else st
  | AutoStationary => match f_stat st with [] => auto_stationary st | _ => st end
  | _ => st
  end.

Lemma run_item_eq it o :
  run_item it o = mkG (g_cons o ++ item_cons (g_state o) it) (g_lmis o ++ item_lmis (g_state o) it)
                      (g_tables o ++ item_tables (g_state o) (List.length (g_cons o)) it)
                      (item_state (g_state o) it).
Proof.
  induction it as [l1 l2 cname f sym|l cname f|g it IH| |l entry|cprefix f]; cbn [run_item item_cons item_lmis item_tables item_state].
  - unfold append_out. rewrite app_nil_r. reflexivity.
  - unfold append_out. rewrite app_nil_r. reflexivity.
  - destruct (guard_true (g_state o) g); [exact IH|]. rewrite !app_nil_r. destruct o; reflexivity.
  - rewrite !app_nil_r. destruct (f_stat (g_state o)); [reflexivity|destruct o; reflexivity].
  - unfold append_out. rewrite !app_nil_r. reflexivity.
  - unfold append_out. rewrite app_nil_r. reflexivity.
Qed.

(** where a constraint contributed by an item comes from *)
Fixpoint item_src (st : fstate) (it : plan_item) (c : citem) : Prop :=
  match it with
  | Pairs l1 l2 cname f sym =>
      exists i j si sj, nth_error (get_list st l1) i = Some si /\ nth_error (get_list st l2) j = Some sj /\
                        pair_selected sym i j si sj /\
                        c = mkC (Some (pair_name st cname si sj i j)) (inst st f si sj)
  | Singles l cname f =>
      exists i si, nth_error (get_list st l) i = Some si /\
                   c = mkC (Some (single_name st cname si i)) (inst st f si si)
  | Guarded g it' => guard_true st g = true /\ item_src st it' c
  | AutoStationary => False
  | LMI _ _ => False
  | BlockPairs cprefix f =>
      exists i j k si sj, nth_error (f_points st) i = Some si /\ nth_error (f_points st) j = Some sj /\
                          same_tuple si sj = false /\ k < f_nblocks st /\
                          c = mkC (Some (block_name st cprefix k si sj i j)) (instB st f k si sj)
  end.

Fixpoint item_lmi_src (st : fstate) (it : plan_item) (m : list (list edict)) : Prop :=
  match it with
  | LMI l entry => m = map (fun si => map (fun sj => instX st entry si sj) (get_list st l)) (get_list st l)
  | Guarded g it' => guard_true st g = true /\ item_lmi_src st it' m
  | _ => False
  end.

Lemma block_grid_In (l : list sample) i si j sj :
  In (i, si, j, sj) (flatten_opts (block_grid l)) <->
  nth_error l i = Some si /\ nth_error l j = Some sj /\ same_tuple si sj = false.
Proof.
  split.
  - intros H. apply in_flatten_opts in H as (row & Hrow & Hin).
    apply in_map_iff in Hrow as ([i' si'] & <- & Hi). apply in_map_iff in Hin as ([j' sj'] & Heq & Hj).
    destruct (same_tuple si' sj') eqn:Hs; [discriminate|]. injection Heq as <- <- <- <-.
    apply enumerate_nth in Hi, Hj. auto.
  - intros (Hi & Hj & Hs). apply enumerate_nth in Hi, Hj. apply in_flatten_opts. eexists.
    split; [exact (in_map _ _ _ Hi)|]. apply in_map_iff. exists (j, sj). rewrite Hs. auto.
Qed.

Theorem gen_block_spec st cprefix f l c :
  In c (gen_block_flat st cprefix f l) <->
  exists i j k si sj, nth_error l i = Some si /\ nth_error l j = Some sj /\ same_tuple si sj = false /\
                      k < f_nblocks st /\
                      c = mkC (Some (block_name st cprefix k si sj i j)) (instB st f k si sj).
Proof.
  unfold gen_block_flat. rewrite in_flat_map. split.
  - intros ([[[i si] j] sj] & Hq & Hin). apply block_grid_In in Hq as (Hi & Hj & Hs).
    apply in_map_iff in Hin as (k & <- & Hk). apply in_seq in Hk. exists i, j, k, si, sj. tauto.
  - intros (i & j & k & si & sj & Hi & Hj & Hs & Hk & ->). exists (i, si, j, sj).
    split; [apply block_grid_In; auto|]. apply in_map_iff. exists k. split; [reflexivity|]. apply in_seq. lia.
Qed.

Theorem item_cons_spec st it c : In c (item_cons st it) <-> item_src st it c.
Proof.
  induction it as [l1 l2 cname f sym|l cname f|g it IH| |l entry|cprefix f]; cbn [item_cons item_src].
  - apply gen_pairs_spec.
  - apply gen_singles_spec.
  - destruct (guard_true st g); [rewrite IH; tauto|]. split; [intros []|intros [H _]; discriminate].
  - tauto.
  - tauto.
  - apply gen_block_spec.
Qed.

Theorem item_lmis_spec st it m : In m (item_lmis st it) <-> item_lmi_src st it m.
Proof.
  induction it as [l1 l2 cname f sym|l cname f|g it IH| |l entry|cprefix f]; cbn [item_lmis item_lmi_src In]; try tauto.
  - destruct (guard_true st g); [rewrite IH; tauto|]. split; [intros []|intros [H _]; discriminate].
  - split; [intros [H|[]]; auto|intros ->; left; reflexivity].
Qed.

Definition run_items (plan : list plan_item) (o : genout) : genout := fold_left (fun o it => run_item it o) plan o.

Lemma run_plan_run_items plan st : run_plan plan st = run_items plan (mkG [] [] [] st).
Proof. reflexivity. Qed.

(** an output list [proj] to which every item only adds: what it holds at the end was there at the
    start or was added by some item of the plan, running in the output of the items before it *)
Lemma run_items_In {A} (proj : genout -> list A) (src : genout -> plan_item -> A -> Prop) :
  (forall it o x, In x (proj (run_item it o)) <-> In x (proj o) \/ src o it x) ->
  forall plan o x,
    In x (proj (run_items plan o)) <->
    In x (proj o) \/ exists pre it post, plan = pre ++ it :: post /\ src (run_items pre o) it x.
Proof.
  intros Hstep plan. induction plan as [|it plan IH]; intros o x.
  - cbn. split; [auto|]. intros [H|(pre & it & post & H & _)]; [exact H|]. destruct pre; discriminate.
  - change (run_items (it :: plan) o) with (run_items plan (run_item it o)). rewrite IH, Hstep. split.
    + intros [[H|H]|(pre & it' & post & -> & H)].
      * left. exact H.
      * right. exists [], it, plan. split; [reflexivity|exact H].
      * right. exists (it :: pre), it', post. split; [reflexivity|exact H].
    + intros [H|(pre & it' & post & Heq & H)]; [left; left; exact H|].
      destruct pre as [|it0 pre]; cbn in Heq; injection Heq as <- ->.
      * left. right. exact H.
      * right. exists pre, it', post. split; [reflexivity|exact H].
Qed.

Theorem run_items_tables plan o t :
  In t (g_tables (run_items plan o)) <->
  In t (g_tables o) \/
  exists pre it post, plan = pre ++ it :: post /\
    In t (item_tables (g_state (run_items pre o)) (List.length (g_cons (run_items pre o))) it).
Proof.
  apply (run_items_In g_tables (fun o it t => In t (item_tables (g_state o) (List.length (g_cons o)) it))).
  intros it' o' x. rewrite run_item_eq. apply in_app_iff.
Qed.

(** Every constraint in list_of_class_constraints after set_class_constraints() comes from one item
    of the plan, instantiated on samples drawn from the function's lists in the state reached when
    that item runs (the state only changes through AutoStationary). *)
Theorem run_plan_items_spec plan st c :
  In c (g_cons (run_plan plan st)) <->
  exists pre it post, plan = pre ++ it :: post /\ item_src (g_state (run_plan pre st)) it c.
Proof.
  rewrite run_plan_run_items, (run_items_In g_cons (fun o it c => item_src (g_state o) it c)).
  - cbn [g_cons In]. tauto.
  - intros it o x. rewrite run_item_eq. cbn [g_cons]. rewrite in_app_iff, item_cons_spec. reflexivity.
Qed.

Theorem run_plan_lmis_spec plan st m :
  In m (g_lmis (run_plan plan st)) <->
  exists pre it post, plan = pre ++ it :: post /\ item_lmi_src (g_state (run_plan pre st)) it m.
Proof.
  rewrite run_plan_run_items, (run_items_In g_lmis (fun o it m => item_lmi_src (g_state o) it m)).
  - cbn [g_lmis In]. tauto.
  - intros it o x. rewrite run_item_eq. cbn [g_lmis]. rewrite in_app_iff, item_lmis_spec. reflexivity.
Qed.

(** plans in which the automatic stationary point can only be created by the first statement (all
    shipped plans): every item sees the same state *)
Fixpoint auto_free (it : plan_item) : bool :=
  match it with AutoStationary => false | Guarded _ it' => auto_free it' | _ => true end.

Definition auto_head_only (plan : list plan_item) : bool :=
  match plan with AutoStationary :: rest => forallb auto_free rest | _ => forallb auto_free plan end.

Definition start_state (plan : list plan_item) (st : fstate) : fstate :=
  match plan with AutoStationary :: _ => item_state st AutoStationary | _ => st end.

Lemma item_state_auto_free st it : auto_free it = true -> item_state st it = st.
Proof.
  induction it; cbn; try reflexivity; try discriminate. intros H. destruct (guard_true st g); auto.
Qed.

Lemma run_items_state_auto_free plan o : forallb auto_free plan = true -> g_state (run_items plan o) = g_state o.
Proof.
  revert o. induction plan as [|it plan IH]; intros o H; [reflexivity|]. cbn in H. apply andb_true_iff in H as [H1 H2].
  change (run_items (it :: plan) o) with (run_items plan (run_item it o)). rewrite IH by exact H2.
  rewrite run_item_eq. cbn [g_state]. apply item_state_auto_free. exact H1.
Qed.

Lemma auto_head_only_cons it rest st :
  auto_head_only (it :: rest) = true ->
  forallb auto_free rest = true /\ start_state (it :: rest) st = item_state st it.
Proof.
  destruct it; cbn [auto_head_only start_state forallb]; intros H.
  4: { (* AutoStationary *) split; [exact H|reflexivity]. }
  all: apply andb_true_iff in H as [H1 H2]; split; [exact H2|symmetry; apply item_state_auto_free; exact H1].
Qed.

Lemma run_plan_cons_state it plan st :
  forallb auto_free plan = true -> g_state (run_plan (it :: plan) st) = item_state st it.
Proof.
  intros H. change (run_plan (it :: plan) st) with (run_items plan (run_item it (mkG [] [] [] st))).
  rewrite run_items_state_auto_free by exact H. rewrite run_item_eq. reflexivity.
Qed.

Theorem run_plan_state plan st : auto_head_only plan = true -> g_state (run_plan plan st) = start_state plan st.
Proof.
  destruct plan as [|it plan]; [reflexivity|]. intros Hh.
  destruct (auto_head_only_cons it plan st Hh) as [Hr ->]. apply run_plan_cons_state. exact Hr.
Qed.

Lemma run_plan_prefix_state plan st pre it post :
  auto_head_only plan = true -> plan = pre ++ it :: post -> auto_free it = true ->
  g_state (run_plan pre st) = start_state plan st.
Proof.
  intros Hh -> Hit. destruct pre as [|it0 pre].
  - destruct it; try reflexivity. discriminate.
  - destruct (auto_head_only_cons it0 (pre ++ it :: post) st Hh) as [Hr Hs]. cbn [app]. rewrite Hs.
    apply run_plan_cons_state. rewrite forallb_app in Hr. apply andb_true_iff in Hr. tauto.
Qed.

Lemma item_src_auto_free st it c : item_src st it c -> auto_free it = true.
Proof. induction it; cbn; try reflexivity; try tauto. Qed.

Lemma item_lmi_src_auto_free st it m : item_lmi_src st it m -> auto_free it = true.
Proof. induction it; cbn; try reflexivity; try tauto. Qed.

(** so every item that contributes something ran in [start_state] *)
Lemma run_plan_src_simple {A} (src : fstate -> plan_item -> A -> Prop) plan st x :
  (forall st it x, src st it x -> auto_free it = true) -> auto_head_only plan = true ->
  ((exists pre it post, plan = pre ++ it :: post /\ src (g_state (run_plan pre st)) it x) <->
   exists it, In it plan /\ src (start_state plan st) it x).
Proof.
  intros Hfree Hh. split.
  - intros (pre & it & post & Heq & Hsrc). exists it. split; [rewrite Heq; apply in_elt|].
    rewrite <- (run_plan_prefix_state plan st pre it post Hh Heq (Hfree _ _ _ Hsrc)). exact Hsrc.
  - intros (it & Hin & Hsrc). apply in_split in Hin as (pre & post & Heq). exists pre, it, post.
    split; [exact Heq|].
    rewrite (run_plan_prefix_state plan st pre it post Hh Heq (Hfree _ _ _ Hsrc)). exact Hsrc.
Qed.

Theorem run_plan_items_spec_simple plan st c :
  auto_head_only plan = true ->
  (In c (g_cons (run_plan plan st)) <-> exists it, In it plan /\ item_src (start_state plan st) it c).
Proof. rewrite run_plan_items_spec. apply run_plan_src_simple, item_src_auto_free. Qed.

Theorem run_plan_lmis_spec_simple plan st m :
  auto_head_only plan = true ->
  (In m (g_lmis (run_plan plan st)) <-> exists it, In it plan /\ item_lmi_src (start_state plan st) it m).
Proof. rewrite run_plan_lmis_spec. apply run_plan_src_simple, item_lmi_src_auto_free. Qed.
