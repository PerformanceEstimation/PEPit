(** C11 -- the concrete models of the examples of Props/C11.v, and the index expressions mosek_wrapper.py used BEFORE
    the repairs 88e1f86 (int8 row indices), 067bbb4 (bar variable = PSDMatrix class counter + 1), 54e4665 (xx[-2],
    Expression.counter - 1).  The "old_*" definitions below are NOT the model of the current code: they restate the
    old expressions so that the REGRESSION examples show, on the former findings' inputs, that the old expression
    was wrong and the current one is right. *)
From Coq Require Import List QArith.
From PV Require Import Model.Dict Model.Terms Model.Sent.
Import ListNotations.
Local Open Scope nat_scope.

(** tau <= t ; LMI [[ <p0,p0>, t ], [ t, 1 ]]  -- leaf expressions: 0 = t, 1 = objective; one leaf point *)
Definition w_lmi : list (list edict) :=
  [[ [(KG 0 0, 1%Q)]; [(KF 0, 1%Q)] ]; [ [(KF 0, 1%Q)]; [(K1, 1%Q)] ]].
Definition w_sent : sent := [SC [(KF 1, 1%Q); (KF 0, (- (1))%Q)] Ineq; LMI w_lmi].

(** REGRESSION (F-C11a, fixed by 067bbb4).  The only LMI sent is the second PSDMatrix ever created (an unused one,
    a function-level one sent later, or the class LMI of a first solve came before): its class counter is 1.
    old: bar variable [counter + 1] = 2 does not exist -> the API refuses the coupling row;
    now: bar variable [nsdp - 1] = 1, the one just appended. *)
Definition old_bar_index (psd_counter : nat) : nat := S psd_counter.

(** REGRESSION (F-C11c, fixed by 88e1f86): 129 rows.  old: row index 128 does not fit int8; now it fits int32 and the
    task denotes the declared SDP. *)
Definition old_int8_ok (n : nat) : bool := Nat.ltb n 128.
Definition w_many : sent := repeat (SC [(KF 0, 1%Q); (K1, (- (1))%Q)] Ineq) 129.

(** REGRESSION (F-C11b, fixed by 54e4665): leaf expressions 0 = f0 (user), 1 = objective, 2 = created by
    class-constraint generation AFTER the objective (ConvexQG / RsiEb auto stationary point), so 4 variables.
    old: solve() read xx[-2] = variable 2 and prepare_heuristic zeroed c[Expression.counter - 1] = c[2], leaving tau in
    the heuristic objective; now both use the objective's own index and the heuristic task denotes the declared
    second problem. *)
Definition old_readout_index (nvar : nat) : nat := nvar - 2.
Definition w_leaf : sent := [SC [(KF 1, 1%Q); (KF 0, (- (1))%Q)] Ineq; SC [(KF 0, 1%Q); (KF 2, (- (1))%Q)] Ineq].

(** _recover_dual_values on a model with two LMIs of different sizes separated by scalar constraints
    (rows: 0 = SC, 1 = the 1x1 LMI, 2 = SC, 3..6 = the 2x2 LMI), y = (10,11,...,16), getbarsj(1) = [5],
    getbarsj(2) = [1;2;3] (lower triangle, column by column), getbarsj(0) = [7]:
    scalar duals y[0], y[2]; LMI duals -[[5]] and -[[1,2],[2,3]]; entry duals -[[11]] and -[[13,14],[15,16]]. *)
Definition w_two : sent :=
  [SC [(KF 1, 1%Q); (KF 0, (- (1))%Q)] Ineq; LMI [[ [(KF 0, 1%Q)] ]];
   SC [(KG 0 0, 1%Q); (K1, (- (1))%Q)] Ineq; LMI w_lmi].
