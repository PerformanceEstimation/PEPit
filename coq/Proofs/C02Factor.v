(** C02, "the inner products of the evaluated leaf points reproduce the (PSD projection of the) Gram matrix":
    the algebra of PEP._eval_points_and_function_values (pep.py),

        eig_val, eig_vec = eigh(G);  eig_val = maximum(eig_val, 0);
        points_values = qr((sqrt(eig_val) * eig_vec).T, mode='r')

    proved for EVERY size n and every matrix, from the SPECIFICATIONS of the two numpy routines (they stay
    trusted, and are what the harness measures on each solve):
      eigh : columns of V orthonormal  and  G = V diag(lam) V^T;
      qr   : (sqrt(lam+) V)^T = Q R with Q^T Q = I.
    With M = (sqrt(lam+) V)^T the matrix handed to qr and Gp := V diag(max(lam,0)) V^T:  R^T R = M^T M for any
    QR factorisation ([qr_gram], from (Q R)^T (Q R) = R^T R, [gram_of_product]) and M^T M = Gp ([scaled_gram]);
    Gp is symmetric with a non-negative quadratic form ([spectral_psd], by [qf_spectral]); Gp = G when no
    eigenvalue is negative; in general G - Gp = V diag(min(lam,0)) V^T ([projection_error]), entry-wise small
    when the negative eigenvalues are ([spectral_entry_bound]).
    Props/C02.v states these and the entry-wise bound of the error, and reads every expression at Gp. *)
From Coq Require Import Reals Lra Lia.
From PV Require Import Spec.KKT Proofs.PSDLemmas.
Local Open Scope R_scope.

Definition delta (a b : nat) : R := if Nat.eqb a b then 1 else 0.

(** Q^T Q = I for an m x n matrix given as a function (rows a < m, columns b < n) *)
Definition orthonormal_cols (m n : nat) (Qm : nat -> nat -> R) : Prop :=
  forall b c, (b < n)%nat -> (c < n)%nat -> sumn m (fun a => Qm a b * Qm a c) = delta b c.

(** what numpy.linalg.eigh promises for a symmetric G: G = V diag(lam) V^T, V^T V = I *)
Record eigh_spec (n : nat) (G : nat -> nat -> R) (lam : nat -> R) (V : nat -> nat -> R) : Prop := {
  eigh_orth : orthonormal_cols n n V;
  eigh_decomp : forall i j, (i < n)%nat -> (j < n)%nat -> G i j = sumn n (fun k => lam k * V i k * V j k)
}.

(** the matrix handed to qr: row k = sqrt(max(lam_k,0)) * (k-th eigenvector) *)
Definition scaled_T (lam : nat -> R) (V : nat -> nat -> R) : nat -> nat -> R :=
  fun k i => sqrt (Rmax (lam k) 0) * V i k.

(** what numpy.linalg.qr promises: M = Q R with orthonormal columns of Q (R is n x n) *)
Record qr_spec (n : nat) (M Qm Rm : nat -> nat -> R) : Prop := {
  qr_orth : orthonormal_cols n n Qm;
  qr_prod : forall a i, (a < n)%nat -> (i < n)%nat -> M a i = sumn n (fun b => Qm a b * Rm b i)
}.

Definition proj (n : nat) (lam : nat -> R) (V : nat -> nat -> R) : nat -> nat -> R :=
  fun i j => sumn n (fun k => Rmax (lam k) 0 * V i k * V j k).

Lemma sumn_delta_l n (g : nat -> R) b : (b < n)%nat -> sumn n (fun c => delta b c * g c) = g b.
Proof.
  induction n as [|n IH]; intro Hb; [lia|]. cbn [sumn]. unfold delta at 2.
  destruct (Nat.eqb_spec b n) as [->|Hne]; [|rewrite IH by lia; lra].
  rewrite sumn_all_zero; [lra|]. intros c Hc. unfold delta. destruct (Nat.eqb_spec n c); [lia|lra].
Qed.

Lemma delta_orthonormal n : orthonormal_cols n n delta.
Proof.
  intros b c Hb _. rewrite <- (sumn_delta_l n (fun a => delta a c) b Hb). apply sumn_ext. intros a _.
  unfold delta. rewrite (Nat.eqb_sym a b). reflexivity.
Qed.
Lemma qr_spec_id n M : qr_spec n M delta M.
Proof.
  split; [apply delta_orthonormal|]. intros a i Ha _. symmetry. exact (sumn_delta_l n (fun b => M b i) a Ha).
Qed.

(** (Q R)^T (Q R) = R^T R when Q^T Q = I *)
Lemma gram_of_product n (Qm Rm : nat -> nat -> R) :
  orthonormal_cols n n Qm ->
  forall i j,
    sumn n (fun a => sumn n (fun b => Qm a b * Rm b i) * sumn n (fun c => Qm a c * Rm c j))
    = sumn n (fun b => Rm b i * Rm b j).
Proof.
  intros Ho i j.
  (* expand the product of sums, exchange the order, collapse with Q^T Q = I *)
  transitivity (sumn n (fun b => sumn n (fun c => Rm b i * Rm c j * sumn n (fun a => Qm a b * Qm a c)))).
  - transitivity (sumn n (fun a => sumn n (fun b => sumn n (fun c => Rm b i * Rm c j * (Qm a b * Qm a c))))).
    + apply sumn_ext. intros a _. rewrite <- sumn_scal_r.
      apply sumn_ext. intros b _. rewrite <- sumn_scal. apply sumn_ext. intros c _. lra.
    + rewrite sumn_swap. apply sumn_ext. intros b _. rewrite sumn_swap. apply sumn_ext. intros c _.
      rewrite sumn_scal. reflexivity.
  - apply sumn_ext. intros b Hb.
    transitivity (sumn n (fun c => delta b c * (Rm b i * Rm c j))).
    + apply sumn_ext. intros c Hc. rewrite (Ho b c Hb Hc). lra.
    + rewrite (sumn_delta_l n (fun c => Rm b i * Rm c j) b Hb). reflexivity.
Qed.

(** the projection is the Gram matrix of the columns of the matrix handed to qr *)
Lemma scaled_gram n lam V i j :
  sumn n (fun k => scaled_T lam V k i * scaled_T lam V k j) = proj n lam V i j.
Proof.
  apply sumn_ext. intros k _. unfold scaled_T.
  rewrite <- (sqrt_sqrt (Rmax (lam k) 0)) at 3 by apply Rmax_r. lra.
Qed.

(** R^T R = M^T M for a QR factorisation M = Q R, whatever M *)
Theorem qr_gram n M Qm Rm : qr_spec n M Qm Rm ->
  forall i j, (i < n)%nat -> (j < n)%nat ->
    sumn n (fun b => Rm b i * Rm b j) = sumn n (fun a => M a i * M a j).
Proof.
  intros [Ho Hp] i j Hi Hj. rewrite <- (gram_of_product n Qm Rm Ho i j).
  apply sumn_ext. intros a Ha. rewrite <- (Hp a i Ha Hi), <- (Hp a j Ha Hj). reflexivity.
Qed.

(** the quadratic form of V diag(mu) V^T is the sum over k of mu_k (c . V_k)^2 *)
Lemma qf_spectral n (mu : nat -> R) (V : nat -> nat -> R) (c : nat -> R) :
  sumn n (fun i => sumn n (fun j => c i * sumn n (fun k => mu k * V i k * V j k) * c j))
  = sumn n (fun k => mu k * (sumn n (fun i => c i * V i k) * sumn n (fun i => c i * V i k))).
Proof.
  transitivity (sumn n (fun i => sumn n (fun k => sumn n (fun j => mu k * (c i * V i k) * (c j * V j k))))).
  - apply sumn_ext. intros i _.
    transitivity (sumn n (fun j => sumn n (fun k => mu k * (c i * V i k) * (c j * V j k)))); [|apply sumn_swap].
    apply sumn_ext. intros j _. rewrite <- sumn_scal, <- sumn_scal_r. apply sumn_ext. intros k _. lra.
  - rewrite sumn_swap. apply sumn_ext. intros k _. rewrite <- sumn_scal_r, <- sumn_scal.
    apply sumn_ext. intros i _. rewrite <- !sumn_scal. apply sumn_ext. intros j _. lra.
Qed.

(** V diag(mu) V^T is symmetric with a non-negative quadratic form when no mu_k is negative *)
Lemma spectral_psd n (mu : nat -> R) (V : nat -> nat -> R) :
  (forall k, (k < n)%nat -> 0 <= mu k) -> psd_qf n (fun i j => sumn n (fun k => mu k * V i k * V j k)).
Proof.
  intro Hmu. split.
  - intros i j _ _. apply sumn_ext. intros k _. lra.
  - intro c. rewrite qf_spectral, <- (sumn_zero n). apply sumn_le. intros k Hk.
    apply Rmult_le_pos; [apply Hmu, Hk|apply Rle_0_sqr].
Qed.

(** ... and entry-wise at most eps * sum_k |V_ik V_jk| when every |mu_k| is at most eps *)
Lemma spectral_entry_bound n (mu : nat -> R) (V : nat -> nat -> R) eps i j :
  (forall k, (k < n)%nat -> Rabs (mu k) <= eps) ->
  Rabs (sumn n (fun k => mu k * V i k * V j k)) <= eps * sumn n (fun k => Rabs (V i k * V j k)).
Proof.
  intro Hmu. rewrite <- sumn_scal. eapply Rle_trans; [apply sumn_abs|]. apply sumn_le. intros k Hk.
  rewrite Rmult_assoc, Rabs_mult. apply Rmult_le_compat_r; [apply Rabs_pos|apply Hmu, Hk].
Qed.

(** G - Gp = V diag(min(lam,0)) V^T *)
Theorem projection_error :
  forall n G lam V, eigh_spec n G lam V ->
    forall i j, (i < n)%nat -> (j < n)%nat ->
      G i j - proj n lam V i j = sumn n (fun k => Rmin (lam k) 0 * V i k * V j k).
Proof.
  intros n G lam V [_ Hd] i j Hi Hj. rewrite (Hd i j Hi Hj). unfold proj.
  rewrite <- sumn_minus. apply sumn_ext. intros k _.
  unfold Rmax, Rmin. destruct (Rle_dec (lam k) 0); lra.
Qed.

(** Non-vacuity (n = 2): G = diag(2, -1), eigen-pairs (2, e0), (-1, e1), Q = I, R = diag(sqrt 2, 0): both
    specifications hold, G has a negative eigenvalue, and R^T R = diag(2, 0) = the projection, not G. *)
Definition ex_G : nat -> nat -> R := fun i j => match i, j with 0%nat, 0%nat => 2 | 1%nat, 1%nat => -1 | _, _ => 0 end.
Definition ex_lam : nat -> R := fun k => match k with 0%nat => 2 | _ => -1 end.
