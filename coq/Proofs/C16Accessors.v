(** C16 — lemmas: an accessor called on an unsolved object raises ValueError (for every object, by
    induction over its decomposition); the tail of solve() returns None and assigns nothing when the
    solver reports no value; invalid option strings are rejected. *)
From Coq Require Import List String Bool.
From PV Require Import Model.Accessors.
Import ListNotations.
Open Scope string_scope.

Section PointInd.
  Variable P : point -> Prop.
  Hypothesis Hleaf : forall v, P (PLeaf v).
  Hypothesis Hlin : forall c ts, Forall P ts -> P (PLin c ts).
  Fixpoint point_ind' (p : point) : P p :=
    match p with
    | PLeaf v => Hleaf v
    | PLin c ts =>
        Hlin c ts ((fix go (ts : list point) : Forall P ts :=
                      match ts with
                      | [] => Forall_nil P
                      | t :: r => Forall_cons t (point_ind' t) (go r)
                      end) ts)
    end.
End PointInd.

Lemma exn_eqb_eq : forall a b, exn_eqb a b = true -> a = b.
Proof.
  intros a b H. destruct a, b; try discriminate H; try reflexivity.
  apply String.eqb_eq in H. now subst.
Qed.

Lemma existsb_find : forall (A : Type) (p : A -> bool) l,
    existsb p l = true -> exists b, find p l = Some b /\ p b = true.
Proof.
  intros A p. induction l as [|a l IH]; intro H; [discriminate|]. cbn in *.
  destruct (p a) eqn:E; [exists a; auto|]. cbn in H. auto.
Qed.

(** what an accessor may do: return a value only when nothing is pending, raise nothing but ValueError *)
Definition contract (r : result) (pending : bool) : Prop :=
  match r with Value _ => pending = false | Raise e => e = ValueError end.

(** the same for Point.eval, whose values are vectors *)
Definition pcontract (r : result) (pending : bool) : Prop :=
  match r with Value (VVec _) => pending = false | Value _ => False | Raise e => e = ValueError end.

Lemma contract_pending : forall r, contract r true -> r = Raise ValueError.
Proof. intros [v|e] H; [discriminate H|]. cbn in H. now subst. Qed.

Lemma pcontract_contract : forall r b, pcontract r b -> contract r b.
Proof. intros [[| |]|e] b H; try exact H; destruct H. Qed.

(** evaluating one thing after the other *)
Lemma contract_seq : forall r r' b b',
    contract r b -> contract r' b' -> contract (match r with Raise x => Raise x | Value _ => r' end) (b || b').
Proof. intros [v|e] r' b b' H H'; [cbn in H; subst b; exact H'|exact H]. Qed.

(** a loop that evaluates the elements of a list in turn and stops at the first exception *)
Lemma loop_contract : forall (A : Type) (ev : A -> result) (wf pend : A -> bool) (loop : list A -> result) v,
    loop [] = Value v ->
    (forall a l, loop (a :: l) = match ev a with Raise x => Raise x | Value _ => loop l end) ->
    (forall a, wf a = true -> contract (ev a) (pend a)) ->
    forall l, forallb wf l = true -> contract (loop l) (existsb pend l).
Proof.
  intros A ev wf pend loop v Hnil Hcons Hev. induction l as [|a l IH]; intro Hw; [rewrite Hnil; reflexivity|].
  cbn [forallb] in Hw. apply andb_true_iff in Hw. destruct Hw as [Ha Hl]. rewrite Hcons.
  exact (contract_seq _ _ _ _ (Hev a Ha) (IH Hl)).
Qed.

(** np.dot of two evaluated points *)
Lemma contract_dot : forall rp rq bp bq,
    pcontract rp bp -> pcontract rq bq ->
    contract (match rp with
              | Raise x => Raise x
              | Value (VVec a) =>
                  match rq with
                  | Raise x => Raise x
                  | Value (VVec b) => vec_dot a b
                  | Value _ => Raise TypeError
                  end
              | Value _ => Raise TypeError
              end) (bp || bq).
Proof.
  intros [[|a|]|e] rq bp bq Hp Hq; try contradiction; [|exact Hp]. cbn in Hp. subst bp.
  destruct rq as [[|b|]|e]; try contradiction; [|exact Hq]. cbn in Hq. subst bq.
  unfold vec_dot. destruct (Nat.eqb a b); reflexivity.
Qed.

Definition catches (m : matcher) (e : exn) : bool :=
  match m with
  | MClass c => exn_isa e c
  | MTuple cs => existsb (exn_isa e) cs
  | MBare => true
  | MInstance _ => false
  end.

Definition is_leafexpr (b : branch) : bool := match b with BLeafExpr _ => true | _ => false end.
Definition is_inner (b : branch) : bool := match b with BInner _ => true | _ => false end.
Definition is_const (b : branch) : bool := match b with BConst => true | _ => false end.

Definition point_shape_ok (sh : acc_shape) : bool :=
  match sh with
  | ALeafOrFold e bs =>
      exn_eqb e ValueError && existsb (fun b => match b with BAny | BSum true => true | _ => false end) bs
      && negb (existsb (fun b => match b with BSum false => true | _ => false end) bs)
  | _ => false
  end.
Definition expr_shape_ok (sh : acc_shape) : bool :=
  match sh with
  | ALeafOrFold e bs => exn_eqb e ValueError && existsb is_leafexpr bs && existsb is_inner bs && existsb is_const bs
  | _ => false
  end.
Definition try_shape_ok (sh : acc_shape) : bool :=
  match sh with ATryInner m r => exn_eqb r ValueError && catches m ValueError | _ => false end.
Definition dual_shape_ok (sh : acc_shape) : bool :=
  match sh with ADualField e => exn_eqb e ValueError | _ => false end.

Section Contract.
  Variable shp she shc shm : acc_shape.
  Variable dim : nat.
  Hypothesis Hp : point_shape_ok shp = true.
  Hypothesis He : expr_shape_ok she = true.

  Notation evp := (eval_point shp dim).
  Notation eve := (eval_expr shp she dim).

  (** an unsolved leaf raises ValueError, and the fold is never the re-binding one whose empty sum stays
      the scalar 0 *)
  Lemma point_shape : leaf_raise_of shp = ValueError /\ point_mode shp <> Rebind false.
  Proof.
    pose proof Hp as H. unfold point_mode. destruct shp as [e bs| |]; try discriminate H. cbn in H |- *.
    apply andb_true_iff in H. destruct H as [H Hn]. apply andb_true_iff in H. destruct H as [H _].
    split; [exact (exn_eqb_eq _ _ H)|].
    destruct (find (fun b => match b with BSum _ => true | _ => false end) bs) as [[| [|] | | | |]|] eqn:F;
      try discriminate. exfalso. apply find_some in F. destruct F as [Hin _].
    apply negb_true_iff, not_true_iff_false in Hn. apply Hn, existsb_exists. exists (BSum false). auto.
  Qed.

  Lemma pending_lin : forall ts, pending_p (PLin None ts) = existsb pending_p ts.
  Proof. induction ts as [|t r IH]; [reflexivity|]. cbn [existsb]. rewrite <- IH. reflexivity. Qed.

  (** the loop of Point.eval, for any accumulator *)
  Lemma fold_contract : forall ev mode ts,
      mode <> Rebind false -> Forall (fun t => pcontract (ev t) (pending_p t)) ts ->
      forall acc, pcontract (fold_points ev mode dim acc ts) (existsb pending_p ts).
  Proof.
    intros ev mode ts Hmode HF. induction HF as [|t rest Ht _ IH]; intro acc; cbn [fold_points existsb].
    - destruct acc; [reflexivity|]. destruct mode as [|[|]]; [reflexivity|reflexivity|contradiction].
    - destruct (ev t) as [[|n|]|e]; try contradiction; [|exact Ht]. cbn in Ht. rewrite Ht. cbn [orb].
      destruct acc as [a|]; [|apply IH]. destruct mode.
      + unfold vec_iadd. destruct (_ || _); [apply IH|reflexivity].
      + unfold vec_add. destruct (Nat.eqb n a); [apply IH|]. destruct (Nat.eqb a 1); [apply IH|].
        destruct (Nat.eqb n 1); [apply IH|reflexivity].
  Qed.

  (** Point.eval: values are vectors; the only exception is ValueError; an unsolved point raises it *)
  Lemma point_contract : forall p, pcontract (evp p) (pending_p p).
  Proof.
    induction p as [[n|]|[n|] ts IH] using point_ind'; [reflexivity|exact (proj1 point_shape)|reflexivity|].
    rewrite pending_lin. exact (fold_contract evp _ ts (proj2 point_shape) IH _).
  Qed.

  Lemma point_pending : forall p, pending_p p = true -> evp p = Raise ValueError.
  Proof. intros p H. apply contract_pending, pcontract_contract. rewrite <- H. apply point_contract. Qed.

  (** the branch table of Expression.eval *)
  Lemma expr_shape :
    leaf_raise_of she = ValueError
    /\ (exists a, find_branch she is_leafexpr = Some (BLeafExpr a))
    /\ (exists a, find_branch she is_inner = Some (BInner a))
    /\ (exists b, find_branch she is_const = Some b).
  Proof.
    pose proof He as H. unfold find_branch. destruct she as [e bs| |]; try discriminate H. cbn in H |- *.
    apply andb_true_iff in H. destruct H as [H H4]. apply andb_true_iff in H. destruct H as [H H3].
    apply andb_true_iff in H. destruct H as [H1 H2]. split; [exact (exn_eqb_eq _ _ H1)|].
    destruct (existsb_find _ _ _ H2) as [[] [F2 P2]]; try discriminate P2.
    destruct (existsb_find _ _ _ H3) as [[] [F3 P3]]; try discriminate P3.
    destruct (existsb_find _ _ _ H4) as [b4 [F4 _]]. split; [eauto|]. split; eauto.
  Qed.

  (** one well-formed key ([eval_term] spells the tests [is_leafexpr], [is_inner], [is_const] out: [change]
      names them again so that [expr_shape] rewrites) *)
  Lemma term_contract : forall t,
      wf_term t = true -> contract (eval_term shp she dim eve t) (pending_term t).
  Proof.
    destruct expr_shape as [Hl [[a1 F1] [[a2 F2] [b3 F3]]]].
    intros [[v|]|p q| |] Hwf; try discriminate Hwf; unfold eval_term.
    - change (find_branch she _) with (find_branch she is_leafexpr). rewrite F1, andb_false_r.
      destruct v; [reflexivity|exact Hl].
    - change (find_branch she _) with (find_branch she is_inner). rewrite F2.
      apply andb_true_iff in Hwf. destruct Hwf as [Lp Lq]. cbn [wf_term] in *. rewrite Lp, Lq, !andb_false_r.
      exact (contract_dot _ _ _ _ (point_contract p) (point_contract q)).
    - change (find_branch she _) with (find_branch she is_const). rewrite F3. reflexivity.
  Qed.

  (** Expression.eval on what the API builds: a value or ValueError; an unsolved expression raises it *)
  Lemma expr_contract : forall e, wf_e e = true -> contract (eve e) (pending_e e).
  Proof.
    intros [[|]|[|] ts]; [reflexivity|intros _; exact (proj1 expr_shape)|reflexivity|].
    exact (loop_contract _ _ wf_term pending_term (fun ts => eve (ELin false ts)) VNum eq_refl (fun _ _ => eq_refl)
                         term_contract ts).
  Qed.

  Lemma expr_pending : forall e, wf_e e = true -> pending_e e = true -> eve e = Raise ValueError.
  Proof. intros e Hw H. apply contract_pending. rewrite <- H. exact (expr_contract e Hw). Qed.

  (** an expression that mentions no leaf evaluates to a number in every state (its constant) *)
  Lemma const_only_value : forall e, const_only e = true -> eve e = Value VNum.
  Proof.
    destruct expr_shape as [_ [_ [_ [b3 F3]]]].
    intros [v|[|] ts] Hc; [discriminate|reflexivity|].
    cbn [const_only] in Hc. induction ts as [|[| | |] rest IH]; try discriminate Hc; [reflexivity|].
    change (eve (ELin false (TConst :: rest)))
      with (match eval_term shp she dim eve TConst with Raise x => Raise x | Value _ => eve (ELin false rest) end).
    unfold eval_term. change (find_branch she _) with (find_branch she is_const). rewrite F3. exact (IH Hc).
  Qed.

  (** PSDMatrix.eval: row-major list comprehension *)
  Lemma rows_contract : forall rows,
      forallb (forallb wf_e) rows = true ->
      contract (eval_rows shp she dim rows) (existsb (existsb pending_e) rows).
  Proof.
    apply (loop_contract _ _ (forallb wf_e) (existsb pending_e) (eval_rows shp she dim) VMat eq_refl (fun _ _ => eq_refl)).
    exact (loop_contract _ _ wf_e pending_e (eval_row shp she dim) VMat eq_refl (fun _ _ => eq_refl) expr_contract).
  Qed.

  (** Constraint.eval / PSDMatrix.eval: the handler turns the ValueError of the components into [reraise] *)
  Lemma try_shape_caught : forall sh,
      try_shape_ok sh = true ->
      match sh with ATryInner m r => run_try (Raise ValueError) m r | _ => Raise (OtherExn "shape") end
      = Raise ValueError.
  Proof.
    intros [| m r |] H; try discriminate H. cbn in H. apply andb_true_iff in H. destruct H as [Hr Hm].
    apply exn_eqb_eq in Hr. subst r. destruct m; cbn in *; try rewrite Hm; try reflexivity. discriminate.
  Qed.

  Lemma constraint_pending : forall c,
      try_shape_ok shc = true -> c_cached c = false -> wf_e (c_expr c) = true -> pending_e (c_expr c) = true ->
      eval_constraint shp she shc dim c = Raise ValueError.
  Proof.
    intros c Hs Hc Hw Hpd. unfold eval_constraint. rewrite Hc, (expr_pending _ Hw Hpd). exact (try_shape_caught shc Hs).
  Qed.

  (** the defect repaired by 8173fdc, as the model sees it: an INSTANCE as matcher turns the documented
      ValueError into a TypeError *)
  Lemma constraint_instance_matcher : forall c k r,
      c_cached c = false -> wf_e (c_expr c) = true -> pending_e (c_expr c) = true ->
      eval_constraint shp she (ATryInner (MInstance k) r) dim c = Raise TypeError.
  Proof.
    intros c k r Hc Hw Hpd. unfold eval_constraint. now rewrite Hc, (expr_pending _ Hw Hpd).
  Qed.

  Lemma psd_pending : forall m,
      try_shape_ok shm = true -> m_cached m = false -> forallb (forallb wf_e) (m_entries m) = true ->
      existsb (existsb pending_e) (m_entries m) = true ->
      eval_psd shp she shm dim m = Raise ValueError.
  Proof.
    intros m Hs Hc Hw Hpd. unfold eval_psd. rewrite Hc. pose proof (rows_contract _ Hw) as H. rewrite Hpd in H.
    rewrite (contract_pending _ H). exact (try_shape_caught shm Hs).
  Qed.

  Lemma dual_unsolved : forall sh v, dual_shape_ok sh = true -> eval_dual_field sh false v = Raise ValueError.
  Proof.
    intros sh v H. destruct sh; try discriminate. cbn in *. now apply exn_eqb_eq in H; subst.
  Qed.
End Contract.

Lemma run_plan_guard : forall plan, guard_first plan = true ->
                                    run_plan plan None = {| returned := Some None ; writes := [] |}.
Proof.
  intros plan H. destruct plan as [|st rest]; [discriminate|]. destruct st; try discriminate.
  cbn [guard_first] in H. cbn [run_plan].
  induction rest as [|s r IH]; [discriminate|]. destruct s; try discriminate.
  - cbn [run_plan]. apply IH. exact H.
  - reflexivity.
Qed.

(** values, duals and LMI entry duals of DSL objects are assigned by these functions only; each of them is called
    only from _solve_with_wrapper (after the guard, by the plan) or from Wrapper.assign_dual_values, which is itself
    one of them: nothing else in PEPit can give an object a number *)
Definition writer_call_ok (c : string * string) : bool :=
  String.eqb (snd c) "pep.py:_solve_with_wrapper" || String.eqb (snd c) "wrapper.py:assign_dual_values".

Lemma check_option_rejects : forall c v,
    existsb (String.eqb v) (accepted c) = false -> existsb (fun p => String.prefix p v) (prefixes c) = false ->
    check_option c v = Raise (rejected_with c).
Proof. intros c v H1 H2. unfold check_option. now rewrite H1, H2. Qed.

(** option dispatches of the primitive steps (generated): the else branch raises ValueError and no `return`
    precedes the dispatch, so an invalid literal cannot be accepted on any path *)
Definition step_dispatch_ok (d : string * string * option_check) : bool :=
  exn_eqb (rejected_with (snd d)) ValueError && checked_before_solve (snd d).
