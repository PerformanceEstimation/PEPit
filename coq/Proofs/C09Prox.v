(** C09, where the operations of a world come from (C08's theorems about the real steps), each with a worked
    example: proximal operators, linear minimisation oracles, inexact gradients, exact line searches.

    Spec/World.v only SPECIFIES the proximal operator of a function of the world ([prox_genuine]: the proximal
    point, with (x0 - prox)/gamma and the value there, is a genuine sample).  For a convex function F this is
    C08's theorem [prox_optimality] (Proofs/C08Real.v; Props/C08.v [C08_proximal_step_real]): if
    [res gamma x0] minimises gamma F + 1/2 |. - x0|^2 ([is_prox] of Spec/StepsSpec.v) then (x0 - res)/gamma is a
    subgradient of F at it.  Hence [fn_world] / [pfn_world] can be given the proximal operator of their function
    whenever it has one. *)
From Coq Require Import List Reals Qreals Lra.
From PV Require Import Base.IPS Model.Dict Model.Terms Model.Method Model.ClassGen Spec.Sem Spec.World Spec.Classes.
From PV Require Import Proofs.MethodLemmas Proofs.C04Lemmas Proofs.C03Core Proofs.C09Compose Proofs.C09ComposeAll.
From PV Require Spec.StepsSpec Proofs.C08Real.
From PV Require Import Gen.Classes.
Import ListNotations.
Local Open Scope R_scope.

(** a convex function with a proximal operator gives a world with [has_prox = true] *)
Theorem is_prox_spec {E : ips} (F : @fn E) (res : R -> E -> E) :
  StepsSpec.convex_fn F ->
  (forall gamma x0, 0 < gamma -> StepsSpec.is_prox F gamma x0 (res gamma x0)) ->
  prox_spec (genuine_sub F) (val F) true res.
Proof.
  intros Hc Hp _ gamma x0 Hg. split; [|reflexivity].
  exact (C08Real.prox_optimality F gamma x0 (res gamma x0) Hc Hg (Hp gamma x0 Hg)).
Qed.

(** ** Example: the proximal point method on f(x) = x^2 (real line); prox_{gamma f}(x0) = x0 / (1 + 2 gamma) *)
Definition sq_F : @fn R1 := @mkFn R1 (fun _ => True) (fun x : R => x * x).
Definition sq_sel : R1 -> R1 := fun x : R => 2 * x.
Definition sq_res : R -> R1 -> R1 := fun gamma (x0 : R) => x0 / (1 + 2 * gamma).

Lemma sq_subgrad (x : R1) : subgrad sq_F x (sq_sel x).
Proof.
  split; [exact I|]. intros y _. unfold sq_F, sq_sel, vsub, vneg. cbn. change R in x, y.
  pose proof (Rle_0_sqr (y - x)) as S. unfold Rsqr in S. lra.
Qed.
Lemma sq_min : subgrad sq_F (0 : R1) vzero.
Proof.
  split; [exact I|]. intros y _. unfold sq_F, vsub, vneg. cbn. change R in y.
  pose proof (Rle_0_sqr y) as S. unfold Rsqr in S. lra.
Qed.
Lemma sq_ext : fn_respects_veq sq_F.
Proof.
  intros x x' Hv. split; [auto|]. pose proof (Hv (1 : R1)) as H. cbn in H. unfold sq_F. cbn. change R in x, x'.
  assert (x = x') by lra. subst. reflexivity.
Qed.
Lemma sq_convex : StepsSpec.convex_fn sq_F.
Proof.
  intros x y t _ _ Ht. split; [exact I|]. unfold sq_F, seg, vsub, vneg. cbn. change R in x, y.
  pose proof (Rle_0_sqr (y - x)) as S. unfold Rsqr in S.
  assert (Hid : (1 - t) * (x * x) + t * (y * y) - (x + t * (y + -1 * x)) * (x + t * (y + -1 * x))
                = t * (1 - t) * ((y - x) * (y - x))) by ring.
  assert (0 <= t * (1 - t) * ((y - x) * (y - x))) by (apply Rmult_le_pos; [apply Rmult_le_pos; lra|exact S]).
  lra.
Qed.
Lemma sq_is_prox gamma (x0 : R1) : 0 < gamma -> StepsSpec.is_prox sq_F gamma x0 (sq_res gamma x0).
Proof.
  intros Hg. split; [exact I|]. intros y _. unfold sq_F, sq_res, nrm2, vsub, vneg. cbn. change R in x0, y.
  set (d := 1 + 2 * gamma). assert (Hd : 0 < d) by (unfold d; lra).
  (* gamma y^2 + 1/2 (y - x0)^2 - [gamma p^2 + 1/2 (p - x0)^2] = d/2 (y - p)^2 with p = x0/d *)
  assert (Hid : gamma * (y * y) + 1 / 2 * ((y + -1 * x0) * (y + -1 * x0))
                - (gamma * (x0 / d * (x0 / d)) + 1 / 2 * ((x0 / d + -1 * x0) * (x0 / d + -1 * x0)))
                = d / 2 * ((y - x0 / d) * (y - x0 / d))).
  { unfold d. field. lra. }
  pose proof (Rle_0_sqr (y - x0 / d)) as S. unfold Rsqr in S.
  assert (0 <= d / 2 * ((y - x0 / d) * (y - x0 / d))) by (apply Rmult_le_pos; lra).
  lra.
Qed.

Definition sq_world : @world R1 :=
  fn_world sq_F sq_sel sq_subgrad (0 : R1) sq_min sq_ext true sq_res (is_prox_spec sq_F sq_res sq_convex sq_is_prox).

(** x0 = Point(); x1, g1, f1 = proximal_step(x0, f, 1/2); x2, g2, f2 = proximal_step(x1, f, 1) *)
Definition prox_point_program : list mop :=
  [MFresh; MProx 0 [(0%nat, 1%Q)] (1 # 2)%Q; MProx 0 [(0%nat, 1%Q); (1%nat, (-1 # 2)%Q)] 1%Q].

Example proximal_point_example (vs : (nat -> R1) * (nat -> R)) :
  mwf prox_point_program minit = true /\ steps_ok sq_world prox_point_program = true /\
  Forall op_nodup prox_point_program /\
  List.length (m_samples (mrun prox_point_program minit)) = 2%nat /\
  List.length (g_cons (run_plan plan_ConvexFunction (fstate_of (fun _ => 0%Q) (mrun prox_point_program minit) 0))) = 2%nat /\
  (* the second recorded point is prox_1 (prox_{1/2} (x0)) = x0 / 6 whatever the starting point x0 = fst vs 0 *)
  (forall x g fx, nth_error (m_samples (mrun prox_point_program minit)) 1 = Some (0%nat, (x, g, fx)) ->
     evalP (fst (wrun sq_world prox_point_program minit vs)) x = fst vs 0%nat / 6) /\
  all_satisfied (fst (wrun sq_world prox_point_program minit vs)) (snd (wrun sq_world prox_point_program minit vs))
    (run_plan plan_ConvexFunction (fstate_of (fun _ => 0%Q) (mrun prox_point_program minit) 0)).
Proof.
  assert (Hwf : mwf prox_point_program minit = true) by (vm_compute; reflexivity).
  assert (Hpx : steps_ok sq_world prox_point_program = true) by reflexivity.
  assert (Hnd : Forall op_nodup prox_point_program).
  { repeat constructor; cbn; try tauto; intros [H|[]]; discriminate. }
  split; [exact Hwf|]. split; [exact Hpx|]. split; [exact Hnd|].
  split; [vm_compute; reflexivity|]. split; [vm_compute; reflexivity|]. split.
  - intros x g fx H. vm_compute in H. injection H as <- _ _.
    cbn. unfold upd, sq_res. cbn. unfold Q2R. cbn. field.
  - exact (run_satisfies_convex_any sq_world sq_F 0 prox_point_program vs (fun t H => H) Hwf Hnd Hpx).
Qed.

(** * Linear minimisation oracles (Frank-Wolfe-type methods)

    Spec/World.v only SPECIFIES the linear minimisation oracle ([lmo_genuine]).  For the indicator of a set this is
    C08's theorem [linopt_iff_normal] (Props/C08.v [C08_linear_optimization_step_real]): x minimises <d, .> over
    the set iff -d is in the normal cone of the set at x. *)
Theorem is_linopt_spec {E : ips} (F : @fn E) (lm : E -> E) :
  (forall z, dom F z -> val F z = 0) ->
  (forall d, StepsSpec.is_linopt F d (lm d)) ->
  lmo_spec (genuine_sub F) (val F) true lm.
Proof.
  intros Hind Hl _ d. split; [|reflexivity].
  exact (proj1 (C08Real.linopt_iff_normal F d (lm d) Hind) (Hl d)).
Qed.

Lemma no_prox_spec {E : ips} (G : E * E * R -> Prop) (valf : E -> R) (res : R -> E -> E) : prox_spec G valf false res.
Proof. intros H. discriminate H. Qed.

(** ** Example: one Frank-Wolfe step on the indicator of [-1, 1] (real line) *)
Definition box_F : @fn R1 := @mkFn R1 (fun x : R => -1 <= x <= 1) (fun _ => 0).
Definition box_lm : R1 -> R1 := fun d : R => if Rle_dec 0 d then -1 else 1.

Lemma box_sel (x : R1) : dom box_F x -> subgrad box_F x ((fun _ => 0 : R1) x).
Proof. intros Hd. split; [exact Hd|]. intros y _. cbn. lra. Qed.
Lemma box_min : subgrad box_F (0 : R1) vzero.
Proof. split; [cbn; lra|]. intros y _. cbn. lra. Qed.
Lemma box_ext : fn_respects_veq box_F.
Proof.
  intros x x' Hv. pose proof (Hv (1 : R1)) as H. cbn in H. change R in x, x'. assert (x = x') by lra. subst.
  split; [auto|reflexivity].
Qed.
Lemma box_is_linopt (d : R1) : StepsSpec.is_linopt box_F d (box_lm d).
Proof.
  unfold StepsSpec.is_linopt, box_lm. change R in d. destruct (Rle_dec 0 d) as [Hd|Hd]; cbn; (split; [lra|]);
    intros y Hy; change R in y; nra.
Qed.
Lemma box_member : indicator_member (Some 2) box_F.
Proof.
  split; [intros x _; reflexivity|]. intros x y Hx Hy. cbn in *. change R in x, y. unfold nrm2, vsub, vneg. cbn. nra.
Qed.

Definition box_world : @world R1 :=
  pfn_world box_F (fun _ => 0 : R1) box_sel (0 : R1) box_min box_ext
            false (fun _ x => x) (no_prox_spec _ _ _)
            true box_lm (is_linopt_spec box_F box_lm (fun _ _ => eq_refl) box_is_linopt).

(** x0 = Point(); d = Point(); s, gs, fs = linear_optimization_step(d, ind); x1 = (x0 + s)/2; ind.oracle(x1) *)
Definition frank_wolfe_program : list mop :=
  [MFresh; MFresh; MLinOpt 0 [(1%nat, 1%Q)]; MEval 0 [(0%nat, (1 # 2)%Q); (2%nat, (1 # 2)%Q)]].

Example frank_wolfe_example (vs : (nat -> R1) * (nat -> R)) :
  -1 <= fst vs 0%nat <= 1 ->          (* the starting point is in the set; the direction fst vs 1 is arbitrary *)
  mwf frank_wolfe_program minit = true /\ steps_ok box_world frank_wolfe_program = true /\
  Forall op_nodup frank_wolfe_program /\
  List.length (m_samples (mrun frank_wolfe_program minit)) = 2%nat /\
  (* the leaf created by the step is valued at the minimiser of <d, .> over [-1, 1] *)
  fst (wrun box_world frank_wolfe_program minit vs) 2%nat = box_lm (Q2R 1 * fst vs 1%nat + 0) /\
  List.length (g_cons (run_plan plan_ConvexIndicatorFunction
     (set_inf (inf_flag 3 (Some 2)) (fstate_of (par_at 3 2%Q) (mrun frank_wolfe_program minit) 0)))) = 6%nat /\
  all_satisfied (fst (wrun box_world frank_wolfe_program minit vs)) (snd (wrun box_world frank_wolfe_program minit vs))
    (run_plan plan_ConvexIndicatorFunction
       (set_inf (inf_flag 3 (Some 2)) (fstate_of (par_at 3 2%Q) (mrun frank_wolfe_program minit) 0))).
Proof.
  intros Hx0.
  assert (Hwf : mwf frank_wolfe_program minit = true) by (vm_compute; reflexivity).
  assert (Hpx : steps_ok box_world frank_wolfe_program = true) by reflexivity.
  assert (Hnd : Forall op_nodup frank_wolfe_program).
  { repeat constructor; cbn; try tauto; intros [H|[]]; discriminate. }
  split; [exact Hwf|]. split; [exact Hpx|]. split; [exact Hnd|].
  split; [vm_compute; reflexivity|]. split; [reflexivity|]. split; [vm_compute; reflexivity|].
  apply (run_satisfies_convex_indicator box_F (fun _ => 0 : R1) box_sel (0 : R1) box_min box_ext
           false (fun _ x => x) (no_prox_spec _ _ _)
           true box_lm (is_linopt_spec box_F box_lm (fun _ _ => eq_refl) box_is_linopt)
           frank_wolfe_program vs Hwf Hnd Hpx (Some 2) 2%Q box_member).
  - intros d Hd. injection Hd as <-. unfold Q2R. cbn. lra.
  - intros sm Hsm. vm_compute in Hsm. destruct Hsm as [<-|[<-|[]]]; cbn; unfold upd, box_lm; cbn;
      match goal with |- context [Rle_dec ?a ?b] => destruct (Rle_dec a b) end; unfold Q2R; cbn;
      destruct Hx0 as [Ha Hb]; change (V R1) with R in *; cbn in Ha, Hb; lra.
Qed.

(** * Inexact gradient methods

    [MInexact f p relative eps] models inexact_gradient_step: the oracle call at p, the fresh leaf dx0 and the
    accuracy constraint added to f.  Example: f(x) = x^2 with the inexact oracle d = 2x + eps (absolute) /
    d = (1 + eps) 2x (relative), both exactly at the accuracy. *)
Definition sq_D : @dfn R1 := @mkD R1 (fun x : R => x * x) (fun x : R => 2 * x).
Definition sq_ie : bool -> R -> R1 -> R1 := fun rel eps (x : R) => if rel then (1 + eps) * (2 * x) else 2 * x + eps.

Lemma sq_ie_spec : inexact_spec (dgrad sq_D) sq_ie.
Proof.
  intros rel eps x. change R in x. unfold sq_ie, sq_D, nrm2, vsub, vneg. destruct rel; cbn; right; ring.
Qed.
Lemma sq_D_stat : veq (dgrad sq_D (0 : R1)) vzero.
Proof. intro w. cbn. lra. Qed.
Lemma sq_D_ext : respects_veq sq_D.
Proof.
  intros x x' Hv. pose proof (Hv (1 : R1)) as H. cbn in H. change R in x, x'. assert (x = x') by lra. subst.
  split; [apply veq_refl|reflexivity].
Qed.

Lemma no_ls_spec {E : ips} (g : E -> E) (ls : E -> list E -> E) : ls_spec g false ls.
Proof. intros H. discriminate H. Qed.

Definition sq_inexact_world : @world R1 :=
  dfn_world sq_D (0 : R1) sq_D_stat sq_D_ext false (fun _ x => x) (no_prox_spec _ _ _) sq_ie sq_ie_spec
            false (fun x0 _ => x0) (no_ls_spec _ _).

(** x0 = Point(); x1, d0, f0 = inexact_gradient_step(x0, f, gamma, 1/2, 'absolute') *)
Definition inexact_program : list mop := [MFresh; MInexact 0 [(0%nat, 1%Q)] false (1 # 2)%Q].

Example inexact_gradient_example (vs : (nat -> R1) * (nat -> R)) :
  mwf inexact_program minit = true /\ steps_ok sq_inexact_world inexact_program = true /\
  List.length (m_samples (mrun inexact_program minit)) = 1%nat /\
  m_np (mrun inexact_program minit) = 3%nat /\
  (* the direction leaf is valued by the inexact oracle at the value of x0 *)
  fst (wrun sq_inexact_world inexact_program minit vs) 2%nat = sq_ie false (Q2R (1 # 2)) (Q2R 1 * fst vs 0%nat + 0) /\
  (* one constraint was added to the function, and it holds at the values of the run *)
  (exists c, m_cons (mrun inexact_program minit) = [(0%nat, c)] /\
             holds (fst (wrun sq_inexact_world inexact_program minit vs)) (snd (wrun sq_inexact_world inexact_program minit vs)) c).
Proof.
  split; [vm_compute; reflexivity|]. split; [reflexivity|]. split; [vm_compute; reflexivity|].
  split; [vm_compute; reflexivity|]. split; [reflexivity|].
  eexists. split; [reflexivity|].
  apply (world_constraints_hold sq_inexact_world inexact_program vs 0%nat);
    [vm_compute; reflexivity|reflexivity|left; reflexivity].
Qed.

(** * Exact line searches

    [MLineSearch f x0 dirs] models exact_linesearch_step: the fresh leaf x, the oracle call at it and the
    orthogonality constraints added to f.  Spec/World.v only SPECIFIES the line search ([ls_orth]); for a
    differentiable function it is C08's theorem [linesearch_orthogonality] (Props/C08.v
    [C08_exact_linesearch_step_real]): a minimiser of F over x0 + span(ds) has its gradient orthogonal to
    x - x0 and to every direction. *)
Theorem is_linesearch_spec {E : ips} (F : @dfn E) (ls : E -> list E -> E) :
  StepsSpec.gateaux F -> StepsSpec.dfn_ext F ->
  (forall x0 ds, StepsSpec.is_linesearch F x0 ds (ls x0 ds)) ->
  ls_spec (dgrad F) true ls.
Proof.
  intros Hg He Hl _ x0 ds. cbn zeta.
  destruct (C08Real.linesearch_orthogonality F x0 ds (ls x0 ds) Hg He (Hl x0 ds)) as [Hd H0]. split.
  - rewrite inner_sym. exact H0.
  - intros d Hin. rewrite inner_sym. exact (Hd d Hin).
Qed.

(** Example: gradient descent with exact line search on f(x) = x^2: along any non-zero direction the exact
    minimiser is 0 *)
Definition sq_ls : R1 -> list R1 -> R1 := fun _ _ => (0 : R).
Lemma sq_ls_spec : ls_spec (dgrad sq_D) true sq_ls.
Proof. intros _ x0 ds. change R in x0. cbn. unfold sq_ls. split; [ring|]. intros d _. change R in d. ring. Qed.

Definition sq_ls_world : @world R1 :=
  dfn_world sq_D (0 : R1) sq_D_stat sq_D_ext false (fun _ x => x) (no_prox_spec _ _ _)
            (fun _ _ (x : R) => 2 * x) (exact_inexact_bound (fun _ (x : R1) => (dgrad sq_D x, dval sq_D x)) 0%nat)
            true sq_ls sq_ls_spec.

(** x0 = Point(); g0 = f.gradient(x0); x1, g1, f1 = exact_linesearch_step(x0, f, [g0]) *)
Definition linesearch_program : list mop :=
  [MFresh; MEval 0 [(0%nat, 1%Q)]; MLineSearch 0 [(0%nat, 1%Q)] [[(1%nat, 1%Q)]]].

Example linesearch_example (vs : (nat -> R1) * (nat -> R)) :
  mwf linesearch_program minit = true /\ steps_ok sq_ls_world linesearch_program = true /\
  Forall op_nodup linesearch_program /\
  List.length (m_samples (mrun linesearch_program minit)) = 2%nat /\
  List.length (m_cons (mrun linesearch_program minit)) = 2%nat /\
  (forall f c, In (f, c) (m_cons (mrun linesearch_program minit)) ->
     holds (fst (wrun sq_ls_world linesearch_program minit vs)) (snd (wrun sq_ls_world linesearch_program minit vs)) c) /\
  forall (L mu : R) (qL qmu : Q), 0 <= mu < L -> smooth_strongly_convex_member mu L sq_D -> Q2R qL = L -> Q2R qmu = mu ->
    all_satisfied (fst (wrun sq_ls_world linesearch_program minit vs)) (snd (wrun sq_ls_world linesearch_program minit vs))
      (run_plan plan_SmoothStronglyConvexFunction
         (fstate_of (fun p => match p with 0%nat => qL | 1%nat => qmu | _ => 0%Q end) (mrun linesearch_program minit) 0)).
Proof.
  assert (Hwf : mwf linesearch_program minit = true) by (vm_compute; reflexivity).
  assert (Hpx : steps_ok sq_ls_world linesearch_program = true) by reflexivity.
  assert (Hnd : Forall op_nodup linesearch_program).
  { repeat constructor; cbn; try tauto; intros [H|[]]; discriminate. }
  split; [exact Hwf|]. split; [exact Hpx|]. split; [exact Hnd|].
  split; [vm_compute; reflexivity|]. split; [vm_compute; reflexivity|]. split.
  - intros f c Hin. exact (world_constraints_hold sq_ls_world linesearch_program vs f c Hwf Hpx Hin).
  - intros L mu qL qmu Hr HF HL Hmu.
    exact (run_satisfies_smooth_strongly_convex_any sq_ls_world mu L qmu qL sq_D 0 linesearch_program vs
             (fun t H => H) Hr HF HL Hmu Hwf Hnd Hpx).
Qed.
