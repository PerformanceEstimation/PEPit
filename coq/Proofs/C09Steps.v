(** C09, the epsilon-subgradient, Bregman gradient, Bregman proximal and inexact proximal steps
    (epsilon_subgradient_step, bregman_gradient_step, bregman_proximal_step, inexact_proximal_step).

    Model/Method.v records what the steps allocate and add ([MEpsSub], [MBregGrad], [MBregProx], [MInexactProx]);
    Spec/World.v SPECIFIES the real operations ([epssub_spec], [mirror_genuine], [bprox_genuine], [iprox_spec]);
    Proofs/MethodLemmas.v proves for every program that the recorded samples are genuine and the recorded
    constraints hold at the values of the run.  Here:
    - [with_steps]: any world can be given an epsilon-subgradient oracle, mirror maps, Bregman proximal operators
      and an approximate proximal operator that meet the specifications (everything else is kept), so the
      composition with C03 is available for programs with these steps ([run_satisfies_convex_any],
      [run_satisfies_smooth_strongly_convex_any] of Proofs/C09Compose.v: any world, any function index whose
      genuine samples are those of a real member);
    - where the specifications come from (C08's theorems about the real steps, Proofs/C08Real.v):
      [epssub_step_real] (the recorded values make g0 an eps-subgradient at x0, first principles),
      [is_epssub_spec], [is_mirror_spec], [is_bprox_spec], [iprox_spec_is_pd_gap];
    - what the recorded inexact-proximal constraint means ([iprox_constraint_meaning]);
    - two worked examples on f = h = x^2. *)
From Coq Require Import List Reals Qreals Lra Lia.
From PV Require Import Base.IPS Model.Dict Model.Terms Model.Method Model.MethodDump Model.ClassGen
  Spec.Sem Spec.World Spec.Classes Proofs.DictLemmas Proofs.SemLemmas Proofs.MethodLemmas Proofs.C04Lemmas
  Proofs.C03Core Proofs.C03Assembly Proofs.C09Compose Proofs.C09ComposeAll Proofs.C09Prox.
From PV Require Spec.StepsSpec Proofs.C08Lemmas Proofs.C08Records Proofs.C08Real.
From PV Require Import Gen.Classes.
Import ListNotations.
Local Open Scope R_scope.

Section Steps.
  Context {E : ips}.
  Variable W : @world E.

  (** the four specifications of Spec/World.v, as predicates on candidate operations of the world W *)
  Definition epssub_ok (es : nat -> E -> (E * R) * (E * R)) : Prop :=
    forall f x0,
      Gen W f (fst (snd (es f x0)), fst (fst (es f x0)), snd (snd (es f x0))) /\
      snd (orc W f x0) + (inner (fst (fst (es f x0))) (fst (snd (es f x0))) - snd (snd (es f x0)))
        - inner (fst (fst (es f x0))) x0 <= snd (fst (es f x0)).
  Definition mirror_ok (hm : nat -> bool) (mir : nat -> E -> E * R) : Prop :=
    forall h s, hm h = true -> Gen W h (fst (mir h s), s, snd (mir h s)).
  Definition bprox_ok (hb : nat -> nat -> bool) (bp : nat -> nat -> R -> E -> (E * E) * (R * R)) : Prop :=
    forall h f gamma s0, hb h f = true -> 0 < gamma ->
      Gen W f (fst (fst (bp h f gamma s0)), snd (fst (bp h f gamma s0)), fst (snd (bp h f gamma s0))) /\
      Gen W h (fst (fst (bp h f gamma s0)), vsub s0 (vscal gamma (snd (fst (bp h f gamma s0)))), snd (snd (bp h f gamma s0))).

  Definition iprox_ok (ip : nat -> ipopt -> R -> E -> ((E * E * R) * (E * E * R)) * R) : Prop :=
    forall f opt gamma x0, 0 < gamma ->
      let r := ip f opt gamma x0 in
      let w := fst (fst (fst (fst r))) in let v := snd (fst (fst (fst r))) in let fw := snd (fst (fst r)) in
      let x := fst (fst (snd (fst r))) in let gx := snd (fst (snd (fst r))) in let fx := snd (snd (fst r)) in
      Gen W f (x, gx, fx) /\
      match opt with
      | PDgapI => Gen W f (w, v, fw) /\
                  nrm2 (vadd (vsub x x0) (vscal gamma v)) / 2 + gamma * (fx - fw - inner v (vsub x w)) <= snd r
      | PDgapII => nrm2 (vadd (vsub x x0) (vscal gamma gx)) / 2 <= snd r
      | PDgapIII => Gen W f (w, vscal (1 / gamma) (vsub x0 x), fw) /\
                    gamma * (fx - fw - inner (vscal (1 / gamma) (vsub x0 x)) (vsub x w)) <= snd r
      end.

  (** the world W with these operations (oracles, genuineness, stationary points, proximal operators, linear
      minimisation oracles, inexact oracles, line searches: unchanged) *)
  Definition with_steps es (Hes : epssub_ok es) hm mir (Hm : mirror_ok hm mir) hb bp (Hb : bprox_ok hb bp)
      ip (Hip : iprox_ok ip) : @world E :=
    mkW (orc W) (Gen W) (stat W) (orc_genuine W) (stat_genuine W) (Gen_veq W) (Gen_xveq W)
        (has_prox W) (prox W) (proxval W) (prox_genuine W) (has_lmo W) (lmo W) (lmo_genuine W)
        (inexact W) (inexact_bound W) (has_ls W) (linesearch W) (ls_orth W)
        es Hes hm mir Hm hb bp Hb ip Hip.

  (** the operations of W itself meet the specifications (they are record fields of W) *)
  Lemma world_epssub_ok : epssub_ok (epssub W).
  Proof. intros f x0. exact (epssub_spec W f x0). Qed.
  Lemma world_mirror_ok : mirror_ok (has_mirror W) (mirror W).
  Proof. intros h s. exact (mirror_genuine W h s). Qed.
  Lemma world_bprox_ok : bprox_ok (has_bprox W) (bprox W).
  Proof. intros h f gamma s0. exact (bprox_genuine W h f gamma s0). Qed.
  Lemma world_iprox_ok : iprox_ok (iprox W).
  Proof. intros f opt gamma x0. exact (iprox_spec W f opt gamma x0). Qed.

  (** ** epsilon_subgradient_step: the values the run gives the leaves make g0 an eps-subgradient at x0, in the
      first-principles sense of Spec/StepsSpec.v (for all z: F z >= F x0 + <g0, z - x0> - eps), whenever the genuine
      samples of the function are subgradient samples of F (C08's theorem eps_subgrad_from_record) *)
  Theorem epssub_step_real (F : @fn E) (f : nat) (p : pdict) (s : mstate) (vs : (nat -> E) * (nat -> R)) :
    (forall t, Gen W f t -> genuine_sub F t) -> dom F (evalP (fst vs) p) ->
    let vs' := wstep W vs s (MEpsSub f p) in
    StepsSpec.eps_subgrad F (snd vs' (S (m_ne s))) (evalP (fst vs) p) (fst vs' (m_np s)).
  Proof.
    intros HG Hd. cbn [wstep fst snd]. set (x0 := evalP (fst vs) p).
    rewrite !(upd_other _ (S (S (m_np s)))) by lia. rewrite !(upd_other _ (S (m_np s)) _ (m_np s)) by lia.
    rewrite !(upd_other _ (S (S (m_ne s)))) by lia. rewrite !upd_same.
    destruct (epssub_spec W f x0) as [Hy Hc].
    apply HG in Hy. destruct Hy as [Hsub Hfy].
    pose proof (HG _ (orc_genuine W f x0)) as [_ Hf0].
    apply (C08Real.eps_subgrad_from_record F _ x0 (fst (snd (epssub W f x0)))); [exact Hd|exact Hsub|].
    rewrite <- Hfy, <- Hf0. exact Hc.
  Qed.

  (** ** inexact_proximal_step: the criterion the world's approximate proximal operator is specified to meet is the
      primal-dual gap of the proximal problem of Spec/StepsSpec.v ([pd_gap], as in the step's docstring) with the dual
      point of the option: (v, w, fw) for 'PD_gapI', (gx, x, fx) for 'PD_gapII', ((x0 - x) / gamma, w, fw) for
      'PD_gapIII' (C08's identity pd_gap_identity) *)
  Theorem iprox_spec_is_pd_gap (f : nat) (opt : ipopt) (gamma : R) (x0 : E) :
    0 < gamma ->
    let r := iprox W f opt gamma x0 in
    let w := fst (fst (fst (fst r))) in let v := snd (fst (fst (fst r))) in let fw := snd (fst (fst r)) in
    let x := fst (fst (snd (fst r))) in let gx := snd (fst (snd (fst r))) in let fx := snd (snd (fst r)) in
    match opt with
    | PDgapI => StepsSpec.pd_gap gamma x0 x fx v w fw
    | PDgapII => StepsSpec.pd_gap gamma x0 x fx gx x fx
    | PDgapIII => StepsSpec.pd_gap gamma x0 x fx (vscal (1 / gamma) (vsub x0 x)) w fw
    end <= snd r.
  Proof.
    intros Hg. pose proof (iprox_spec W f opt gamma x0 Hg) as Hsp. cbn zeta in *.
    destruct opt; rewrite C08Records.pd_gap_identity; destruct Hsp as [_ Hsp].
    - destruct Hsp as [_ Hc]. lra.
    - rewrite inner_sub_r. lra.
    - destruct Hsp as [_ Hc].
      set (x := fst (fst (snd (fst (iprox W f PDgapIII gamma x0))))) in *.
      assert (Hz : nrm2 (vadd (vsub x x0) (vscal gamma (vscal (1 / gamma) (vsub x0 x)))) = 0).
      { C08Lemmas.bilin. C08Lemmas.orient [x0; x]. field. lra. }
      rewrite Hz. lra.
  Qed.
End Steps.

(** ** where the specifications come from, for a world made of a convex function F (selection [sel]) *)
Section FromC08.
  Context {E : ips}.

  (** an epsilon-subgradient oracle of F: [g x0] is an eps-subgradient at x0 for eps = [ep x0], and the conjugate
      of F at it is attained at [y x0] (C08's theorem eps_subgrad_to_record) *)
  Theorem is_epssub_spec (F : @fn E) (sel : E -> E) (g : E -> E) (ep : E -> R) (y : E -> E) :
    (forall x0, StepsSpec.eps_subgrad F (ep x0) x0 (g x0)) -> (forall x0, subgrad F (y x0) (g x0)) ->
    forall x0 : E,
      genuine_sub F (y x0, g x0, val F (y x0)) /\
      snd (sel x0, val F x0) + (inner (g x0) (y x0) - val F (y x0)) - inner (g x0) x0 <= ep x0.
  Proof.
    intros He Hs x0. split; [split; [apply Hs|reflexivity]|]. cbn [snd].
    exact (C08Real.eps_subgrad_to_record F (ep x0) x0 (y x0) (g x0) (He x0) (Hs x0)).
  Qed.

  (** the two ways of writing the Bregman gradient step: minimising gamma <g0, .> + h - <s0, .> is minimising
      h - <s0 - gamma g0, .> *)
  Lemma bregman_gradient_dual (H : @dfn E) gamma (g0 s0 x : E) :
    StepsSpec.is_bregman_gradient H gamma g0 s0 x <->
    StepsSpec.is_bregman_gradient H 1 vzero (vsub s0 (vscal gamma g0)) x.
  Proof.
    unfold StepsSpec.is_bregman_gradient.
    split; intros Hm y; specialize (Hm y);
      rewrite ?inner_sub_l, ?inner_scal_l, ?inner_zero_l in *; lra.
  Qed.

  (** a mirror map inverse: [mir s] minimises h - <s, .> (the Bregman gradient step with dual point s); for a
      Gateaux-differentiable h the gradient there is s (C08's theorem bregman_gradient_optimality) *)
  Theorem is_mirror_spec (H : @dfn E) (mir : E -> E) :
    StepsSpec.gateaux H -> (forall s, StepsSpec.is_bregman_gradient H 1 vzero s (mir s)) ->
    forall s, genuine_grad H (mir s, s, dval H (mir s)).
  Proof.
    intros HG Hm s. split; [|reflexivity].
    pose proof (C08Real.bregman_gradient_optimality H 1 vzero s (mir s) HG (Hm s)) as Hv.
    intros w. rewrite (Hv w). rewrite inner_sub_l, inner_scal_l, inner_zero_l. lra.
  Qed.

  (** a Bregman proximal operator: [bp gamma s0] minimises gamma F + h - <s0, .>; for convex F and Gateaux-
      differentiable h, gx = (s0 - grad h(x)) / gamma is a subgradient of F there (C08's theorem
      bregman_prox_optimality), and s0 - gamma gx is the gradient of h there *)
  Theorem is_bprox_spec (F : @fn E) (H : @dfn E) (bp : R -> E -> E) :
    StepsSpec.convex_fn F -> StepsSpec.gateaux H ->
    (forall gamma s0, 0 < gamma -> StepsSpec.is_bregman_prox F H gamma s0 (bp gamma s0)) ->
    forall gamma s0, 0 < gamma ->
      let x := bp gamma s0 in let gx := vscal (1 / gamma) (vsub s0 (dgrad H x)) in
      genuine_sub F (x, gx, val F x) /\ genuine_grad H (x, vsub s0 (vscal gamma gx), dval H x).
  Proof.
    intros Hc HG Hb gamma s0 Hg x gx. split.
    - split; [|reflexivity]. exact (C08Real.bregman_prox_optimality F H gamma s0 x Hc HG Hg (Hb gamma s0 Hg)).
    - split; [|reflexivity]. intros w. unfold gx.
      rewrite !inner_sub_l, !inner_scal_l, !inner_sub_l. field. lra.
  Qed.
End FromC08.

Theorem iprox_constraint_meaning {E : ips} opt (rho : nat -> E) (phi : nat -> R) n e (x0 : pdict) gamma :
  NoDupKeys nat x0 -> 0 < Q2R gamma ->
  (holds rho phi (ip_cons opt n e x0 gamma) <-> ip_meaning opt rho phi n e x0 gamma).
Proof. exact (ip_cons_holds opt rho phi n e x0 gamma). Qed.

(** ** Example: f = h = x^2 on the real line.
    - epsilon-subgradient oracle: g0 = 2 x0 + 1, attained at y = x0 + 1/2, eps = (y - x0)^2 = 1/4;
    - mirror map inverse: grad h(x) = s at x = s / 2;
    - Bregman proximal operator: 2 x = s0 - gamma 2 x, i.e. x = s0 / (2 (1 + gamma)), gx = 2 x. *)
Definition sq_es : nat -> R1 -> (R1 * R) * (R1 * R) :=
  fun _ (x0 : R) => ((2 * x0 + 1, 1 / 4), (x0 + 1 / 2, (x0 + 1 / 2) * (x0 + 1 / 2))).
Definition sq_mir : nat -> R1 -> R1 * R := fun _ (s : R) => (s / 2, (s / 2) * (s / 2)).
Definition sq_bp : nat -> nat -> R -> R1 -> (R1 * R1) * (R * R) :=
  fun _ _ gamma (s0 : R) =>
    let x := s0 / (2 * (1 + gamma)) in ((x, 2 * x), (x * x, x * x)).

Lemma sq_genuine (x g : R1) (v : R) : g = 2 * x -> v = x * x -> genuine_sub sq_F (x, g, v).
Proof. intros -> ->. split; [exact (sq_subgrad x)|reflexivity]. Qed.

Lemma sq_es_ok : epssub_ok sq_world sq_es.
Proof.
  intros f x0. change R in x0. split.
  - apply sq_genuine; cbn; lra.
  - cbn. unfold sq_F. cbn. nra.
Qed.
Lemma sq_mir_ok : mirror_ok sq_world (fun _ => true) sq_mir.
Proof. intros h s _. change R in s. apply sq_genuine; cbn; lra. Qed.
Lemma sq_bp_ok : bprox_ok sq_world (fun _ _ => true) sq_bp.
Proof.
  intros h f gamma s0 _ Hg. change R in s0. split; apply sq_genuine; cbn; unfold vsub, vneg; cbn; try lra.
  field. lra.
Qed.

(** approximate proximal operator: the exact one, x = x0 / (1 + 2 gamma), with v = gx = 2 x, w = x and accuracy 0 *)
Definition sq_ip : nat -> ipopt -> R -> R1 -> ((R1 * R1 * R) * (R1 * R1 * R)) * R :=
  fun _ _ gamma (x0 : R) => let x := x0 / (1 + 2 * gamma) in (((x, 2 * x, x * x), (x, 2 * x, x * x)), 0).
Lemma sq_ip_ok : iprox_ok sq_world sq_ip.
Proof.
  intros f opt gamma x0 Hg. change R in x0. cbn zeta. cbn [sq_ip fst snd].
  split; [apply sq_genuine; reflexivity|]. destruct opt.
  - split; [apply sq_genuine; reflexivity|]. apply Req_le. unfold nrm2, vadd, vsub, vneg. cbn. field. lra.
  - apply Req_le. unfold nrm2, vadd, vsub, vneg. cbn. field. lra.
  - split; [apply sq_genuine; [|reflexivity]|apply Req_le]; unfold nrm2, vadd, vsub, vneg; cbn; field; lra.
Qed.

Definition sq_steps_world : @world R1 :=
  with_steps sq_world sq_es sq_es_ok (fun _ => true) sq_mir sq_mir_ok (fun _ _ => true) sq_bp sq_bp_ok sq_ip sq_ip_ok.

(** x0 = Point(); s0 = Point(); epsilon_subgradient_step(x0, f, gamma);                    leaves 2, 3, 4
    x1, s1, h1 = bregman_gradient_step(g0, s0, f, 1/2)  (g0 = leaf 2, the eps-subgradient);   leaf 5
    x2, s2, h2, g2, f2 = bregman_proximal_step(s1, f, f, 1)  (s1 = s0 - 1/2 g0);             leaves 6, 7 *)
Definition steps_program : list mop :=
  [MFresh; MFresh; MEpsSub 0 [(0%nat, 1%Q)];
   MBregGrad 0 [(2%nat, 1%Q)] [(1%nat, 1%Q)] (1 # 2)%Q;
   MBregProx 0 0 [(1%nat, 1%Q); (2%nat, (-1 # 2)%Q)] 1%Q].

Example new_steps_example (vs : (nat -> R1) * (nat -> R)) :
  mwf steps_program minit = true /\ steps_ok sq_steps_world steps_program = true /\
  Forall op_nodup steps_program /\ forallb linopt_dir_nonzero steps_program = true /\
  m_np (mrun steps_program minit) = 8%nat /\ m_ne (mrun steps_program minit) = 6%nat /\
  List.length (m_samples (mrun steps_program minit)) = 5%nat /\
  (* the eps-subgradient leaf, the accuracy leaf, the mirror point and the Bregman proximal point, in terms of the
     starting point x0 = fst vs 0 and the dual point s0 = fst vs 1 *)
  fst (wrun sq_steps_world steps_program minit vs) 2%nat = 2 * (Q2R 1 * fst vs 0%nat + 0) + 1 /\
  snd (wrun sq_steps_world steps_program minit vs) 1%nat = 1 / 4 /\
  (* one constraint was added to the function, and it holds at the values of the run *)
  (exists c, m_cons (mrun steps_program minit) = [(0%nat, c)] /\
             holds (fst (wrun sq_steps_world steps_program minit vs)) (snd (wrun sq_steps_world steps_program minit vs)) c) /\
  (* every interpolation constraint of the convex class on the five recorded samples holds at the values of the run *)
  List.length (g_cons (run_plan plan_ConvexFunction (fstate_of (fun _ => 0%Q) (mrun steps_program minit) 0))) = 20%nat /\
  all_satisfied (fst (wrun sq_steps_world steps_program minit vs)) (snd (wrun sq_steps_world steps_program minit vs))
    (run_plan plan_ConvexFunction (fstate_of (fun _ => 0%Q) (mrun steps_program minit) 0)).
Proof.
  assert (Hwf : mwf steps_program minit = true) by (vm_compute; reflexivity).
  assert (Hpx : steps_ok sq_steps_world steps_program = true) by reflexivity.
  assert (Hnd : Forall op_nodup steps_program).
  { repeat constructor; cbn; try tauto; intros [H|[]]; discriminate. }
  split; [exact Hwf|]. split; [exact Hpx|]. split; [exact Hnd|]. split; [vm_compute; reflexivity|].
  split; [vm_compute; reflexivity|]. split; [vm_compute; reflexivity|]. split; [vm_compute; reflexivity|].
  split; [reflexivity|]. split; [reflexivity|]. split.
  - eexists. split; [reflexivity|].
    apply (world_constraints_hold sq_steps_world steps_program vs 0%nat); [exact Hwf|exact Hpx|left; reflexivity].
  - split; [vm_compute; reflexivity|].
    apply (run_satisfies_convex_any sq_steps_world sq_F 0 steps_program vs); [|exact Hwf|exact Hnd|exact Hpx].
    intros t Ht. exact Ht.
Qed.

(** x0 = Point(); inexact_proximal_step(x0, f, 1/2, 'PD_gapI'); inexact_proximal_step(x0, f, 1, 'PD_gapII');
    inexact_proximal_step(x0, f, 2, 'PD_gapIII') *)
Definition inexact_prox_program : list mop :=
  [MFresh; MInexactProx 0 [(0%nat, 1%Q)] (1 # 2)%Q PDgapI; MInexactProx 0 [(0%nat, 1%Q)] 1%Q PDgapII;
   MInexactProx 0 [(0%nat, 1%Q)] 2%Q PDgapIII].

Example inexact_prox_example (vs : (nat -> R1) * (nat -> R)) :
  mwf inexact_prox_program minit = true /\ steps_ok sq_steps_world inexact_prox_program = true /\
  Forall op_nodup inexact_prox_program /\ forallb linopt_dir_nonzero inexact_prox_program = true /\
  m_np (mrun inexact_prox_program minit) = 10%nat /\ m_ne (mrun inexact_prox_program minit) = 8%nat /\
  List.length (m_samples (mrun inexact_prox_program minit)) = 5%nat /\
  List.length (m_cons (mrun inexact_prox_program minit)) = 3%nat /\
  (* the approximate proximal point of the first step (leaf 3) and its accuracy (value leaf 2) *)
  fst (wrun sq_steps_world inexact_prox_program minit vs) 3%nat = (Q2R 1 * fst vs 0%nat + 0) / (1 + 2 * Q2R (1 # 2)) /\
  snd (wrun sq_steps_world inexact_prox_program minit vs) 2%nat = 0 /\
  (forall f c, In (f, c) (m_cons (mrun inexact_prox_program minit)) ->
     holds (fst (wrun sq_steps_world inexact_prox_program minit vs)) (snd (wrun sq_steps_world inexact_prox_program minit vs)) c) /\
  all_satisfied (fst (wrun sq_steps_world inexact_prox_program minit vs)) (snd (wrun sq_steps_world inexact_prox_program minit vs))
    (run_plan plan_ConvexFunction (fstate_of (fun _ => 0%Q) (mrun inexact_prox_program minit) 0)).
Proof.
  assert (Hwf : mwf inexact_prox_program minit = true) by (vm_compute; reflexivity).
  assert (Hpx : steps_ok sq_steps_world inexact_prox_program = true) by reflexivity.
  assert (Hnd : Forall op_nodup inexact_prox_program).
  { repeat constructor; cbn; try tauto; intros [H|[]]; discriminate. }
  split; [exact Hwf|]. split; [exact Hpx|]. split; [exact Hnd|]. split; [vm_compute; reflexivity|].
  split; [vm_compute; reflexivity|]. split; [vm_compute; reflexivity|]. split; [vm_compute; reflexivity|].
  split; [vm_compute; reflexivity|]. split; [reflexivity|]. split; [reflexivity|]. split.
  - intros f c Hin. exact (world_constraints_hold sq_steps_world inexact_prox_program vs f c Hwf Hpx Hin).
  - apply (run_satisfies_convex_any sq_steps_world sq_F 0 inexact_prox_program vs); [|exact Hwf|exact Hnd|exact Hpx].
    intros t Ht. exact Ht.
Qed.
