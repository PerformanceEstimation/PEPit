(** Caches: [eval_obj] returns the cache-free value [pure_obj] of an object whenever the caches it reads
    are coherent with the current leaf tables (in particular when they are empty), it never touches
    the leaf tables, kinds or duals, and it keeps every coherent object coherent. *)
From Coq Require Import List QArith.
From PV Require Import Model.Dict Model.Terms Model.Eval.
Import ListNotations.

Definition pure_eh (st : est) (e : eh) : res Q :=
  match e with
  | ELeaf id => leafE st id
  | ERef r => match get_obj st r with
              | Some o => match okind_of o with KExpr d => expr_compute st d | _ => Raise EShape end
              | None => Raise EShape
              end
  end.
Fixpoint pure_row (st : est) (row : list eh) : res (list Q) :=
  match row with
  | [] => Ok []
  | e :: row' => match pure_eh st e with
                 | Raise x => Raise x
                 | Ok q => match pure_row st row' with Raise x => Raise x | Ok qs => Ok (q :: qs) end
                 end
  end.
Fixpoint pure_rows (st : est) (m : list (list eh)) : res (list (list Q)) :=
  match m with
  | [] => Ok []
  | row :: m' => match pure_row st row with
                 | Raise x => Raise x
                 | Ok qs => match pure_rows st m' with Raise x => Raise x | Ok qss => Ok (qs :: qss) end
                 end
  end.
(** [m] = length of the zero vector a derived point starts from *)
Definition pure_obj (m : nat) (st : est) (k : okind) : res val :=
  match k with
  | KPoint d => match point_compute m st d with Ok v => Ok (VVec v) | Raise e => Raise e end
  | KExpr d => match expr_compute st d with Ok q => Ok (VNum q) | Raise e => Raise e end
  | KCons e _ => match pure_eh st e with Ok q => Ok (VNum q) | Raise _ => Raise EUnsolved end
  | KLmi mm => match pure_rows st mm with Ok qss => Ok (VMat qss) | Raise _ => Raise EUnsolved end
  end.

Definition refs_of (k : okind) : list eh :=
  match k with KCons e _ => [e] | KLmi m => concat m | _ => [] end.

Definition coh_expr (st : est) (r : nat) : Prop :=
  forall o d v, get_obj st r = Some o -> okind_of o = KExpr d -> ocache o = Some v ->
    exists q, v = VNum q /\ expr_compute st d = Ok q.
Definition coh_eh (st : est) (e : eh) : Prop :=
  match e with ELeaf _ => True | ERef r => coh_expr st r end.
Definition coh_obj (m : nat) (st : est) (r : nat) : Prop :=
  forall o v, get_obj st r = Some o -> ocache o = Some v -> pure_obj m st (okind_of o) = Ok v.
Definition good (m : nat) (st : est) (r : nat) : Prop :=
  coh_obj m st r /\ forall o e, get_obj st r = Some o -> In e (refs_of (okind_of o)) -> coh_eh st e.

(** the frame of evaluation: leaves, kinds and duals never change; a cache is either unchanged or
    filled *)
Definition frame (st st' : est) : Prop :=
  lpv st' = lpv st /\ lev st' = lev st /\
  forall r, match get_obj st r, get_obj st' r with
            | None, None => True
            | Some o, Some o' => okind_of o' = okind_of o /\ odual o' = odual o /\
                                 (ocache o' = ocache o \/ ocache o = None)
            | _, _ => False
            end.
(** ... and the finer relation of [eval_eh], which only fills caches of derived expressions with
    their cache-free value: whatever was coherent stays coherent.  This is the invariant the
    evaluation of a row, of a matrix and of an object carries along. *)
Definition ext (st st' : est) : Prop :=
  frame st st' /\ (forall r, coh_expr st r -> coh_expr st' r) /\ (forall m r, coh_obj m st r -> coh_obj m st' r).

(** ** cache-free values read the leaf tables through [leafP] / [leafE] only (appending an
    unassigned leaf changes no lookup) *)
Definition leaf_eq (st st' : est) : Prop :=
  (forall k, leafP st' k = leafP st k) /\ (forall k, leafE st' k = leafE st k).
Lemma leaf_eq_of_eq st st' : lpv st' = lpv st -> lev st' = lev st -> leaf_eq st st'.
Proof. unfold leaf_eq, leafP, leafE. intros -> ->. split; reflexivity. Qed.
Lemma leaf_eq_refl st : leaf_eq st st.
Proof. split; reflexivity. Qed.
Lemma leaf_eq_trans a b c : leaf_eq a b -> leaf_eq b c -> leaf_eq a c.
Proof. intros [A1 A2] [B1 B2]. split; intro k; [rewrite B1, A1|rewrite B2, A2]; reflexivity. Qed.

Lemma key_val_ext st st' k : leaf_eq st st' -> key_val st' k = key_val st k.
Proof. intros [H1 H2]. destruct k as [e|i j|]; cbn [key_val]; [apply H2|rewrite !H1; reflexivity|reflexivity]. Qed.
Lemma expr_sum_ext st st' : leaf_eq st st' -> forall d acc, expr_sum st' acc d = expr_sum st acc d.
Proof.
  intros H. induction d as [|[k w] d IH]; intro acc; cbn [expr_sum]; [reflexivity|].
  rewrite (key_val_ext st st') by assumption. destruct (key_val st k); [apply IH|reflexivity].
Qed.
Lemma expr_compute_ext st st' d : leaf_eq st st' -> expr_compute st' d = expr_compute st d.
Proof. intros. unfold expr_compute. apply expr_sum_ext; assumption. Qed.
Lemma point_sum_ext st st' : (forall k, leafP st' k = leafP st k) ->
  forall d acc, point_sum st' acc d = point_sum st acc d.
Proof.
  intros H1. induction d as [|[k w] d IH]; intro acc; cbn [point_sum]; [reflexivity|].
  rewrite H1. destruct (leafP st k); [|reflexivity].
  destruct acc as [a0|]; [|apply IH]. destruct (np_add a0 (vscale w a)); [apply IH|reflexivity].
Qed.
Lemma point_compute_ext m st st' d : leaf_eq st st' -> point_compute m st' d = point_compute m st d.
Proof. intros [H _]. unfold point_compute. rewrite (point_sum_ext st st' H). reflexivity. Qed.

(** only the empty combination looks at the length [m] of the null vector *)
Lemma point_sum_Some st : forall d a, point_sum st (Some a) d <> Ok None.
Proof.
  induction d as [|[k w] d IH]; intro a; cbn [point_sum]; [discriminate|].
  destruct (leafP st k); [|discriminate]. destruct (np_add a (vscale w a0)); [apply IH|discriminate].
Qed.
Lemma point_compute_m m m' st d : (d = [] -> m = m') -> point_compute m st d = point_compute m' st d.
Proof.
  intro H. unfold point_compute. destruct d as [|[k w] d]; [rewrite H; reflexivity|]. cbn [point_sum].
  destruct (leafP st k) as [u|]; [|reflexivity]. pose proof (point_sum_Some st d (vscale w u)) as Hr.
  destruct (point_sum st (Some (vscale w u)) d) as [[v|]|]; congruence.
Qed.
Lemma pure_obj_m m m' st k : (k = KPoint [] -> m = m') -> pure_obj m st k = pure_obj m' st k.
Proof.
  destruct k as [d| | |]; try reflexivity. intro H. cbn [pure_obj].
  rewrite (point_compute_m m m') by (intros ->; exact (H eq_refl)). reflexivity.
Qed.

Lemma nth_error_upd_nth {A} (f : A -> A) n : forall (l : list A) m,
  nth_error (upd_nth f n l) m = if Nat.eqb m n then option_map f (nth_error l n) else nth_error l m.
Proof.
  induction n as [|n IH]; intros [|a l] [|m]; cbn [upd_nth nth_error Nat.eqb option_map]; try reflexivity.
  - destruct (Nat.eqb m n); reflexivity.
  - apply IH.
Qed.
Lemma length_upd_nth {A} (f : A -> A) n : forall l : list A, length (upd_nth f n l) = length l.
Proof. induction n as [|n IH]; intros [|a l]; cbn; auto. Qed.

Lemma get_obj_set_cache st r v r' :
  get_obj (set_cache st r v) r' =
  if Nat.eqb r' r then option_map (fun o => mkObj (okind_of o) (Some v) (odual o)) (get_obj st r)
  else get_obj st r'.
Proof. unfold get_obj, set_cache; cbn [objs]. apply nth_error_upd_nth. Qed.
Lemma get_obj_set_dual st r v r' :
  get_obj (set_dual st r v) r' =
  if Nat.eqb r' r then option_map (fun o => mkObj (okind_of o) (ocache o) (Some v)) (get_obj st r)
  else get_obj st r'.
Proof. unfold get_obj, set_dual; cbn [objs]. apply nth_error_upd_nth. Qed.

Lemma frame_refl st : frame st st.
Proof. split; [reflexivity|split; [reflexivity|]]. intro r. destruct (get_obj st r); auto. Qed.
Lemma frame_trans a b c : frame a b -> frame b c -> frame a c.
Proof.
  intros (A1 & A2 & A) (B1 & B2 & B). split; [congruence|split; [congruence|]]. intro r.
  specialize (A r). specialize (B r).
  destruct (get_obj a r) as [oa|], (get_obj b r) as [ob|]; try contradiction;
    destruct (get_obj c r) as [oc|]; try contradiction; [|exact I].
  destruct A as (Ak & Ad & Ac), B as (Bk & Bd & Bc). split; [congruence|split; [congruence|]].
  destruct Ac as [Ac|Ac]; [|right; exact Ac]. destruct Bc as [Bc|Bc]; [left; congruence|right; congruence].
Qed.
Lemma ext_refl st : ext st st.
Proof. split; [apply frame_refl|]. split; auto. Qed.
Lemma ext_trans a b c : ext a b -> ext b c -> ext a c.
Proof.
  intros (A & A1 & A2) (B & B1 & B2). split; [exact (frame_trans a b c A B)|]. split; auto.
Qed.

(** a cache that was empty at [st] may be filled, whatever happened to the others in between *)
Lemma frame_set_cache2 st st1 r v :
  frame st st1 -> (forall o, get_obj st r = Some o -> ocache o = None) -> frame st (set_cache st1 r v).
Proof.
  intros (H1 & H2 & H) Hn. split; [exact H1|split; [exact H2|]]. intro r'. rewrite get_obj_set_cache.
  destruct (Nat.eqb_spec r' r) as [->|Hne]; [|apply H].
  specialize (H r). destruct (get_obj st r) as [o|], (get_obj st1 r) as [o1|]; try contradiction; [|exact I].
  destruct H as (Hk & Hd & _). cbn. auto.
Qed.
Lemma frame_set_cache st r v :
  (forall o, get_obj st r = Some o -> ocache o = None) -> frame st (set_cache st r v).
Proof. apply frame_set_cache2, frame_refl. Qed.

(** ** cache-free values depend on the leaf tables and on the kinds only *)
Definition samek (st st' : est) : Prop :=
  leaf_eq st st' /\
  forall r, option_map okind_of (get_obj st' r) = option_map okind_of (get_obj st r).

Lemma frame_samek st st' : frame st st' -> samek st st'.
Proof.
  intros (H1 & H2 & H). split; [apply leaf_eq_of_eq; assumption|]. intro r. specialize (H r).
  destruct (get_obj st r), (get_obj st' r); try contradiction; [|reflexivity].
  cbn. f_equal. apply H.
Qed.
Lemma samek_set_cache st r v : samek st (set_cache st r v).
Proof.
  split; [apply leaf_eq_of_eq; reflexivity|]. intro r'. rewrite get_obj_set_cache.
  destruct (Nat.eqb_spec r' r) as [->|]; [|reflexivity]. destruct (get_obj st r); reflexivity.
Qed.
Lemma samek_trans a b c : samek a b -> samek b c -> samek a c.
Proof.
  intros (A1 & A) (B1 & B). split; [eapply leaf_eq_trans; eassumption|]. intro r. rewrite B, A. reflexivity.
Qed.
Lemma samek_kind st st' r o o' :
  samek st st' -> get_obj st r = Some o -> get_obj st' r = Some o' -> okind_of o' = okind_of o.
Proof. intros [_ S] Ho Ho'. specialize (S r). rewrite Ho, Ho' in S. injection S as S. exact S. Qed.
Lemma samek_inv st st' r o' : samek st st' -> get_obj st' r = Some o' ->
  exists o, get_obj st r = Some o /\ okind_of o' = okind_of o.
Proof.
  intros [_ S] Ho'. specialize (S r). rewrite Ho' in S. destruct (get_obj st r) as [o|]; [|discriminate].
  injection S as S. eauto.
Qed.

Lemma pure_eh_samek st st' e : samek st st' -> pure_eh st' e = pure_eh st e.
Proof.
  intros (H1 & H). destruct e as [id|r]; cbn [pure_eh]; [apply H1|].
  specialize (H r). destruct (get_obj st r) as [o|], (get_obj st' r) as [o'|]; try discriminate; [|reflexivity].
  injection H as ->. destruct (okind_of o); try reflexivity. apply expr_compute_ext, H1.
Qed.
Lemma pure_row_ext st st' row : (forall e, In e row -> pure_eh st' e = pure_eh st e) ->
  pure_row st' row = pure_row st row.
Proof.
  induction row as [|e row IH]; intro H; cbn [pure_row]; [reflexivity|].
  rewrite (H e (or_introl eq_refl)), IH by (intros; apply H; right; assumption). reflexivity.
Qed.
Lemma pure_rows_ext st st' m : (forall e, In e (concat m) -> pure_eh st' e = pure_eh st e) ->
  pure_rows st' m = pure_rows st m.
Proof.
  induction m as [|row m IH]; intro H; cbn [pure_rows concat] in *; [reflexivity|].
  rewrite (pure_row_ext st st' row), IH by (intros; apply H, in_or_app; auto). reflexivity.
Qed.
Lemma pure_obj_ext m st st' k : leaf_eq st st' ->
  (forall e, In e (refs_of k) -> pure_eh st' e = pure_eh st e) -> pure_obj m st' k = pure_obj m st k.
Proof.
  intros L H. destruct k as [d|d|e s|mm]; cbn [pure_obj refs_of] in *.
  - rewrite (point_compute_ext m st st') by exact L. reflexivity.
  - rewrite (expr_compute_ext st st') by exact L. reflexivity.
  - rewrite (H e (or_introl eq_refl)). reflexivity.
  - rewrite (pure_rows_ext st st' mm H). reflexivity.
Qed.
Lemma pure_obj_samek m st st' k : samek st st' -> pure_obj m st' k = pure_obj m st k.
Proof. intro F. apply pure_obj_ext; [apply F|]. intros e _. apply pure_eh_samek, F. Qed.

(** ** coherence of [y] is carried from [st] to [st'] as soon as [y] is there the object it was and the
    caches it speaks of are carried *)
Lemma good_mono m st st' y :
  (forall o', get_obj st' y = Some o' -> exists o, get_obj st y = Some o /\ okind_of o' = okind_of o) ->
  (coh_obj m st y -> coh_obj m st' y) ->
  (forall o r, get_obj st y = Some o -> In (ERef r) (refs_of (okind_of o)) -> coh_expr st r -> coh_expr st' r) ->
  good m st y -> good m st' y.
Proof.
  intros K Hy Hr [Cy Ce]. split; [exact (Hy Cy)|]. intros o' e Ho' Hin.
  destruct (K o' Ho') as (o & Ho & Hk). rewrite Hk in Hin.
  destruct e as [id|r]; [exact I|]. exact (Hr o r Ho Hin (Ce o _ Ho Hin)).
Qed.
Lemma good_ext m st st' y : ext st st' -> good m st y -> good m st' y.
Proof. intros (F & E1 & E2). apply good_mono; [intro o'; apply samek_inv, frame_samek, F|apply E2|intros _ r _ _; apply E1]. Qed.
Lemma coh_eh_ext st st' e : ext st st' -> coh_eh st e -> coh_eh st' e.
Proof. intros (_ & E & _). destruct e; [auto|apply E]. Qed.

(** filling the cache of [r] with [v] keeps [y] coherent when [v] is the cache-free value of [r];
    this is asked only if [y] looks at that cache: [y] is [r], or [r] is a derived expression *)
Lemma coh_obj_set_cache m st r v y :
  (y = r -> forall o, get_obj st r = Some o -> pure_obj m st (okind_of o) = Ok v) ->
  coh_obj m st y -> coh_obj m (set_cache st r v) y.
Proof.
  intros Hv C o' v' Ho' Hc. rewrite (pure_obj_samek m st) by apply samek_set_cache.
  rewrite get_obj_set_cache in Ho'. destruct (Nat.eqb_spec y r) as [Hy|_]; [|exact (C o' v' Ho' Hc)].
  destruct (get_obj st r) as [o|]; [|discriminate]. injection Ho' as <-. injection Hc as <-.
  exact (Hv Hy o eq_refl).
Qed.
Lemma coh_expr_set_cache m st r v y :
  (forall o d, get_obj st r = Some o -> okind_of o = KExpr d -> pure_obj m st (KExpr d) = Ok v) ->
  coh_expr st y -> coh_expr (set_cache st r v) y.
Proof.
  intros Hv C o' d v' Ho' Hk Hc. rewrite (expr_compute_ext st) by apply samek_set_cache.
  rewrite get_obj_set_cache in Ho'. destruct (Nat.eqb_spec y r) as [_|_]; [|exact (C o' d v' Ho' Hk Hc)].
  destruct (get_obj st r) as [o|]; [|discriminate]. injection Ho' as <-. injection Hc as <-.
  specialize (Hv o d eq_refl Hk). cbn [pure_obj] in Hv.
  destruct (expr_compute st d) as [q|]; [|discriminate]. injection Hv as <-. eauto.
Qed.
Lemma good_set_cache m st r v y :
  (forall o, get_obj st r = Some o -> y = r \/ (exists d, okind_of o = KExpr d) ->
             pure_obj m st (okind_of o) = Ok v) ->
  good m st y -> good m (set_cache st r v) y.
Proof.
  intro Hv. apply good_mono;
    [intro o'; apply samek_inv, samek_set_cache|apply coh_obj_set_cache|intros _ y' _ _; apply (coh_expr_set_cache m)].
  - intros Hy o Ho. apply (Hv o Ho). left. exact Hy.
  - intros o d Ho Hk. rewrite <- Hk. apply (Hv o Ho). right. exists d. exact Hk.
Qed.
Lemma ext_set_cache st r v :
  (forall o, get_obj st r = Some o -> ocache o = None /\ forall m, pure_obj m st (okind_of o) = Ok v) ->
  ext st (set_cache st r v).
Proof.
  intro H. split; [apply frame_set_cache; intros o Ho; apply (H o Ho)|]. split.
  - intro y. apply (coh_expr_set_cache 0). intros o d Ho Hk. rewrite <- Hk. apply (H o Ho).
  - intros m y. apply coh_obj_set_cache. intros _ o Ho. apply (H o Ho).
Qed.

Lemma eval_eh_spec st e :
  ext st (fst (eval_eh st e)) /\ (coh_eh st e -> snd (eval_eh st e) = pure_eh st e).
Proof.
  destruct e as [id|r]; cbn [eval_eh pure_eh coh_eh]; [split; [apply ext_refl|reflexivity]|].
  destruct (get_obj st r) as [o|] eqn:Ho; [|split; [apply ext_refl|reflexivity]].
  destruct (okind_of o) as [d|d|e s|m] eqn:Hk; try (split; [apply ext_refl|reflexivity]).
  destruct (ocache o) as [v|] eqn:Hc.
  - split; [apply ext_refl|]. intro C. destruct (C o d v Ho Hk Hc) as (q & -> & ->). reflexivity.
  - destruct (expr_compute st d) as [q|er] eqn:Hq; (split; [|reflexivity]); [|apply ext_refl].
    apply ext_set_cache. intros o0 Ho0. rewrite Ho in Ho0. injection Ho0 as <-.
    split; [exact Hc|]. intro m. rewrite Hk. cbn [pure_obj]. rewrite Hq. reflexivity.
Qed.

Lemma eval_row_spec : forall row st,
  ext st (fst (eval_row st row)) /\
  ((forall e, In e row -> coh_eh st e) -> snd (eval_row st row) = pure_row st row).
Proof.
  induction row as [|e row IH]; intro st; cbn [eval_row pure_row]; [split; [apply ext_refl|reflexivity]|].
  destruct (eval_eh_spec st e) as [E1 P1]. destruct (eval_eh st e) as [st1 x1]. cbn [fst snd] in E1, P1.
  destruct (IH st1) as [E2 P2]. destruct (eval_row st1 row) as [st2 x2]. cbn [fst snd] in E2, P2.
  split; [destruct x1; [destruct x2; exact (ext_trans st st1 st2 E1 E2)|exact E1]|]. intro C.
  rewrite <- P1 by (apply C; left; reflexivity).
  rewrite <- (pure_row_ext st st1) by (intros; apply pure_eh_samek, frame_samek, E1).
  rewrite <- P2 by (intros e0 H0; apply (coh_eh_ext st st1 e0 E1), C; right; exact H0).
  destruct x1; [destruct x2|]; reflexivity.
Qed.

Lemma eval_rows_spec : forall m st,
  ext st (fst (eval_rows st m)) /\
  ((forall e, In e (concat m) -> coh_eh st e) -> snd (eval_rows st m) = pure_rows st m).
Proof.
  induction m as [|row m IH]; intro st; cbn [eval_rows pure_rows concat]; [split; [apply ext_refl|reflexivity]|].
  destruct (eval_row_spec row st) as [E1 P1]. destruct (eval_row st row) as [st1 x1]. cbn [fst snd] in E1, P1.
  destruct (IH st1) as [E2 P2]. destruct (eval_rows st1 m) as [st2 x2]. cbn [fst snd] in E2, P2.
  split; [destruct x1; [destruct x2; exact (ext_trans st st1 st2 E1 E2)|exact E1]|]. intro C.
  rewrite <- P1 by (intros e He; apply C, in_or_app; left; exact He).
  rewrite <- (pure_rows_ext st st1) by (intros; apply pure_eh_samek, frame_samek, E1).
  rewrite <- P2 by (intros e He; apply (coh_eh_ext st st1 e E1), C, in_or_app; right; exact He).
  destruct x1; [destruct x2|]; reflexivity.
Qed.

(** ** [eval_obj]: a cached value is returned as it is; otherwise the object is computed through
    [eval_eh] on what it refers to, and the result, if there is one, is cached *)
Lemma eval_obj_inv st r :
  let (st', x) := eval_obj st r in
  match get_obj st r with
  | None => st' = st
  | Some o =>
      match ocache o with
      | Some v => st' = st /\ x = Ok v
      | None =>
          exists st1, ext st st1 /\ st' = match x with Ok v => set_cache st1 r v | Raise _ => st1 end /\
            ((forall e, In e (refs_of (okind_of o)) -> coh_eh st e) ->
             x = pure_obj (length (lpv st)) st (okind_of o))
      end
  end.
Proof.
  unfold eval_obj. destruct (get_obj st r) as [o|]; [|reflexivity].
  destruct (ocache o) as [v|]; [auto|].
  destruct (okind_of o) as [d|d|e s|m]; cbn [pure_obj refs_of].
  - destruct (point_compute _ st d); exists st; (split; [apply ext_refl|auto]).
  - destruct (expr_compute st d); exists st; (split; [apply ext_refl|auto]).
  - destruct (eval_eh_spec st e) as [E1 P1]. destruct (eval_eh st e) as [st1 x1]. cbn [fst snd] in E1, P1.
    destruct x1; exists st1; (split; [exact E1|]); (split; [reflexivity|]); intro C;
      rewrite <- P1 by (apply C; left; reflexivity); reflexivity.
  - destruct (eval_rows_spec m st) as [E1 P1]. destruct (eval_rows st m) as [st1 x1]. cbn [fst snd] in E1, P1.
    destruct x1; exists st1; (split; [exact E1|]); (split; [reflexivity|]); intro C;
      rewrite <- P1 by exact C; reflexivity.
Qed.

Lemma eval_obj_frame st r st' x : eval_obj st r = (st', x) -> frame st st'.
Proof.
  intro H. pose proof (eval_obj_inv st r) as I. rewrite H in I.
  destruct (get_obj st r) as [o|] eqn:Ho; [|rewrite I; apply frame_refl].
  destruct (ocache o) as [v|] eqn:Hc; [destruct I as [-> _]; apply frame_refl|].
  destruct I as (st1 & [F _] & -> & _). destruct x; [|exact F].
  apply frame_set_cache2; [exact F|]. intros o0 Ho0. congruence.
Qed.

Lemma eval_obj_value m st r st' x o :
  eval_obj st r = (st', x) -> get_obj st r = Some o -> good m st r ->
  (okind_of o = KPoint [] -> ocache o = None -> m = length (lpv st)) ->
  x = pure_obj m st (okind_of o).
Proof.
  intros H Ho [Cr Ce] Hm. pose proof (eval_obj_inv st r) as I. rewrite H, Ho in I.
  destruct (ocache o) as [v|] eqn:Hc.
  - destruct I as [_ ->]. symmetry. apply (Cr o v Ho Hc).
  - destruct I as (st1 & _ & _ & P). rewrite P by (intros e He; exact (Ce o e Ho He)).
    apply pure_obj_m. intro Hk. symmetry. exact (Hm Hk eq_refl).
Qed.

Lemma eval_obj_pure st r o : get_obj st r = Some o -> good (length (lpv st)) st r ->
  snd (eval_obj st r) = pure_obj (length (lpv st)) st (okind_of o).
Proof.
  intros Ho G. destruct (eval_obj st r) as [st' x] eqn:H.
  exact (eval_obj_value _ st r st' x o H Ho G (fun _ _ => eq_refl)).
Qed.

Lemma eval_obj_good m st r st' x y :
  eval_obj st r = (st', x) -> good m st y ->
  (y = r -> forall o, get_obj st r = Some o -> okind_of o = KPoint [] -> ocache o = None ->
            m = length (lpv st)) ->
  good m st' y.
Proof.
  intros H G Hm. pose proof (eval_obj_inv st r) as I. rewrite H in I.
  destruct (get_obj st r) as [o|] eqn:Ho; [|rewrite I; exact G].
  destruct (ocache o) as [v|] eqn:Hc; [destruct I as [-> _]; exact G|].
  destruct I as (st1 & E1 & -> & P). pose proof (good_ext m st st1 y E1 G) as G1.
  destruct x as [v|]; [|exact G1]. pose proof (frame_samek st st1 (proj1 E1)) as S.
  apply good_set_cache; [|exact G1]. intros o1 Ho1 Hy.
  rewrite (pure_obj_samek m st st1) by exact S. rewrite (samek_kind st st1 r o o1 S Ho Ho1).
  destruct Hy as [->|[d Hd]].
  - symmetry. apply (eval_obj_value m st r _ _ o H Ho G). intros Hk _. exact (Hm eq_refl o eq_refl Hk Hc).
  - rewrite (samek_kind st st1 r o o1 S Ho Ho1) in Hd. rewrite Hd in *. rewrite P by (intros e []).
    apply pure_obj_m. discriminate.
Qed.

(** an object none of whose caches is set is coherent with ANY leaf tables *)
Definition clean (st : est) (r : nat) : Prop :=
  forall o, get_obj st r = Some o ->
    ocache o = None /\
    forall r', In (ERef r') (refs_of (okind_of o)) -> forall o', get_obj st r' = Some o' -> ocache o' = None.

Lemma clean_good m st r : clean st r -> good m st r.
Proof.
  intro C. split.
  - intros o v Ho Hc. destruct (C o Ho) as [Hn _]. congruence.
  - intros o e Ho Hin. destruct e as [id|r']; cbn [coh_eh]; [exact I|].
    intros o' d v Ho' _ Hc. destruct (C o Ho) as [_ Hr]. rewrite (Hr r' Hin o' Ho') in Hc. discriminate.
Qed.
