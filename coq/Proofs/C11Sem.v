(** C11 -- what the declared SDP [sdp_of] means (rows as Gram-reading functionals, the LMI coupling) and
    the certificate identity under MOSEK's dual convention.  Lemmas for coq/Props/C11.v, over R.

    Reading of API data (assumption A1 of the stand-in): a stored symmetric matrix given by lower
    triangular triples pairs with a matrix Z as [tri_read Z] = sum of  v * Z i i  (diagonal triple) and
    v * (Z i j + Z j i)  (off-diagonal triple): C05Spec.tri_val. *)
From Coq Require Import List Reals Qreals Lra Lia.
From PV Require Import Model.Dict Model.Terms Model.Sent Model.Matrices Model.Mosek Spec.GramSem
     Proofs.DictLemmas Proofs.SemLemmas Proofs.C05Spec Proofs.C05Lemmas.
Import ListNotations.
Local Open Scope R_scope.

Definition tri_read (Z : nat -> nat -> R) (tr : list triple) : R := lsum (tri_val Z) tr.
Definition wmat_read (Z : nat -> nat -> R) (wm : wmat) : R :=
  lsum (fun qt => Q2R (fst qt) * tri_read Z (snd qt)) wm.

(** [x] : values of the scalar variables, [X j] : value of bar variable j *)
Definition lin_val (x : nat -> R) (r : row) : R := lsum (fun cv => Q2R (snd cv) * x (fst cv)) (r_lin r).
Definition bars_val (X : nat -> nat -> nat -> R) (r : row) : R :=
  lsum (fun jw => wmat_read (X (fst jw)) (snd jw)) (r_bar r).
Definition row_val x X (r : row) : R := lin_val x r + bars_val X r.

Definition bound_value (b : bkey * Q * Q) : Q :=
  match fst (fst b) with BUp => snd b | _ => snd (fst b) end.
Definition bound_holds (b : bkey * Q * Q) (v : R) : Prop :=
  match fst (fst b) with
  | BFr => True
  | BUp => v <= Q2R (snd b)
  | BFx => v = Q2R (snd (fst b))
  | BLo => Q2R (snd (fst b)) <= v
  end.
Definition row_holds x X (r : row) : Prop := bound_holds (r_bnd r) (row_val x X r).

Lemma Q2R_mhalf : Q2R (- (1 # 2)) = - (1 / 2). Proof. unfold Q2R; cbn; lra. Qed.

Lemma lsum_zero {A} (f : A -> R) l : (forall a, f a = 0) -> lsum f l = 0.
Proof. intros H. induction l as [|a l IH]; cbn [lsum]; [reflexivity|]. rewrite IH, H. lra. Qed.

Lemma sumn_shift n f : sumn (S n) f = f 0%nat + sumn n (fun k => f (S k)).
Proof. induction n as [|n IH]; cbn [sumn] in *; [lra|]. rewrite IH. cbn [sumn]. lra. Qed.

Lemma coupling_read M i j : symG M -> tri_read M [coupling_triple i j] = - M i j.
Proof.
  intros Hs. unfold tri_read, coupling_triple, coupling_weight. cbn [lsum].
  destruct (Nat.eqb_spec i j) as [->|Hne].
  - rewrite Nat.max_id, Nat.min_id. unfold tri_val. cbn [fst snd]. rewrite Nat.eqb_refl, Q2R_opp, Q2R_1. lra.
  - rewrite (tri_val_offdiag M i j _ Hne), Q2R_mhalf, (Hs j i). lra.
Qed.

Lemma set_assoc_fresh {A} k (v : A) l : ~ In k (map fst l) -> set_assoc k v l = l ++ [(k, v)].
Proof.
  induction l as [|[k' v'] l IH]; cbn [set_assoc map fst In app]; intros H; [reflexivity|].
  destruct (Nat.eqb_spec k k') as [->|_]; [exfalso; apply H; left; reflexivity|].
  rewrite IH by tauto. reflexivity.
Qed.

Lemma lin_of_fold : forall (l acc : list (nat * Q)), NoDup (map fst (acc ++ l)) ->
  fold_left (fun a cv => set_assoc (fst cv) (snd cv) a) l acc = acc ++ l.
Proof.
  induction l as [|[c v] l IH]; intros acc H; cbn [fold_left fst snd]; [rewrite app_nil_r; reflexivity|].
  rewrite set_assoc_fresh.
  - rewrite IH; rewrite <- app_assoc; [reflexivity|exact H].
  - rewrite map_app in H. cbn [map fst] in H. apply NoDup_remove_2 in H. intros Hin. apply H.
    apply in_or_app. left. exact Hin.
Qed.

Lemma lin_of_nodup l : NoDup (map fst l) -> lin_of l = l.
Proof. intros H. unfold lin_of. rewrite lin_of_fold; [reflexivity|exact H]. Qed.

(** the F part of the sparse data: the leaf-expression keys, in dictionary order *)
Definition fpart (l : edict) : list (nat * Q) :=
  flat_map (fun kw => match fst kw with KF v => [(v, snd kw)] | _ => [] end) l.

Lemma sF_fold d : forall l acc, sF (fold_left (sparse_step d) l acc) = sF acc ++ fpart l.
Proof.
  induction l as [|[k w] l IH]; intros acc; cbn [fold_left fpart flat_map]; [rewrite app_nil_r; reflexivity|].
  rewrite IH. unfold sparse_step. cbn [fst snd]. destruct k as [v|i j|].
  - cbn [sF]. rewrite <- app_assoc. reflexivity.
  - destruct (lookup ekey_eqb (KG j i) d); [destruct (Nat.leb j i)|]; reflexivity.
  - reflexivity.
Qed.

Lemma fpart_in v l : In v (map fst (fpart l)) -> In (KF v) (keys l).
Proof.
  induction l as [|[k w] l IH]; cbn [fpart flat_map map keys fst In]; [tauto|].
  rewrite map_app, in_app_iff. intros [H|H].
  - destruct k; cbn in H; try tauto. destruct H as [<-|[]]. left. reflexivity.
  - right. apply IH. exact H.
Qed.

Lemma sF_nodup e : eND e -> NoDup (map fst (sF (sp e))).
Proof.
  intros Hnd. unfold sp, sparse_loop. rewrite sF_fold. cbn [sF sparse0 app].
  unfold NoDupKeys in Hnd. induction e as [|[k w] e IH]; cbn [fpart flat_map map]; [constructor|].
  inversion Hnd as [|? ? Hni Hnd']; subst. rewrite map_app. destruct k as [v|i j|]; cbn [fst snd map app].
  - constructor; [|apply IH; exact Hnd']. intros Hin. apply Hni. apply fpart_in. exact Hin.
  - apply IH; exact Hnd'.
  - apply IH; exact Hnd'.
Qed.

Section Rows.
  Variable x : nat -> R.
  Variable X : nat -> nat -> nat -> R.
  Hypothesis Xsym : forall j, symG (X j).

  Lemma sc_row_val e s : eND e ->
    row_val x X (sc_row e s) = evalGF (X 0%nat) x e - Q2R (sC (sp e)).
  Proof.
    intros Hnd. unfold row_val, lin_val, bars_val, wmat_read, sc_row. cbn [r_lin r_bar lsum fst snd].
    rewrite (lin_of_nodup _ (sF_nodup e Hnd)), Q2R_1.
    rewrite <- (sparse_correct (X 0%nat) x (EComp e) (Xsym 0%nat) Hnd : sparse_val _ _ (sp e) = evalGF _ _ e).
    unfold sparse_val, tri_read. lra.
  Qed.

  Lemma sc_bound_value e s : Q2R (bound_value (sc_bound e s)) = - Q2R (sC (sp e)).
  Proof. destruct s; unfold bound_value, sc_bound; cbn [fst snd]; apply Q2R_opp. Qed.

  Lemma sc_row_holds e s : eND e -> (row_holds x X (sc_row e s) <-> holdsGF (X 0%nat) x (e, s)).
  Proof.
    intros Hnd. unfold row_holds. rewrite (sc_row_val e s Hnd).
    unfold holdsGF, bound_holds, sc_row, sc_bound. cbn [r_bnd fst snd].
    destruct s; cbn [fst snd]; rewrite Q2R_opp; split; intros H; lra.
  Qed.

  Lemma lmi_row_val kb i j e : eND e ->
    row_val x X (lmi_row kb i j e) = evalGF (X 0%nat) x e - Q2R (sC (sp e)) - X kb i j.
  Proof.
    intros Hnd. rewrite <- (sc_row_val e Equ Hnd). pose proof (coupling_read (X kb) i j (Xsym kb)) as Hc.
    unfold row_val, lin_val, bars_val, wmat_read, lmi_row, sc_row. cbn [r_lin r_bar lsum fst snd]. rewrite Q2R_1. lra.
  Qed.

  Lemma lmi_row_holds kb i j e : eND e ->
    (row_holds x X (lmi_row kb i j e) <-> X kb i j = evalGF (X 0%nat) x e).
  Proof.
    intros Hnd. unfold row_holds. rewrite (lmi_row_val kb i j e Hnd).
    unfold bound_holds, lmi_row. cbn [r_bnd fst snd]. rewrite Q2R_opp. split; intros H; lra.
  Qed.

  Definition wfR_item (it : item) : Prop :=
    match it with
    | SC e _ => eND e
    | LMI m => forall ije, In ije (entries m) -> eND (snd ije)
    end.
  Definition wfR (l : sent) : Prop := Forall wfR_item l.

  (** the declared model, read on (G, F, M_1, M_2, ...) = (X 0, x, X 1, X 2, ...) *)
  Fixpoint sat_items (kb : nat) (l : sent) : Prop :=
    match l with
    | [] => True
    | SC e s :: rest => holdsGF (X 0%nat) x (e, s) /\ sat_items kb rest
    | LMI m :: rest =>
        (forall ije, In ije (entries m) -> X kb (fst (fst ije)) (snd (fst ije)) = evalGF (X 0%nat) x (snd ije))
        /\ sat_items (S kb) rest
    end.

  Theorem rows_meaning : forall l kb, wfR l ->
    (Forall (row_holds x X) (rows_of kb l) <-> sat_items kb l).
  Proof.
    intros l kb Hwf. revert kb. induction Hwf as [|[e s|m] l Hit _ IH]; intros kb; cbn [rows_of sat_items].
    - split; [tauto|constructor].
    - rewrite Forall_cons_iff, (IH kb), (sc_row_holds e s Hit). reflexivity.
    - rewrite Forall_app, (IH (S kb)), Forall_map, Forall_forall.
      split; intros [H1 H2]; (split; [|exact H2]); intros ije Hin;
        apply (lmi_row_holds kb (fst (fst ije)) (snd (fst ije)) (snd ije) (Hit ije Hin)), H1, Hin.
  Qed.
End Rows.

(** sum_i y_i * f(row_i), rows numbered from i0 *)
Fixpoint ysum (y : nat -> R) (f : row -> R) (rows : list row) (i0 : nat) : R :=
  match rows with
  | [] => 0
  | r :: rs => y i0 * f r + ysum y f rs (S i0)
  end.

Lemma ysum_app y f a : forall b i0, ysum y f (a ++ b) i0 = ysum y f a i0 + ysum y f b (i0 + length a)%nat.
Proof.
  induction a as [|r a IH]; intros b i0; cbn [app ysum length].
  - rewrite Nat.add_0_r. lra.
  - rewrite IH. replace (i0 + S (length a))%nat with (S i0 + length a)%nat by lia. lra.
Qed.

Lemma ysum_plus y f g : forall rows i0, ysum y (fun r => f r + g r) rows i0 = ysum y f rows i0 + ysum y g rows i0.
Proof. induction rows as [|r rows IH]; intros i0; cbn [ysum]; [lra|rewrite IH; lra]. Qed.

Lemma ysum_ext y f g : forall rows i0, Forall (fun r => f r = g r) rows -> ysum y f rows i0 = ysum y g rows i0.
Proof.
  induction rows as [|r rows IH]; intros i0 H; cbn [ysum]; [reflexivity|].
  inversion H; subst. rewrite IH by assumption. congruence.
Qed.

Lemma ysum_zero y f rows : (forall r, f r = 0) -> forall i0, ysum y f rows i0 = 0.
Proof. intros H. induction rows as [|r rows IH]; intros i0; cbn [ysum]; [reflexivity|]. rewrite IH, H. lra. Qed.

Lemma ysum_sumn y n (g : nat -> row -> R) : forall rows i0,
  ysum y (fun r => sumn n (fun j => g j r)) rows i0 = sumn n (fun j => ysum y (g j) rows i0).
Proof.
  induction rows as [|r rows IH]; intros i0; cbn [ysum].
  - rewrite sumn_zero. reflexivity.
  - rewrite IH, <- sumn_scal, <- sumn_plus. reflexivity.
Qed.

(** the part of a row that multiplies bar variable j *)
Definition bar_val (j : nat) (Z : nat -> nat -> R) (r : row) : R :=
  lsum (fun jw => if Nat.eqb j (fst jw) then wmat_read Z (snd jw) else 0) (r_bar r).

Lemma bars_val_sumn n X r : Forall (fun jw => (fst jw < n)%nat) (r_bar r) ->
  bars_val X r = sumn n (fun j => bar_val j (X j) r).
Proof.
  unfold bars_val, bar_val. induction (r_bar r) as [|[a wm] l IH]; intros H; cbn [lsum fst snd].
  - rewrite sumn_zero. reflexivity.
  - inversion H as [|? ? Ha H']; subst. cbn [fst] in Ha. rewrite sumn_plus, <- (IH H').
    rewrite (sumn_ext n _ (fun j => if Nat.eqb j a then wmat_read (X a) wm else 0)).
    + rewrite sumn_delta. apply Nat.ltb_lt in Ha. rewrite Ha. reflexivity.
    + intros j _. destruct (Nat.eqb_spec j a) as [->|_]; reflexivity.
Qed.

Section Duals.
  Variable d : sdp.
  Variable y : nat -> R.          (* gety: one multiplier per row *)

  Definition c_val (x : nat -> R) : R := lsum (fun cv => Q2R (snd cv) * x (fst cv)) (d_c d).
  Definition cbar_val (j : nat) (Z : nat -> nat -> R) : R :=
    lsum (fun jw => if Nat.eqb j (fst jw) then wmat_read Z (snd jw) else 0) (d_barc d).
  Definition obj_val (x : nat -> R) (X : nat -> nat -> nat -> R) : R :=
    c_val x + sumn (length (d_bars d)) (fun j => cbar_val j (X j)).

  (** MOSEK's dual equations (assumption A2), for either objective sense:
        A^T y = c   on the scalar variables (as linear functionals of x)
        Sbar_j = Cbar_j - sum_i y_i Abar_ij   -- [Sbar_pair j Z] is <Sbar_j, Z>                      *)
  Definition dual_eq : Prop := forall x, ysum y (lin_val x) (d_rows d) 0 = c_val x.
  Definition Sbar_pair (j : nat) (Z : nat -> nat -> R) : R :=
    cbar_val j Z - ysum y (bar_val j Z) (d_rows d) 0.

  Definition bars_in_range : Prop :=
    Forall (fun r => Forall (fun jw => (fst jw < length (d_bars d))%nat) (r_bar r)) (d_rows d).

  Theorem lagrangian_identity : bars_in_range -> dual_eq ->
    forall x X, obj_val x X
                = ysum y (row_val x X) (d_rows d) 0 + sumn (length (d_bars d)) (fun j => Sbar_pair j (X j)).
  Proof.
    intros Hr Hd x X. unfold obj_val, Sbar_pair.
    rewrite sumn_minus, <- (ysum_sumn y _ (fun j => bar_val j (X j))), <- (Hd x).
    rewrite (ysum_ext y (row_val x X)
               (fun r => lin_val x r + sumn (length (d_bars d)) (fun j => bar_val j (X j) r)) (d_rows d) 0).
    - rewrite ysum_plus. lra.
    - eapply Forall_impl; [|exact Hr]. intros r H. unfold row_val. rewrite (bars_val_sumn _ X r H). reflexivity.
  Qed.
End Duals.

Lemma rows_of_bars_in_range : forall l kb, (1 <= kb)%nat ->
  Forall (fun r => Forall (fun jw => (fst jw < kb + length (lmis l))%nat) (r_bar r)) (rows_of kb l).
Proof.
  induction l as [|[e s|m] l IH]; intros kb Hkb; cbn [rows_of]; [constructor| |].
  - constructor; [|apply IH; exact Hkb]. unfold sc_row; cbn [r_bar]. constructor; [cbn; lia|constructor].
  - change (lmis (LMI m :: l)) with (m :: lmis l). cbn [length]. apply Forall_app. split.
    + apply Forall_map, Forall_forall. intros ije _. unfold lmi_row; cbn [r_bar].
      constructor; [cbn; lia|]. constructor; [cbn; lia|constructor].
    + eapply Forall_impl; [|apply (IH (S kb)); lia]. intros r H. eapply Forall_impl; [|exact H].
      intros jw Hj. cbn beta in *. lia.
Qed.

Section Certificate.
  Variable y : nat -> R.
  Variable x : nat -> R.                    (* F *)
  Variable X : nat -> nat -> nat -> R.      (* X 0 = G, X (k+1) = the matrix of the k-th LMI *)
  Hypothesis Xsym : forall j, symG (X j).

  (** sum over the scalar constraints of  y[row of c] * e_c(G,F) : [nb] mirrors _constraint_index_in_mosek *)
  Fixpoint cert_scalars (nb : nat) (l : sent) : R :=
    match l with
    | [] => 0
    | SC e _ :: rest => y nb * evalGF (X 0%nat) x e + cert_scalars (S nb) rest
    | LMI m :: rest => cert_scalars (nb + length (entries m))%nat rest
    end.

  (** M_k := E_k(G,F): the matrix variable of every LMI takes the value of its matrix of expressions *)
  Fixpoint couplings_hold (kb : nat) (l : sent) : Prop :=
    match l with
    | [] => True
    | SC _ _ :: rest => couplings_hold kb rest
    | LMI m :: rest =>
        (forall ije, In ije (entries m) -> X kb (fst (fst ije)) (snd (fst ije)) = evalGF (X 0%nat) x (snd ije))
        /\ couplings_hold (S kb) rest
    end.

  (** MOSEK's dual objective of a maximisation problem with these rows: sum_i y_i * bound_i *)
  Definition dual_obj (rows : list row) (i0 : nat) : R :=
    ysum y (fun r => Q2R (bound_value (r_bnd r))) rows i0.

  Lemma ysum_rows_of : forall l kb nb, wfR l -> couplings_hold kb l ->
    ysum y (row_val x X) (rows_of kb l) nb = cert_scalars nb l + dual_obj (rows_of kb l) nb.
  Proof.
    unfold dual_obj. intros l kb nb Hwf. revert kb nb.
    induction Hwf as [|[e s|m] l Hit _ IH]; intros kb nb Hc; cbn [rows_of ysum cert_scalars couplings_hold] in *; [lra| |].
    - rewrite (IH kb (S nb) Hc), (sc_row_val x X Xsym e s Hit).
      unfold sc_row. cbn [r_bnd]. rewrite sc_bound_value. lra.
    - destruct Hc as [Hc1 Hc2]. rewrite !ysum_app, map_length, (IH (S kb) _ Hc2).
      rewrite (ysum_ext y (row_val x X) (fun r => Q2R (bound_value (r_bnd r)))
                 (map (fun ije => lmi_row kb (fst (fst ije)) (snd (fst ije)) (snd ije)) (entries m)) nb); [lra|].
      apply Forall_map, Forall_forall. intros ije Hin.
      rewrite (lmi_row_val x X Xsym kb _ _ _ (Hit ije Hin)), (Hc1 ije Hin).
      unfold lmi_row, bound_value. cbn [r_bnd fst snd]. rewrite Q2R_opp. lra.
  Qed.

  (** what _recover_dual_values exposes, paired with a matrix Z:  <-getbarsj(j), Z>  (Cbar_j = 0) *)
  Definition exposed (l : sent) (j : nat) (Z : nat -> nat -> R) : R := ysum y (bar_val j Z) (rows_of 1 l) 0.
End Certificate.

(** the Lagrangian identity of the declared problem: no Cbar, so  <Sbar_j, Z> = - [exposed l j Z] *)
Lemma lagrangian_declared l pc ec obj y : dual_eq (sdp_of l pc ec obj) y -> forall x X,
  x obj = ysum y (row_val x X) (rows_of 1 l) 0 - exposed y l 0 (X 0%nat)
          - sumn (length (lmis l)) (fun k => exposed y l (S k) (X (S k))).
Proof.
  intros Hd x X.
  assert (Hr : bars_in_range (sdp_of l pc ec obj)).
  { unfold bars_in_range, sdp_of. cbn [d_rows d_bars length]. rewrite map_length.
    exact (rows_of_bars_in_range l 1 (le_n 1)). }
  pose proof (lagrangian_identity (sdp_of l pc ec obj) y Hr Hd x X) as H.
  unfold obj_val, c_val, Sbar_pair, cbar_val, sdp_of in H.
  cbn [d_c d_barc d_bars d_rows lsum fst snd length] in H.
  rewrite map_length, sumn_minus, sumn_zero, Q2R_1, sumn_shift in H. unfold exposed. lra.
Qed.

(** [_recover_dual_values] also exposes, per LMI, U[i][j] = - y[first + i*n + j]: minus the multiplier of the row
    coupling entry (i,j) (bd99691).  For EVERY LMI, symmetric as written or not, the reported dual matrix -Sbar_k
    pairs with every symmetric Z as  sum_ij U[i][j] * Z[i][j]  (reported dual = sym(entries_dual)), by MOSEK's dual
    equation Sbar_k = - sum_i y_i Abar_ik: [exposed_is_sym_entries].  The rows' part of the Lagrangian written with
    the entry duals and the entries' expressions needs no symmetry of the matrix of expressions:
    [ysum_rows_of_entries]. *)
Section EntryDuals.
  Variable y : nat -> R.

  (** sum over the entries of one LMI, rows numbered from nb:  (- y row) * f i j e *)
  Fixpoint esum (f : nat -> nat -> edict -> R) (nb : nat) (es : list (nat * nat * edict)) : R :=
    match es with
    | [] => 0
    | ije :: rest => (- y nb) * f (fst (fst ije)) (snd (fst ije)) (snd ije) + esum f (S nb) rest
    end.

  (** ... of the LMI that owns bar variable j *)
  Fixpoint entries_pair (f : nat -> nat -> edict -> R) (j kb nb : nat) (l : sent) : R :=
    match l with
    | [] => 0
    | SC _ _ :: rest => entries_pair f j kb (S nb) rest
    | LMI m :: rest =>
        (if Nat.eqb j kb then esum f nb (entries m) else 0)
        + entries_pair f j (S kb) (nb + length (entries m))%nat rest
    end.

  Lemma ysum_entry_rows j kb Z : symG Z -> (1 <= j)%nat -> forall es nb,
    ysum y (bar_val j Z) (map (fun ije => lmi_row kb (fst (fst ije)) (snd (fst ije)) (snd ije)) es) nb
    = if Nat.eqb j kb then esum (fun i jj _ => Z i jj) nb es else 0.
  Proof.
    intros Hs Hj. induction es as [|[[i jj] e] es IH]; intros nb; cbn [map ysum esum fst snd].
    - destruct (Nat.eqb j kb); reflexivity.
    - rewrite IH. unfold bar_val, lmi_row. cbn [r_bar lsum fst snd].
      destruct (Nat.eqb_spec j 0) as [->|_]; [lia|].
      destruct (Nat.eqb j kb).
      + unfold wmat_read. cbn [lsum fst snd]. rewrite (coupling_read Z i jj Hs), Q2R_1. lra.
      + lra.
  Qed.

  Theorem exposed_is_sym_entries Z j : symG Z -> (1 <= j)%nat -> forall l kb nb,
    ysum y (bar_val j Z) (rows_of kb l) nb = entries_pair (fun i jj _ => Z i jj) j kb nb l.
  Proof.
    intros Hs Hj. induction l as [|[e s|m] l IH]; intros kb nb; cbn [rows_of ysum entries_pair]; [reflexivity| |].
    - rewrite (IH kb (S nb)). unfold bar_val at 1, sc_row. cbn [r_bar lsum fst snd].
      destruct (Nat.eqb_spec j 0) as [->|_]; [lia|]. lra.
    - rewrite ysum_app, map_length, (ysum_entry_rows j kb Z Hs Hj), (IH (S kb)). reflexivity.
  Qed.

  Variable x : nat -> R.
  Variable G : nat -> nat -> R.
  Hypothesis Gsym : symG G.

  Definition zeroM : nat -> nat -> R := fun _ _ => 0.
  Definition XG : nat -> nat -> nat -> R := fun j => if Nat.eqb j 0 then G else zeroM.

  Lemma XG_sym j : symG (XG j).
  Proof. unfold XG. destruct (Nat.eqb j 0); [exact Gsym|intros a b; reflexivity]. Qed.

  Lemma bar_val_zero j r : bar_val j zeroM r = 0.
  Proof.
    apply lsum_zero. intros [a wm]. cbn [fst snd]. destruct (Nat.eqb j a); [|reflexivity].
    apply lsum_zero. intros [q tr]. cbn [fst snd]. unfold tri_read. rewrite lsum_zero; [lra|].
    intros t. unfold tri_val, zeroM. destruct (Nat.eqb _ _); lra.
  Qed.

  (** under [XG] the matrix variables of the LMIs vanish, and so do their pairings with the reported duals *)
  Lemma exposed_lmis_XG l n : sumn n (fun k => exposed y l (S k) (XG (S k))) = 0.
  Proof.
    apply sumn_0. intros k. apply ysum_zero. intros r. apply bar_val_zero.
  Qed.

  (** sum over ALL LMI entries of  U_kij * e_kij(G,F),  U_kij = - y[row of the entry] *)
  Fixpoint cert_entries (nb : nat) (l : sent) : R :=
    match l with
    | [] => 0
    | SC _ _ :: rest => cert_entries (S nb) rest
    | LMI m :: rest => esum (fun _ _ e => evalGF G x e) nb (entries m)
                       + cert_entries (nb + length (entries m))%nat rest
    end.

  Lemma ysum_entry_rows_val kb : (1 <= kb)%nat -> forall es nb,
    (forall ije, In ije es -> eND (snd ije)) ->
    ysum y (row_val x XG) (map (fun ije => lmi_row kb (fst (fst ije)) (snd (fst ije)) (snd ije)) es) nb
    = - esum (fun _ _ e => evalGF G x e) nb es
      + ysum y (fun r => Q2R (bound_value (r_bnd r)))
          (map (fun ije => lmi_row kb (fst (fst ije)) (snd (fst ije)) (snd ije)) es) nb.
  Proof.
    intros Hkb. induction es as [|[[i jj] e] es IH]; intros nb Hnd; cbn [map ysum esum fst snd]; [lra|].
    rewrite IH by (intros ije H; apply Hnd; right; exact H).
    rewrite (lmi_row_val x XG XG_sym kb i jj e (Hnd (i, jj, e) (or_introl eq_refl))).
    unfold lmi_row, bound_value. cbn [r_bnd fst snd]. rewrite Q2R_opp.
    unfold XG. destruct (Nat.eqb_spec kb 0) as [->|_]; [lia|]. cbn [Nat.eqb]. unfold zeroM. lra.
  Qed.

  Lemma ysum_rows_of_entries : forall l kb nb, (1 <= kb)%nat -> wfR l ->
    ysum y (row_val x XG) (rows_of kb l) nb
    = cert_scalars y x XG nb l - cert_entries nb l + dual_obj y (rows_of kb l) nb.
  Proof.
    unfold dual_obj. intros l kb nb Hkb Hwf. revert kb nb Hkb.
    induction Hwf as [|[e s|m] l Hit _ IH]; intros kb nb Hkb; cbn [rows_of ysum cert_scalars cert_entries]; [lra| |].
    - rewrite (IH kb (S nb) Hkb), (sc_row_val x XG XG_sym e s Hit).
      unfold sc_row. cbn [r_bnd]. rewrite sc_bound_value. lra.
    - rewrite !ysum_app, map_length, (IH (S kb) _ ltac:(lia)), (ysum_entry_rows_val kb Hkb _ nb Hit). lra.
  Qed.
End EntryDuals.

(** cvxpy's convention for one n x n LMI: rows  M[i][j] - e_ij == 0  with multipliers u, the matrix variable's
    dual S; the part of the Lagrangian that depends on M is  <S,M> - sum_ij u_ij (M_ij - E_ij).  Constant in
    symmetric M  ==>  <S,Z> = sum_ij u_ij Z_ij  for every symmetric Z: reported dual = sym(entries_dual), as on the
    MOSEK path. *)
Definition msum (n : nat) (f : nat -> nat -> R) : R := sumn n (fun i => sumn n (fun j => f i j)).

Lemma msum_ext n f g : (forall i j, f i j = g i j) -> msum n f = msum n g.
Proof. intros H. unfold msum. apply sumn_ext. intros i _. apply sumn_ext. intros j _. apply H. Qed.

Lemma msum_minus n f g : msum n (fun i j => f i j - g i j) = msum n f - msum n g.
Proof. unfold msum. rewrite <- sumn_minus. apply sumn_ext. intros i _. apply sumn_minus. Qed.

Lemma msum_zero n : msum n (fun _ _ => 0) = 0.
Proof. unfold msum. apply sumn_0. intros i. apply sumn_zero. Qed.

Definition cvx_lag (n : nat) (S u E M : nat -> nat -> R) : R :=
  msum n (fun i j => S i j * M i j) - msum n (fun i j => u i j * (M i j - E i j)).
