(** Vectors of rationals (what [Point.eval] returns) read in the inner-product space [Rn n], and the
    cache-free computations of Model/Eval.v read there: [point_compute] returns evalP, [expr_compute]
    returns evalE (Spec/Sem.v) over the valuation given by the leaf tables of the state, and they raise
    only at a leaf without a value.  Last, the Gram reading: when the leaf vectors have the inner products
    of a matrix -- as the columns of the R factor of Proofs/C02Factor.v have -- a dictionary has at the
    instance its value at that matrix. *)
From Coq Require Import List QArith Reals Qreals Lra.
From PV Require Import Base.IPS Model.Dict Model.Terms Model.Eval Spec.Sem Spec.GramSem
  Proofs.DictLemmas Proofs.SemLemmas Proofs.C02Factor.
From PV Require Spec.KKT Proofs.PSDLemmas.
Import ListNotations.
Local Open Scope R_scope.

Lemma Q2R_0 : Q2R 0 = 0. Proof. unfold Q2R. cbn. lra. Qed.

Definition vecR (v : list Q) : nat -> R := fun i => Q2R (nth i v 0%Q).

Lemma vecR_nil i : vecR [] i = 0.
Proof. unfold vecR. destruct i; apply Q2R_0. Qed.
Lemma vecR_cons_0 x v : vecR (x :: v) 0 = Q2R x.
Proof. reflexivity. Qed.
Lemma vecR_cons_S x v i : vecR (x :: v) (S i) = vecR v i.
Proof. reflexivity. Qed.

Lemma vecR_zipadd a : forall b, length a = length b -> forall i, vecR (zipadd a b) i = vecR a i + vecR b i.
Proof.
  induction a as [|x a IH]; intros [|y b] H i; try discriminate; cbn [zipadd].
  - rewrite vecR_nil. lra.
  - destruct i as [|i]; [apply Q2R_plus|]. injection H as H. exact (IH b H i).
Qed.

Lemma length_zipadd a : forall b, length a = length b -> length (zipadd a b) = length a.
Proof.
  induction a as [|x a IH]; intros [|y b] H; try discriminate; cbn [zipadd length]; [reflexivity|].
  injection H as H. rewrite (IH b H). reflexivity.
Qed.

Lemma length_vscale w v : length (vscale w v) = length v.
Proof. apply map_length. Qed.

Lemma vecR_vscale w v : forall i, vecR (vscale w v) i = Q2R w * vecR v i.
Proof.
  induction v as [|x v IH]; intro i; cbn [vscale map].
  - rewrite vecR_nil. lra.
  - destruct i as [|i]; [apply Q2R_mult|apply IH].
Qed.

Lemma vecR_repeat0 m : forall i, vecR (repeat 0%Q m) i = 0.
Proof.
  induction m as [|m IH]; intro i; cbn [repeat]; [apply vecR_nil|].
  destruct i as [|i]; [apply Q2R_0|apply IH].
Qed.

Lemma dotn_shift k u v :
  dotn (S k) u v = u 0%nat * v 0%nat + dotn k (fun i => u (S i)) (fun i => v (S i)).
Proof.
  induction k as [|k IH].
  - cbn [dotn]. lra.
  - change (dotn (S (S k)) u v) with (dotn (S k) u v + u (S k) * v (S k)).
    rewrite IH. cbn [dotn]. lra.
Qed.

Lemma dotn_sumn n (u v : nat -> R) : dotn n u v = KKT.sumn n (fun b => u b * v b).
Proof. induction n as [|n IH]; cbn [dotn KKT.sumn]; [reflexivity|rewrite IH; reflexivity]. Qed.

Lemma dotl_dotn a : forall b, length a = length b -> Q2R (dotl a b) = dotn (length a) (vecR a) (vecR b).
Proof.
  induction a as [|x a IH]; intros [|y b] H; try discriminate.
  - apply Q2R_0.
  - injection H as H. cbn [dotl length]. rewrite Q2R_plus, Q2R_mult, dotn_shift, (IH b H). reflexivity.
Qed.

(** bilinearity of the list dot product (stated directly on lists, for readers of the model) *)
Lemma dotl_sym a : forall b, (dotl a b == dotl b a)%Q.
Proof.
  induction a as [|x a IH]; intros [|y b]; cbn [dotl]; try reflexivity.
  apply Qplus_comp; [apply Qmult_comm|apply IH].
Qed.
Lemma dotl_zipadd_l a : forall b c, length a = length b -> length a = length c ->
  (dotl (zipadd a b) c == dotl a c + dotl b c)%Q.
Proof.
  induction a as [|x a IH]; intros [|y b] [|z c] H1 H2; try discriminate; cbn [zipadd dotl]; [reflexivity|].
  injection H1 as H1. injection H2 as H2. rewrite (IH b c H1 H2). ring.
Qed.
Lemma dotl_vscale_l w a : forall c, (dotl (vscale w a) c == w * dotl a c)%Q.
Proof.
  induction a as [|x a IH]; intros [|z c]; cbn [vscale map dotl]; try (symmetry; apply Qmult_0_r).
  fold (vscale w a). rewrite IH. ring.
Qed.

(** [Rn n] computes pointwise *)
Lemma Rn_vadd n (u v : Rn n) i : (vadd u v : nat -> R) i = (u : nat -> R) i + (v : nat -> R) i.
Proof. reflexivity. Qed.
Lemma Rn_vscal n a (u : Rn n) i : (vscal a u : nat -> R) i = a * (u : nat -> R) i.
Proof. reflexivity. Qed.
Lemma Rn_vzero n i : (@vzero (Rn n) : nat -> R) i = 0.
Proof. reflexivity. Qed.
Lemma Rn_inner n (u v : Rn n) : inner u v = dotn n u v.
Proof. reflexivity. Qed.

(** numpy's [+] on two arrays of the same length *)
Lemma np_add_same a b : length a = length b -> np_add a b = Ok (zipadd a b).
Proof. intro H. unfold np_add. rewrite H, Nat.eqb_refl. reflexivity. Qed.

(** ** the valuation read off the leaf tables *)
Definition lvec (st : est) (k : nat) : list Q :=
  match nth_error (lpv st) k with Some (Some v) => v | _ => [] end.
Definition lnum (st : est) (e : nat) : Q :=
  match nth_error (lev st) e with Some (Some q) => q | _ => 0%Q end.
Definition rho_of (n : nat) (st : est) : nat -> Rn n := fun k => vecR (lvec st k).
Definition phi_of (st : est) : nat -> R := fun e => Q2R (lnum st e).

Lemma rho_of_eq n st k i : (rho_of n st k : nat -> R) i = vecR (lvec st k) i.
Proof. reflexivity. Qed.

(** every assigned leaf point has a vector of length [n] (after a solve: [n] = number of leaf points
    at that solve, pep.py 887: [points_values] is the n x n factor R of a QR decomposition) *)
Definition solved (n : nat) (st : est) : Prop :=
  forall i v, nth_error (lpv st) i = Some (Some v) -> length v = n.

Lemma leafE_Ok st e q : leafE st e = Ok q -> lnum st e = q.
Proof.
  unfold leafE, lnum. destruct (nth_error (lev st) e) as [[u|]|]; try discriminate.
  intros [= ->]. reflexivity.
Qed.

(** The cache-free computations, under [solved n st]: what they return is the combination of the leaf
    values (Spec/Sem.v), and they return something as soon as every leaf they mention has a value.  The
    second family of lemmas does not mention the reals, and stays free of their axioms. *)
Section Hom.
  Variable n : nat.
  Variable st : est.
  Hypothesis Hsol : solved n st.

  Notation rho := (rho_of n st).
  Notation phi := (phi_of st).

  Lemma leafP_Ok k v : leafP st k = Ok v -> length v = n /\ lvec st k = v.
  Proof.
    unfold leafP, lvec. pose proof (Hsol k) as Hk. destruct (nth_error (lpv st) k) as [[u|]|]; try discriminate.
    intros [= ->]. auto.
  Qed.

  (** the loop of Point.eval once the accumulator is an array *)
  Lemma point_sum_hom : forall d a r, length a = n -> point_sum st (Some a) d = Ok r ->
    match r with
    | Some v => length v = n /\ forall i, vecR v i = vecR a i + (evalP rho d : nat -> R) i
    | None => False
    end.
  Proof.
    induction d as [|[k w] d IH]; intros a r Ha; cbn [point_sum].
    - intros [= <-]. split; [exact Ha|]. intro i. cbn [evalP]. rewrite Rn_vzero. lra.
    - destruct (leafP st k) as [u|] eqn:Hk; [|discriminate].
      apply leafP_Ok in Hk as [Hu Hl].
      assert (Hlen : length a = length (vscale w u)) by (rewrite length_vscale; congruence).
      rewrite np_add_same by exact Hlen. intro H.
      apply IH in H; [|rewrite length_zipadd; assumption]. destruct r as [v|]; [|exact H].
      destruct H as [H1 H2]. split; [exact H1|]. intro i.
      rewrite H2, vecR_zipadd, vecR_vscale by exact Hlen.
      cbn [evalP]. rewrite Rn_vadd, Rn_vscal, rho_of_eq, Hl. lra.
  Qed.

  (** Point.eval of a derived point: the value is the combination, coordinate by coordinate, whatever
      [m]; it has [n] coordinates unless the combination is empty *)
  Lemma point_compute_hom m d v : point_compute m st d = Ok v ->
    (forall i, vecR v i = (evalP rho d : nat -> R) i) /\ (d <> [] -> length v = n).
  Proof.
    unfold point_compute. destruct d as [|[k w] d]; cbn [point_sum].
    - intros [= <-]. split; [|congruence]. intro i. rewrite vecR_repeat0. reflexivity.
    - destruct (leafP st k) as [u|] eqn:Hk; [|discriminate].
      apply leafP_Ok in Hk as [Hu Hl].
      destruct (point_sum st (Some (vscale w u)) d) as [r|] eqn:H; [|discriminate].
      apply point_sum_hom in H; [|rewrite length_vscale; exact Hu]. destruct r as [v'|]; [|destruct H].
      intros [= <-]. destruct H as [H1 H2]. split; [|intros _; exact H1]. intro i.
      rewrite H2, vecR_vscale. cbn [evalP]. rewrite Rn_vadd, Rn_vscal, rho_of_eq, Hl. reflexivity.
  Qed.

  Lemma point_sum_total : forall d a, length a = n ->
    (forall k, In k (keys d) -> exists u, leafP st k = Ok u) -> exists v, point_sum st (Some a) d = Ok (Some v).
  Proof.
    induction d as [|[k w] d IH]; intros a Ha Hk; cbn [point_sum]; [eauto|].
    destruct (Hk k) as [u Hu]; [left; reflexivity|]. rewrite Hu.
    apply leafP_Ok in Hu as [Hu _].
    assert (Hlen : length a = length (vscale w u)) by (rewrite length_vscale; congruence).
    rewrite np_add_same by exact Hlen.
    apply IH; [rewrite length_zipadd; assumption|]. intros k' Hin. apply Hk. right. exact Hin.
  Qed.

  Lemma point_compute_total m d :
    (forall k, In k (keys d) -> exists u, leafP st k = Ok u) -> exists v, point_compute m st d = Ok v.
  Proof.
    intro Hk. unfold point_compute. destruct d as [|[k w] d]; cbn [point_sum]; [eauto|].
    destruct (Hk k) as [u Hu]; [left; reflexivity|]. rewrite Hu.
    apply leafP_Ok in Hu as [Hu _].
    destruct (point_sum_total d (vscale w u)) as [v ->]; [rewrite length_vscale; exact Hu| |eauto].
    intros k' Hin. apply Hk. right. exact Hin.
  Qed.

  (** Expression.eval of a derived expression *)
  Lemma key_val_hom k x : key_val st k = Ok x -> Q2R x = evalK rho phi k.
  Proof.
    destruct k as [e|i j|]; cbn [key_val evalK].
    - intro H. apply leafE_Ok in H. unfold phi_of. rewrite H. reflexivity.
    - destruct (leafP st i) as [vi|] eqn:Hi; [|discriminate].
      destruct (leafP st j) as [vj|] eqn:Hj; [|discriminate].
      apply leafP_Ok in Hi as [Li Hli]. apply leafP_Ok in Hj as [Lj Hlj].
      unfold np_dot. rewrite Li, Lj, Nat.eqb_refl. intros [= <-]. rewrite dotl_dotn by congruence.
      rewrite Rn_inner, Li. unfold rho_of. rewrite Hli, Hlj. reflexivity.
    - intros [= <-]. apply Q2R_1.
  Qed.

  Lemma expr_sum_hom : forall d acc q, expr_sum st acc d = Ok q -> Q2R q = Q2R acc + evalE rho phi d.
  Proof.
    induction d as [|[k w] d IH]; intros acc q H; cbn [expr_sum evalE] in *.
    - injection H as <-. lra.
    - destruct (key_val st k) as [x|] eqn:Hk; [|discriminate].
      apply IH in H. rewrite H, Q2R_plus, Q2R_mult, (key_val_hom _ _ Hk). lra.
  Qed.

  Lemma expr_compute_hom d q : expr_compute st d = Ok q -> Q2R q = evalE rho phi d.
  Proof. unfold expr_compute. intro H. apply expr_sum_hom in H. rewrite H, Q2R_0. lra. Qed.

  Definition key_assigned (k : ekey) : Prop :=
    match k with KF e => exists q, leafE st e = Ok q
            | KG i j => (exists v, leafP st i = Ok v) /\ (exists v, leafP st j = Ok v)
            | K1 => True end.

  Lemma key_val_total k : key_assigned k -> exists x, key_val st k = Ok x.
  Proof.
    destruct k as [e|i j|]; cbn [key_val key_assigned].
    - intros [q ->]. eauto.
    - intros [[vi Hi] [vj Hj]]. rewrite Hi, Hj.
      apply leafP_Ok in Hi as [Li _]. apply leafP_Ok in Hj as [Lj _].
      unfold np_dot. rewrite Li, Lj, Nat.eqb_refl. eauto.
    - eauto.
  Qed.

  Lemma expr_sum_total : forall d acc, (forall k, In k (keys d) -> key_assigned k) ->
    exists q, expr_sum st acc d = Ok q.
  Proof.
    induction d as [|[k w] d IH]; intros acc Hk; cbn [expr_sum]; [eauto|].
    destruct (key_val_total k) as [x ->]; [apply Hk; left; reflexivity|].
    apply IH. intros k' Hin. apply Hk. right. exact Hin.
  Qed.
End Hom.

(** ** Gram reading: if the leaf vectors reproduce a matrix [Gp] (hypothesis about numpy's eigh / QR,
    measured by the harness on every solve) the value of a dictionary at the instance is its value at
    [(Gp, F)] -- what the solver saw, with [Gp] the PSD projection of its Gram matrix. *)
Lemma evalE_evalGF (E : ips) (rho : nat -> E) (phi : nat -> R) (Gp : nat -> nat -> R) (d : edict) :
  (forall i j, In (KG i j) (keys d) -> inner (rho i) (rho j) = Gp i j) ->
  evalE rho phi d = evalGF Gp phi d.
Proof.
  induction d as [|[k w] d IH]; intro H; cbn [evalE evalGF]; [reflexivity|].
  rewrite IH by (intros i j Hin; apply H; right; exact Hin). f_equal. f_equal.
  destruct k as [e|i j|]; cbn [evalK evalKGF]; try reflexivity.
  apply H. left. reflexivity.
Qed.

(** ... and they do reproduce the projection when their coordinates are the columns of the factor R that qr
    returns for [scaled_T lam V] (what the leaf assignment gives) *)
Lemma columns_inner n st lam V Qm Rm :
  qr_spec n (scaled_T lam V) Qm Rm ->
  (forall k b, (k < n)%nat -> (b < n)%nat -> (rho_of n st k : nat -> R) b = Rm b k) ->
  forall i j, (i < n)%nat -> (j < n)%nat -> inner (rho_of n st i) (rho_of n st j) = proj n lam V i j.
Proof.
  intros Hq Hcols i j Hi Hj.
  rewrite <- scaled_gram, <- (qr_gram n _ Qm Rm Hq i j Hi Hj), Rn_inner, dotn_sumn.
  apply PSDLemmas.sumn_ext. intros b Hb. rewrite (Hcols i b Hi Hb), (Hcols j b Hj Hb). reflexivity.
Qed.
