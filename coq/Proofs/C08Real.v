(** C08, real executions: a REAL execution of a step satisfies what the step recorded, and conversely
    what was recorded characterises a real execution ("nothing stronger or weaker").

    First the mathematics, in an arbitrary real inner-product space (first-order optimality of the
    Bregman proximal step along segments, the prox being its case for the mirror map |.|^2 / 2; Fermat's
    rule along lines for Gateaux-differentiable functions, normal cones, the Bregman gradient step,
    epsilon-subgradients, conjugates).  Then the tie to the generated programs: valuing the fresh leaves
    created by the step with the real outputs makes every recorded sample genuine and every recorded
    constraint true. *)
From Coq Require Import List Reals Psatz Bool.
From PV Require Import Base.IPS Model.Dict Model.Terms Model.StepsRT Gen.Steps Spec.Sem Spec.Classes Spec.StepsSpec
                       Proofs.DictLemmas Proofs.SemLemmas Proofs.C08Lemmas Proofs.C08Records.
Import ListNotations.
Local Open Scope R_scope.
Local Opaque veq.

Lemma limit_t0 a c : 0 <= c -> (forall t, 0 < t < 1 -> 0 <= a + t * c) -> 0 <= a.
Proof.
  intros Hc H. destruct (Rle_lt_dec 0 a) as [Ha|Ha]; [exact Ha|]. exfalso.
  destruct (Rle_lt_dec c (- a)) as [Hca|Hca].
  - pose proof (H (1 / 2) ltac:(lra)). lra.
  - assert (Hcpos : 0 < c) by lra.
    set (t := - a / (2 * c)).
    assert (Htc : t * c = - a / 2) by (unfold t; field; lra).
    assert (Ht0 : 0 < t) by (unfold t; apply Rdiv_lt_0_compat; lra).
    assert (Ht1 : t < 1).
    { apply Rmult_lt_reg_r with (r := c); [exact Hcpos|]. lra. }
    pose proof (H t (conj Ht0 Ht1)). lra.
Qed.

Section Math.
  Context {E : ips}.
  Implicit Types x y z g d u v w : E.

  Lemma subgrad_ext (F : @fn E) x x' g g' :
    fn_ext F -> veq x x' -> veq g g' -> subgrad F x g -> subgrad F x' g'.
  Proof.
    intros HF Hx Hg [Hd Hs]. destruct (HF x x' Hx) as [Hdd Hv]. split; [apply Hdd; exact Hd|].
    intros y Hy. rewrite <- Hv, <- Hg, <- Hx. apply Hs, Hy.
  Qed.

  (** a first-order condition scaled by gamma > 0 is a subgradient inequality *)
  Lemma subgrad_scaled (F : @fn E) gamma x u :
    0 < gamma -> dom F x ->
    (forall y, dom F y -> 0 <= gamma * (val F y - val F x) - inner u (vsub y x)) ->
    subgrad F x (vscal (1 / gamma) u).
  Proof.
    intros Hg Hdx H. split; [exact Hdx|]. intros y Hy. rewrite inner_scal_l.
    assert (Hk : 0 <= 1 / gamma * (gamma * (val F y - val F x) - inner u (vsub y x)))
      by (apply Rmult_le_pos; [left; apply Rdiv_lt_0_compat; lra|apply H, Hy]).
    replace (1 / gamma * (gamma * (val F y - val F x) - inner u (vsub y x)))
      with (val F y - val F x - 1 / gamma * inner u (vsub y x)) in Hk by (field; lra).
    lra.
  Qed.

  Theorem bregman_prox_optimality (F : @fn E) (H : @dfn E) gamma s0 x :
    convex_fn F -> gateaux H -> 0 < gamma -> is_bregman_prox F H gamma s0 x ->
    subgrad F x (vscal (1 / gamma) (vsub s0 (dgrad H x))).
  Proof.
    intros Hc HG Hg [Hdx Hmin]. apply subgrad_scaled; [exact Hg|exact Hdx|]. intros y Hy.
    set (d := vsub y x).
    replace (inner (vsub s0 (dgrad H x)) d) with (inner s0 d - inner (dgrad H x) d) by (bilin; ring).
    apply limit_t0 with (c := 1); [lra|]. intros eps [He _]. rewrite Rmult_1_r. destruct (HG x d eps He) as (delta & Hd & HGd).
    set (t := Rmin (1 / 2) (delta / 2)).
    assert (Ht0 : 0 < t) by (unfold t; apply Rmin_glb_lt; lra).
    assert (Ht1 : t < 1) by (unfold t; pose proof (Rmin_l (1 / 2) (delta / 2)); lra).
    assert (Htd : t < delta) by (unfold t; pose proof (Rmin_r (1 / 2) (delta / 2)); lra).
    assert (Habs : Rabs t = t) by (apply Rabs_pos_eq; lra).
    destruct (Hc x y t Hdx Hy (conj Ht0 Ht1)) as [Hdz Hvz].
    pose proof (Hmin _ Hdz) as Hm. change (seg x y t) with (vadd x (vscal t d)) in *.
    pose proof (HGd t ltac:(rewrite Habs; exact Htd)) as G. rewrite Habs in G.
    pose proof (Rle_abs (dval H (vadd x (vscal t d)) - dval H x - t * inner (dgrad H x) d)) as A.
    replace (inner s0 (vadd x (vscal t d))) with (inner s0 x + t * inner s0 d) in Hm by (bilin; ring).
    assert (Hg' : gamma * val F (vadd x (vscal t d)) <= gamma * ((1 - t) * val F x + t * val F y))
      by (apply Rmult_le_compat_l; lra).
    apply Rmult_le_reg_l with (r := t); [exact Ht0|]. lra.
  Qed.

  Theorem bregman_prox_converse (F : @fn E) (H : @dfn E) gamma s0 x g :
    grad_convex H -> 0 <= gamma -> subgrad F x g -> veq (dgrad H x) (vsub s0 (vscal gamma g)) ->
    is_bregman_prox F H gamma s0 x.
  Proof.
    intros Hc Hg [Hdx Hs] Hgr. split; [exact Hdx|]. intros y Hy.
    pose proof (Hc x y) as P. rewrite Hgr in P. bilin_in P. pose proof (Hs y Hy) as Q. bilin_in Q.
    assert (Hm : gamma * val F y >= gamma * (val F x + (inner g y + -1 * inner g x)))
      by (apply Rmult_ge_compat_l; lra).
    lra.
  Qed.

  (** *** proximal step: the Bregman proximal step of the mirror map |.|^2 / 2, whose gradient is the
      identity *)
  Definition half_sq : @dfn E := mkD (fun x => nrm2 x / 2) (fun x => x).

  Lemma gateaux_half_sq : gateaux half_sq.
  Proof.
    intros x d eps He. set (N := nrm2 d). assert (HN : 0 <= N) by apply inner_pos.
    exists (eps / (N + 1)). split; [apply Rdiv_lt_0_compat; lra|]. intros t Ht. cbn [dval dgrad half_sq].
    replace (nrm2 (vadd x (vscal t d)) / 2 - nrm2 x / 2 - t * inner x d) with (Rabs t * Rabs t * N / 2).
    2:{ rewrite <- Rabs_mult, (Rabs_pos_eq (t * t)) by nra. unfold N. bilin. orient [x; d]. field. }
    assert (Ha : Rabs t * (N + 1) < eps).
    { apply Rmult_lt_compat_r with (r := N + 1) in Ht; [|lra].
      unfold Rdiv in Ht. rewrite Rmult_assoc, Rinv_l, Rmult_1_r in Ht by lra. exact Ht. }
    pose proof (Rabs_pos t) as Hp. rewrite Rabs_pos_eq by nra. nra.
  Qed.

  Lemma grad_convex_half_sq : grad_convex half_sq.
  Proof.
    intros x y. cbn [dval dgrad half_sq]. pose proof (inner_pos E (vsub y x)) as P.
    replace (inner (vsub y x) (vsub y x)) with (nrm2 y - 2 * inner x (vsub y x) - nrm2 x) in P
      by (bilin; orient [x; y]; ring).
    lra.
  Qed.

  Lemma is_prox_bregman (F : @fn E) gamma x0 x : is_prox F gamma x0 x <-> is_bregman_prox F half_sq gamma x0 x.
  Proof.
    assert (Hsq : forall y, 1 / 2 * nrm2 (vsub y x0) = dval half_sq y - inner x0 y + nrm2 x0 / 2).
    { intros y. cbn [dval half_sq]. bilin. orient [x0; y]. field. }
    unfold is_prox, is_bregman_prox. split; intros [Hdx H]; (split; [exact Hdx|]); intros y Hy;
      specialize (H y Hy); rewrite !Hsq in *; lra.
  Qed.

  (** x = prox_{gamma F}(x0)  =>  (x0 - x) / gamma is a subgradient of F at x *)
  Theorem prox_optimality (F : @fn E) gamma x0 x :
    convex_fn F -> 0 < gamma -> is_prox F gamma x0 x ->
    subgrad F x (vscal (1 / gamma) (vsub x0 x)).
  Proof.
    intros Hc Hg Hp. apply is_prox_bregman in Hp.
    exact (bregman_prox_optimality F half_sq gamma x0 x Hc gateaux_half_sq Hg Hp).
  Qed.

  (** conversely x = x0 - gamma g with g a subgradient at x  =>  x is the prox (no convexity needed) *)
  Theorem prox_converse (F : @fn E) gamma x0 x g :
    0 <= gamma -> subgrad F x g -> veq x (vsub x0 (vscal gamma g)) -> is_prox F gamma x0 x.
  Proof.
    intros Hg Hs Hx. apply is_prox_bregman.
    exact (bregman_prox_converse F half_sq gamma x0 x g grad_convex_half_sq Hg Hs Hx).
  Qed.

  (** *** linear optimisation over the domain of an indicator *)
  Theorem linopt_iff_normal (F : @fn E) dir x :
    (forall z, dom F z -> val F z = 0) ->
    (is_linopt F dir x <-> subgrad F x (vneg dir)).
  Proof.
    intros Hind.
    assert (Hq : forall y, inner (vneg dir) (vsub y x) = inner dir x - inner dir y) by (intros y; bilin; ring).
    split; intros [Hdx H]; (split; [exact Hdx|]); intros y Hy; specialize (H y Hy);
      rewrite (Hind y Hy), (Hind x Hdx), ?Hq in *; lra.
  Qed.

  (** *** Fermat's rule along a line for a Gateaux-differentiable function *)
  Theorem fermat_line (F : @dfn E) x d :
    gateaux F -> (forall t, dval F x <= dval F (vadd x (vscal t d))) -> inner (dgrad F x) d = 0.
  Proof.
    intros HG Hmin. set (p := inner (dgrad F x) d).
    assert (Hb : forall eps, 0 < eps -> - eps <= p <= eps).
    { intros eps He. destruct (HG x d eps He) as (delta & Hd & Hg).
      assert (Habs1 : Rabs (delta / 2) = delta / 2) by (apply Rabs_pos_eq; lra).
      assert (Habs2 : Rabs (- (delta / 2)) = delta / 2) by (rewrite Rabs_Ropp; exact Habs1).
      pose proof (Hg (delta / 2) ltac:(lra)) as G1. rewrite Habs1 in G1.
      pose proof (Hg (- (delta / 2)) ltac:(lra)) as G2. rewrite Habs2 in G2.
      pose proof (Hmin (delta / 2)) as M1. pose proof (Hmin (- (delta / 2))) as M2.
      fold p in G1, G2.
      pose proof (Rle_abs (dval F (vadd x (vscal (delta / 2) d)) - dval F x - delta / 2 * p)) as A1.
      pose proof (Rle_abs (dval F (vadd x (vscal (- (delta / 2)) d)) - dval F x - - (delta / 2) * p)) as A2.
      assert (P1 : - (delta / 2) * p <= eps * (delta / 2)) by lra.
      assert (P2 : (delta / 2) * p <= eps * (delta / 2)) by lra.
      split; apply Rmult_le_reg_l with (r := delta / 2); lra. }
    destruct (Rtotal_order p 0) as [Hp|[Hp|Hp]]; [|exact Hp|].
    - pose proof (Hb (- p / 2) ltac:(lra)). lra.
    - pose proof (Hb (p / 2) ltac:(lra)). lra.
  Qed.

  Lemma inner_span g u ds :
    (forall d, In d ds -> inner g d = 0) -> in_span u ds -> inner g u = 0.
  Proof.
    intros Hg (cs & Hlen & Hu). rewrite Hu. clear Hu u. revert cs Hlen.
    induction ds as [|d ds IH]; intros [|c cs] Hlen; cbn [combine lincomb]; try discriminate.
    - apply inner_zero_r.
    - rewrite inner_add_r, inner_scal_r, (Hg d (or_introl eq_refl)), IH.
      + lra.
      + intros d' Hd'. apply Hg. right. exact Hd'.
      + cbn in Hlen. lia.
  Qed.

  Lemma in_span_add u t d ds : In d ds -> in_span u ds -> in_span (vadd u (vscal t d)) ds.
  Proof.
    intros Hin (cs & Hlen & Hu). revert u cs Hlen Hu Hin.
    induction ds as [|d0 ds IH]; intros u [|c cs] Hlen Hu Hin; try discriminate; [destruct Hin|].
    cbn [combine lincomb] in Hu. destruct Hin as [->|Hin].
    - exists ((c + t) :: cs). split; [exact Hlen|]. cbn [combine lincomb].
      apply veq_intro. intros w. rewrite Hu. bilin. ring.
    - destruct (IH (lincomb (combine cs ds)) cs) as (cs' & Hlen' & Hu'); [cbn in Hlen; lia|reflexivity|exact Hin|].
      exists (c :: cs'). split; [cbn in *; lia|]. cbn [combine lincomb].
      apply veq_intro. intros w. rewrite Hu. rewrite <- Hu'. bilin. ring.
  Qed.

  (** *** exact line search on a differentiable function: the documented conditions hold *)
  Theorem linesearch_orthogonality (F : @dfn E) x0 ds x :
    gateaux F -> dfn_ext F -> is_linesearch F x0 ds x ->
    (forall d, In d ds -> inner (dgrad F x) d = 0) /\ inner (dgrad F x) (vsub x x0) = 0.
  Proof.
    intros HG Hext [Hsp Hmin].
    assert (Hd : forall d, In d ds -> inner (dgrad F x) d = 0).
    { intros d Hin. apply fermat_line; [exact HG|]. intros t. apply Hmin.
      destruct (in_span_add (vsub x x0) t d ds Hin Hsp) as (cs & Hlen & Hu).
      exists cs. split; [exact Hlen|]. rewrite <- Hu. apply veq_intro. intros w. bilin. ring. }
    split; [exact Hd|]. apply inner_span with (ds := ds); assumption.
  Qed.

  (** conversely, for a convex differentiable F: x - x0 in the span and the gradient orthogonal to
      every direction  =>  x is the exact line/span search point.  (The step records the
      orthogonality conditions only: the documented relaxation.) *)
  Theorem linesearch_converse (F : @dfn E) x0 ds x :
    grad_convex F -> in_span (vsub x x0) ds ->
    (forall d, In d ds -> inner (dgrad F x) d = 0) -> is_linesearch F x0 ds x.
  Proof.
    intros Hc Hsp Hd. split; [exact Hsp|]. intros y Hy. pose proof (Hc x y) as P.
    assert (H1 : inner (dgrad F x) (vsub y x0) = 0) by (apply inner_span with (ds := ds); assumption).
    assert (H2 : inner (dgrad F x) (vsub x x0) = 0) by (apply inner_span with (ds := ds); assumption).
    assert (Hq : inner (dgrad F x) (vsub y x)
                 = inner (dgrad F x) (vsub y x0) - inner (dgrad F x) (vsub x x0)) by (bilin; ring).
    lra.
  Qed.

  Theorem bregman_gradient_optimality (H : @dfn E) gamma g0 s0 x :
    gateaux H -> is_bregman_gradient H gamma g0 s0 x ->
    veq (dgrad H x) (vsub s0 (vscal gamma g0)).
  Proof.
    intros HG Hmin.
    set (Phi := mkD (fun y => gamma * inner g0 y + (dval H y - inner s0 y))
                    (fun y => vadd (vscal gamma g0) (vsub (dgrad H y) s0))).
    assert (HGP : gateaux Phi).
    { intros z d eps He. destruct (HG z d eps He) as (delta & Hd & Hg). exists delta. split; [exact Hd|].
      intros t Ht. pose proof (Hg t Ht) as G. cbn [dval dgrad Phi].
      replace (gamma * inner g0 (vadd z (vscal t d)) + (dval H (vadd z (vscal t d)) - inner s0 (vadd z (vscal t d)))
               - (gamma * inner g0 z + (dval H z - inner s0 z))
               - t * inner (vadd (vscal gamma g0) (vsub (dgrad H z) s0)) d)
        with (dval H (vadd z (vscal t d)) - dval H z - t * inner (dgrad H z) d) by (bilin; ring).
      exact G. }
    apply veq_intro. intros w.
    pose proof (fermat_line Phi x w HGP) as Fm. cbn [dval dgrad Phi] in Fm.
    assert (Hz : inner (vadd (vscal gamma g0) (vsub (dgrad H x) s0)) w = 0).
    { apply Fm. intros t. apply Hmin. }
    bilin_in Hz. bilin. lra.
  Qed.

  Theorem bregman_gradient_converse (H : @dfn E) gamma g0 s0 x :
    grad_convex H -> veq (dgrad H x) (vsub s0 (vscal gamma g0)) -> is_bregman_gradient H gamma g0 s0 x.
  Proof.
    intros Hc Hg y. pose proof (Hc x y) as P. rewrite Hg in P. bilin_in P. lra.
  Qed.

  (** recorded => real: the sample (y, g, F y) and the recorded inequality make g an eps-subgradient at x0 *)
  Theorem eps_subgrad_from_record (F : @fn E) eps x0 y g :
    dom F x0 -> subgrad F y g ->
    val F x0 + (inner g y - val F y) - inner g x0 <= eps -> eps_subgrad F eps x0 g.
  Proof.
    intros Hd0 [_ Hs] Hc. split; [exact Hd0|]. intros z Hz. pose proof (Hs z Hz) as P.
    bilin_in P. bilin. lra.
  Qed.

  (** real => recorded, under attainment of the conjugate (a point y with g a subgradient at y) *)
  Theorem eps_subgrad_to_record (F : @fn E) eps x0 y g :
    eps_subgrad F eps x0 g -> subgrad F y g ->
    val F x0 + (inner g y - val F y) - inner g x0 <= eps.
  Proof. intros [_ He] [Hdy _]. pose proof (He y Hdy) as P. bilin_in P. lra. Qed.
End Math.

(** ** Valuing the fresh leaves by the real outputs *)

(** a dictionary that only mentions leaves created before n does not see the value given to leaf m >= n *)
Lemma evalP_upd_fresh {E : ips} (rho : nat -> E) n m v d :
  below n d -> (n <= m)%nat -> evalP (upd m v rho) d = evalP rho d.
Proof.
  intros Hb Hm. induction d as [|[k q] d IH]; cbn [evalP]; [reflexivity|].
  rewrite IH.
  - rewrite upd_other; [reflexivity|]. assert (k < n)%nat by (apply Hb; left; reflexivity). lia.
  - intros k' Hk'. apply Hb. right. exact Hk'.
Qed.

Lemma evalP_upd2_fresh {E : ips} (rho : nat -> E) n a b d :
  below n d -> evalP (upd (S n) a (upd n b rho)) d = evalP rho d.
Proof.
  intros Hb. rewrite evalP_upd_fresh with (n := n) by (auto; lia).
  apply evalP_upd_fresh with (n := n); auto.
Qed.

Lemma below_leaf n m : (n < m)%nat -> below m (leafP n).
Proof. intros H k [<-|[]]. exact H. Qed.

Lemma below_mono n m d : (n <= m)%nat -> below n d -> below m d.
Proof. intros H Hb k Hk. specialize (Hb k Hk). lia. Qed.

Lemma evalP_upd_leaf {E : ips} (rho : nat -> E) n v : veq (evalP (upd n v rho) (leafP n)) v.
Proof. rewrite evalP_leaf, upd_same. reflexivity. Qed.
Lemma evalE_upd_leaf {E : ips} (rho : nat -> E) phi m c : evalE rho (upd m c phi) (leafX m) = c.
Proof. rewrite evalE_leaf. apply upd_same. Qed.

(** a recorded sample is genuine iff it is so at the vectors its dictionaries mean *)
Section Samples.
  Context {E : ips} (rho : nat -> E) (phi : nat -> R).

  Lemma genuine_sub_at (F : @fn E) x g v xr gr :
    fn_ext F -> veq (evalP rho x) xr -> veq (evalP rho g) gr ->
    (genuine_sub F (sem_smp rho phi (x, g, v)) <-> subgrad F xr gr /\ evalE rho phi v = val F xr).
  Proof.
    intros HF Hx Hg. unfold genuine_sub. cbn [sem_smp]. rewrite (proj2 (HF _ _ Hx)).
    split; intros [Hs Hf]; (split; [|exact Hf]).
    - exact (subgrad_ext F _ _ _ _ HF Hx Hg Hs).
    - refine (subgrad_ext F _ _ _ _ HF _ _ Hs); symmetry; assumption.
  Qed.

  Lemma genuine_grad_at (F : @dfn E) x g v xr :
    dfn_ext F -> veq (evalP rho x) xr ->
    (genuine_grad F (sem_smp rho phi (x, g, v))
     <-> veq (evalP rho g) (dgrad F xr) /\ evalE rho phi v = dval F xr).
  Proof.
    intros HF Hx. unfold genuine_grad. cbn [sem_smp]. destruct (HF _ _ Hx) as [Hv Hg]. rewrite Hv, Hg.
    reflexivity.
  Qed.
End Samples.

Theorem proximal_step_real x0 f gamma s out :
  below (pt_ctr s) x0 -> proximal_step_spec x0 f gamma s out ->
  exists x,
    out = (ROk [RP x; RP (leafP (pt_ctr s)); RX (leafX (ex_ctr s))],
           add_sample f (x, leafP (pt_ctr s), leafX (ex_ctr s)) (bump 1 1 s))
    /\ (* a real proximal point, with its subgradient and value, satisfies what was recorded *)
       (forall (E : ips) (F : @fn E) (rho : nat -> E) (phi : nat -> R) (xr : E),
          convex_fn F -> fn_ext F -> 0 < Q2R gamma -> is_prox F (Q2R gamma) (evalP rho x0) xr ->
          let rho' := upd (pt_ctr s) (vscal (1 / Q2R gamma) (vsub (evalP rho x0) xr)) rho in
          let phi' := upd (ex_ctr s) (val F xr) phi in
          veq (evalP rho' x) xr
          /\ genuine_sub F (sem_smp rho' phi' (x, leafP (pt_ctr s), leafX (ex_ctr s))))
    /\ (* and whatever satisfies what was recorded is the proximal point *)
       (forall (E : ips) (F : @fn E) (rho : nat -> E) (phi : nat -> R),
          fn_ext F -> 0 <= Q2R gamma ->
          genuine_sub F (sem_smp rho phi (x, leafP (pt_ctr s), leafX (ex_ctr s))) ->
          is_prox F (Q2R gamma) (evalP rho x0) (evalP rho x)).
Proof.
  intros Hb (x & -> & _ & Hx). exists x. split; [reflexivity|]. split.
  - intros E F rho phi xr Hc Hext Hg Hp rho' phi'.
    assert (Hxr : veq (evalP rho' x) xr).
    { rewrite (Hx E rho'). unfold rho'. rewrite (evalP_upd_fresh rho _ _ _ _ Hb (le_n _)), upd_same.
      apply veq_intro. intros w. bilin. field. lra. }
    split; [exact Hxr|]. apply (genuine_sub_at rho' phi' F _ _ _ _ _ Hext Hxr (evalP_upd_leaf rho _ _)).
    split; [apply prox_optimality; assumption|apply evalE_upd_leaf].
  - intros E F rho phi Hext Hg Hs.
    apply (genuine_sub_at rho phi F _ _ _ _ _ Hext (veq_refl _) (evalP_leaf rho _)) in Hs as [Hs _].
    exact (prox_converse F _ _ _ _ Hg Hs (Hx E rho)).
Qed.

Theorem linear_optimization_step_real dir ind s out :
  below (pt_ctr s) dir -> linear_optimization_step_spec dir ind s out ->
  exists gx,
    out = (ROk [RP (leafP (pt_ctr s)); RP gx; RX (leafX (ex_ctr s))],
           add_sample ind (leafP (pt_ctr s), gx, leafX (ex_ctr s)) (bump 1 1 s))
    /\ (forall (E : ips) (F : @fn E) (rho : nat -> E) (phi : nat -> R) (xr : E),
          (forall z, dom F z -> val F z = 0) -> fn_ext F -> is_linopt F (evalP rho dir) xr ->
          let rho' := upd (pt_ctr s) xr rho in
          let phi' := upd (ex_ctr s) 0 phi in
          genuine_sub F (sem_smp rho' phi' (leafP (pt_ctr s), gx, leafX (ex_ctr s))))
    /\ (forall (E : ips) (F : @fn E) (rho : nat -> E) (phi : nat -> R),
          (forall z, dom F z -> val F z = 0) -> fn_ext F ->
          genuine_sub F (sem_smp rho phi (leafP (pt_ctr s), gx, leafX (ex_ctr s))) ->
          is_linopt F (evalP rho dir) (rho (pt_ctr s))).
Proof.
  intros Hb (gx & -> & _ & Hgx). exists gx. split; [reflexivity|]. split.
  - intros E F rho phi xr Hind Hext Hl rho' phi'.
    apply (genuine_sub_at rho' phi' F _ _ _ xr (vneg (evalP rho dir)) Hext (evalP_upd_leaf rho _ _)).
    + rewrite (Hgx E rho'). unfold rho'. rewrite (evalP_upd_fresh rho _ _ _ _ Hb (le_n _)). reflexivity.
    + split; [apply linopt_iff_normal; assumption|]. unfold phi'. rewrite evalE_upd_leaf. symmetry. apply Hind, Hl.
  - intros E F rho phi Hind Hext Hs.
    apply (genuine_sub_at rho phi F _ _ _ _ _ Hext (evalP_leaf rho _) (Hgx E rho)) in Hs as [Hs _].
    apply linopt_iff_normal; assumption.
Qed.

(** *** the oracle only returns existing or brand-new leaves *)
Lemma find_eval_In p l g v : find_eval p l = Some (g, v) -> exists x, In (x, g, v) l.
Proof.
  induction l as [|[[x g'] v'] l IH]; cbn [find_eval]; [discriminate|].
  destruct (dict_eqb Nat.eqb x p).
  - intros [= <- <-]. exists x. left. reflexivity.
  - intros H. destruct (IH H) as [x' Hx']. exists x'. right. exact Hx'.
Qed.

Lemma oracle_leaf_below f p s g v p' s1 :
  state_below s -> oracle_leaf f p s = (g, v, p', s1) ->
  below (pt_ctr s1) g /\ (pt_ctr s <= pt_ctr s1)%nat.
Proof.
  intros Hs Ho.
  destruct (oracle_leaf_cases f p s) as [(g0 & v0 & Hf & _ & He)|[(g0 & v0 & Hf & _ & He)|(Hf & He)]];
    rewrite He in Ho; injection Ho as <- <- <- <-.
  - destruct (find_eval_In _ _ _ _ Hf) as [x Hx]. destruct (Hs f x g0 v0 Hx) as [_ Hg]. split; [exact Hg|lia].
  - cbn [pt_ctr add_sample bump]. split; [apply below_leaf; lia|lia].
  - cbn [pt_ctr add_sample bump]. split; [apply below_leaf; lia|lia].
Qed.

(** a function was never evaluated on a point that does not exist yet ... *)
Lemma find_eval_fresh n l :
  (forall x g v, In (x, g, v) l -> below n x) -> find_eval (leafP n) l = None.
Proof.
  induction l as [|[[x g] v] l IH]; intros H; cbn [find_eval]; [reflexivity|].
  destruct (dict_eqb Nat.eqb x (leafP n)) eqn:Hq.
  - exfalso. unfold dict_eqb in Hq. apply andb_true_iff in Hq as [Hl Hsub].
    destruct x as [|[k q] [|? ?]]; cbn in Hl; try discriminate.
    cbn in Hsub. destruct (Nat.eqb_spec k n) as [->|Hne]; [|discriminate].
    assert (n < n)%nat by (apply (H [(n, q)] g v); [left; reflexivity|left; reflexivity]). lia.
  - apply IH. intros x' g' v' Hin. apply (H x' g' v'). right. exact Hin.
Qed.

(** ... so the oracle called on a brand-new leaf creates its gradient and its value *)
Lemma oracle_leaf_fresh f s :
  state_below s ->
  let n := pt_ctr s in let m := ex_ctr s in
  oracle_leaf f (leafP n) (bump 1 0 s)
  = (leafP (S n), leafX m, leafP n, add_sample f (leafP n, leafP (S n), leafX m) (bump 2 1 s)).
Proof.
  intros Hs. unfold oracle_leaf. rewrite find_eval_fresh; [reflexivity|].
  intros x g v Hin. exact (proj1 (Hs f x g v Hin)).
Qed.

Theorem inexact_gradient_step_real relative x0 f gamma eps s out :
  state_below s -> below (pt_ctr s) x0 ->
  inexact_gradient_step_spec relative x0 f gamma eps s out ->
  let '(g, fx0, _, s1) := oracle_leaf f x0 s in
  let d := pt_ctr s1 in
  exists x c,
    out = (ROk [RP x; RP (leafP d); RX fx0], add_cons f c (bump 1 0 s1))
    /\ (* a real direction within the accuracy, with the real gradient, satisfies what was recorded *)
       (forall (E : ips) (F : @dfn E) (rho : nat -> E) (phi : nat -> R) (dr : E),
          veq (evalP rho g) (dgrad F (evalP rho x0)) ->
          nrm2 (vsub dr (dgrad F (evalP rho x0)))
            <= Q2R eps ^ 2 * (if relative then nrm2 (dgrad F (evalP rho x0)) else 1) ->
          let rho' := upd d dr rho in
          holds rho' phi c
          /\ veq (evalP rho' x) (vsub (evalP rho x0) (vscal (Q2R gamma) dr))
          /\ evalP rho' g = evalP rho g /\ evalP rho' x0 = evalP rho x0)
    /\ (* whatever satisfies what was recorded is such a step *)
       (forall (E : ips) (F : @dfn E) (rho : nat -> E) (phi : nat -> R),
          veq (evalP rho g) (dgrad F (evalP rho x0)) -> holds rho phi c ->
          nrm2 (vsub (rho d) (dgrad F (evalP rho x0)))
            <= Q2R eps ^ 2 * (if relative then nrm2 (dgrad F (evalP rho x0)) else 1)
          /\ veq (evalP rho x) (vsub (evalP rho x0) (vscal (Q2R gamma) (rho d)))).
Proof.
  intros Hs Hb. unfold inexact_gradient_step_spec.
  destruct (oracle_leaf f x0 s) as [[[g v] x0'] s1] eqn:Ho.
  destruct (oracle_leaf_below _ _ _ _ _ _ _ Hs Ho) as [Hg Hle].
  cbv beta iota zeta.
  intros (x & c & -> & _ & Hx & _ & Hh). exists x, c. split; [reflexivity|]. split.
  - intros E F rho phi dr Hgr Hacc. set (rho' := upd (pt_ctr s1) dr rho).
    assert (Hg' : evalP rho' g = evalP rho g) by (apply evalP_upd_fresh with (n := pt_ctr s1); auto).
    assert (Hx0 : evalP rho' x0 = evalP rho x0) by (apply evalP_upd_fresh with (n := pt_ctr s); auto).
    split; [|split; [|split; assumption]].
    + apply Hh. rewrite Hg'. unfold rho'. rewrite upd_same, Hgr, nrm2_sub_sym. exact Hacc.
    + rewrite (Hx E rho'), Hx0. unfold rho'. rewrite upd_same. reflexivity.
  - intros E F rho phi Hgr Hc. split; [|exact (Hx E rho)].
    apply Hh in Hc. rewrite Hgr, nrm2_sub_sym in Hc. exact Hc.
Qed.

Lemma Forall2_holds sn (P : pdict -> forall E : ips, (nat -> E) -> (nat -> R) -> Prop) dirs cs
      (E : ips) (rho : nat -> E) phi :
  Forall2 (fun d c => snd c = sn /\ forall E rho phi, holds rho phi c <-> P d E rho phi) dirs cs ->
  (Forall (holds rho phi) cs <-> forall d, In d dirs -> P d E rho phi).
Proof.
  induction 1 as [|d c dirs cs [_ Hc] _ IH]; [split; [intros _ d []|constructor]|].
  rewrite Forall_cons_iff, IH, Hc. split.
  - intros [H0 H1] d' [<-|Hin]; auto.
  - intros H. split; [apply H; left; reflexivity|intros d' Hd'; apply H; right; exact Hd'].
Qed.

Theorem exact_linesearch_step_real x0 f dirs s out :
  state_below s -> below (pt_ctr s) x0 -> Forall (below (pt_ctr s)) dirs ->
  exact_linesearch_step_spec x0 f dirs s out ->
  let n := pt_ctr s in let m := ex_ctr s in
  let smp := (leafP n, leafP (S n), leafX m) in
  exists c0 cs,
    out = (ROk [RP (leafP n); RP (leafP (S n)); RX (leafX m)],
           add_conss f (c0 :: cs) (add_sample f smp (bump 2 1 s)))
    /\ (* a real line/span search point, with its gradient and value, satisfies what was recorded *)
       (forall (E : ips) (F : @dfn E) (rho : nat -> E) (phi : nat -> R) (xr : E),
          gateaux F -> dfn_ext F ->
          is_linesearch F (evalP rho x0) (map (evalP rho) dirs) xr ->
          let rho' := upd (S n) (dgrad F xr) (upd n xr rho) in
          let phi' := upd m (dval F xr) phi in
          genuine_grad F (sem_smp rho' phi' smp) /\ Forall (holds rho' phi') (c0 :: cs))
    /\ (* what was recorded, plus x - x0 in the span (the part the step documents as relaxed), is a
          real line/span search on a convex differentiable function *)
       (forall (E : ips) (F : @dfn E) (rho : nat -> E) (phi : nat -> R),
          grad_convex F -> dfn_ext F ->
          genuine_grad F (sem_smp rho phi smp) -> Forall (holds rho phi) (c0 :: cs) ->
          in_span (vsub (rho n) (evalP rho x0)) (map (evalP rho) dirs) ->
          is_linesearch F (evalP rho x0) (map (evalP rho) dirs) (rho n)).
Proof.
  intros Hs Hb Hd. unfold exact_linesearch_step_spec.
  rewrite (oracle_leaf_fresh f s Hs). cbv zeta.
  intros (c0 & cs & -> & _ & _ & Hh0 & Hcs). exists c0, cs. split; [reflexivity|].
  pose proof (fun E rho phi =>
    Forall2_holds _ (fun d E rho phi => inner (evalP rho d) (evalP rho (leafP (S (pt_ctr s)))) = 0)
                  _ _ E rho phi Hcs) as Hall.
  rewrite Forall_forall in Hd. split.
  - intros E F rho phi xr HG Hext Hls.
    set (rho' := upd (S (pt_ctr s)) (dgrad F xr) (upd (pt_ctr s) xr rho)).
    assert (Hn : rho' (pt_ctr s) = xr) by (unfold rho'; rewrite upd_other by lia; apply upd_same).
    assert (Hn1 : rho' (S (pt_ctr s)) = dgrad F xr) by apply upd_same.
    assert (Hfr : forall d, below (pt_ctr s) d -> evalP rho' d = evalP rho d)
      by (intros; apply evalP_upd2_fresh; assumption).
    clearbody rho'. destruct (linesearch_orthogonality F _ _ _ HG Hext Hls) as [Ho1 Ho2]. split.
    + apply (genuine_grad_at rho' _ F _ _ _ xr Hext); rewrite evalP_leaf; [rewrite Hn; reflexivity|].
      split; [rewrite Hn1; reflexivity|apply evalE_upd_leaf].
    + constructor.
      * apply Hh0. rewrite evalP_leaf, Hn, Hn1, (Hfr _ Hb), inner_sym. exact Ho2.
      * apply Hall. intros d Hin. rewrite evalP_leaf, Hn1, (Hfr d (Hd d Hin)), inner_sym.
        apply Ho1, in_map, Hin.
  - intros E F rho phi Hc Hext Hg Hcs' Hsp.
    apply (genuine_grad_at rho phi F _ _ _ _ Hext (evalP_leaf rho _)) in Hg as [Hg _].
    apply linesearch_converse; [exact Hc|exact Hsp|].
    intros dv Hin. apply in_map_iff in Hin as (d & <- & Hin).
    rewrite <- Hg, inner_sym. exact (proj1 (Hall E rho phi) (Forall_inv_tail Hcs') d Hin).
Qed.

Theorem bregman_gradient_step_real gx0 sx0 h gamma s out :
  below (pt_ctr s) gx0 -> below (pt_ctr s) sx0 -> bregman_gradient_step_spec gx0 sx0 h gamma s out ->
  let n := pt_ctr s in let m := ex_ctr s in
  exists sx,
    out = (ROk [RP (leafP n); RP sx; RX (leafX m)], add_sample h (leafP n, sx, leafX m) (bump 1 1 s))
    /\ (forall (E : ips) (H : @dfn E) (rho : nat -> E) (phi : nat -> R) (xr : E),
          gateaux H -> dfn_ext H ->
          is_bregman_gradient H (Q2R gamma) (evalP rho gx0) (evalP rho sx0) xr ->
          genuine_grad H (sem_smp (upd n xr rho) (upd m (dval H xr) phi) (leafP n, sx, leafX m)))
    /\ (forall (E : ips) (H : @dfn E) (rho : nat -> E) (phi : nat -> R),
          grad_convex H -> dfn_ext H -> genuine_grad H (sem_smp rho phi (leafP n, sx, leafX m)) ->
          is_bregman_gradient H (Q2R gamma) (evalP rho gx0) (evalP rho sx0) (rho n)).
Proof.
  intros Hbg Hbs (sx & -> & _ & Hsx). cbv zeta. exists sx. split; [reflexivity|]. split.
  - intros E H rho phi xr HG Hext Hb.
    apply (genuine_grad_at _ _ H _ _ _ xr Hext (evalP_upd_leaf rho _ _)). split; [|apply evalE_upd_leaf].
    rewrite (Hsx E _), !(evalP_upd_fresh rho (pt_ctr s)) by auto. symmetry.
    apply bregman_gradient_optimality; assumption.
  - intros E H rho phi Hc Hext Hg.
    apply (genuine_grad_at rho phi H _ _ _ _ Hext (evalP_leaf rho _)) in Hg as [Hg _].
    apply bregman_gradient_converse; [exact Hc|]. rewrite <- Hg. exact (Hsx E rho).
Qed.

Theorem bregman_proximal_step_real sx0 h f gamma s out :
  below (pt_ctr s) sx0 -> bregman_proximal_step_spec sx0 h f gamma s out ->
  let n := pt_ctr s in let m := ex_ctr s in
  exists sx,
    out = (ROk [RP (leafP n); RP sx; RX (leafX (S m)); RP (leafP (S n)); RX (leafX m)],
           add_sample h (leafP n, sx, leafX (S m)) (add_sample f (leafP n, leafP (S n), leafX m) (bump 2 2 s)))
    /\ (forall (E : ips) (F : @fn E) (H : @dfn E) (rho : nat -> E) (phi : nat -> R) (xr : E),
          convex_fn F -> fn_ext F -> gateaux H -> dfn_ext H -> 0 < Q2R gamma ->
          is_bregman_prox F H (Q2R gamma) (evalP rho sx0) xr ->
          let rho' := upd (S n) (vscal (1 / Q2R gamma) (vsub (evalP rho sx0) (dgrad H xr))) (upd n xr rho) in
          let phi' := upd (S m) (dval H xr) (upd m (val F xr) phi) in
          genuine_sub F (sem_smp rho' phi' (leafP n, leafP (S n), leafX m))
          /\ genuine_grad H (sem_smp rho' phi' (leafP n, sx, leafX (S m))))
    /\ (forall (E : ips) (F : @fn E) (H : @dfn E) (rho : nat -> E) (phi : nat -> R),
          fn_ext F -> grad_convex H -> dfn_ext H -> 0 <= Q2R gamma ->
          genuine_sub F (sem_smp rho phi (leafP n, leafP (S n), leafX m)) ->
          genuine_grad H (sem_smp rho phi (leafP n, sx, leafX (S m))) ->
          is_bregman_prox F H (Q2R gamma) (evalP rho sx0) (rho n)).
Proof.
  intros Hbs (sx & -> & _ & Hsx). cbv zeta. exists sx. split; [reflexivity|]. split.
  - intros E F H rho phi xr Hc HFe HG HHe Hg Hb.
    set (gr := vscal (1 / Q2R gamma) (vsub (evalP rho sx0) (dgrad H xr))).
    set (rho' := upd (S (pt_ctr s)) gr (upd (pt_ctr s) xr rho)).
    assert (Hn : veq (evalP rho' (leafP (pt_ctr s))) xr).
    { unfold rho'. rewrite evalP_leaf, upd_other by lia. rewrite upd_same. reflexivity. }
    assert (Hn1 : veq (evalP rho' (leafP (S (pt_ctr s)))) gr) by apply evalP_upd_leaf.
    split.
    + apply (genuine_sub_at rho' _ F _ _ _ xr gr HFe Hn Hn1).
      split; [apply bregman_prox_optimality; assumption|].
      rewrite evalE_leaf, upd_other by lia. apply upd_same.
    + apply (genuine_grad_at rho' _ H _ _ _ xr HHe Hn). split; [|apply evalE_upd_leaf].
      rewrite (Hsx E rho'), <- (evalP_leaf rho' (S (pt_ctr s))), Hn1. unfold rho'.
      rewrite (evalP_upd2_fresh rho _ _ _ _ Hbs). unfold gr. apply veq_intro. intros w. bilin. field. lra.
  - intros E F H rho phi HFe Hc HHe Hg Hs Hgr.
    apply (genuine_sub_at rho phi F _ _ _ _ _ HFe (evalP_leaf rho _) (evalP_leaf rho _)) in Hs as [Hs _].
    apply (genuine_grad_at rho phi H _ _ _ _ HHe (evalP_leaf rho _)) in Hgr as [Hgr _].
    apply (bregman_prox_converse F H _ _ _ _ Hc Hg Hs). rewrite <- Hgr. exact (Hsx E rho).
Qed.

(** *** epsilon-subgradient step: what was recorded makes g0 an eps-subgradient at x0 *)
Theorem epsilon_subgradient_step_real x0 f gamma s out :
  epsilon_subgradient_step_spec x0 f gamma s out ->
  let g0 := pt_ctr s in
  let '(f0, _, s1) := value_leaf f x0 (bump 1 0 s) in
  let eps := ex_ctr s1 in let y := pt_ctr s1 in let fy := S (ex_ctr s1) in
  exists x c,
    out = (ROk [RP x; RP (leafP g0); RX f0; RX (leafX eps)],
           add_cons f c (add_sample f (leafP y, leafP g0, leafX fy) (bump 1 2 s1)))
    /\ (* recorded => real *)
       (forall (E : ips) (F : @fn E) (rho : nat -> E) (phi : nat -> R),
          fn_ext F -> dom F (evalP rho x0) -> evalE rho phi f0 = val F (evalP rho x0) ->
          genuine_sub F (sem_smp rho phi (leafP y, leafP g0, leafX fy)) -> holds rho phi c ->
          eps_subgrad F (phi eps) (evalP rho x0) (rho g0)
          /\ veq (evalP rho x) (vsub (evalP rho x0) (vscal (Q2R gamma) (rho g0))))
    /\ (* real => recorded, when the conjugate is attained: a point yr with g0 a subgradient at yr *)
       (forall (E : ips) (F : @fn E) (rho : nat -> E) (phi : nat -> R),
          evalE rho phi f0 = val F (evalP rho x0) ->
          eps_subgrad F (phi eps) (evalP rho x0) (rho g0) -> subgrad F (rho y) (rho g0) ->
          phi fy = val F (rho y) -> holds rho phi c).
Proof.
  unfold epsilon_subgradient_step_spec. cbv zeta.
  destruct (value_leaf f x0 (bump 1 0 s)) as [[f0 x0'] s1].
  intros (x & c & -> & _ & Hx & _ & Hh). exists x, c. split; [reflexivity|]. split.
  - intros E F rho phi Hext Hd0 Hf0 Hs Hc. split; [|exact (Hx E rho)].
    apply (genuine_sub_at rho phi F _ _ _ _ _ Hext (evalP_leaf rho _) (evalP_leaf rho _)) in Hs as [Hs Hfy].
    apply Hh in Hc. rewrite Hf0 in Hc. rewrite evalE_leaf in Hfy.
    apply eps_subgrad_from_record with (y := rho (pt_ctr s1)); [exact Hd0|exact Hs|]. rewrite <- Hfy. exact Hc.
  - intros E F rho phi Hf0 He Hs Hfy. apply Hh. rewrite Hf0, Hfy.
    apply eps_subgrad_to_record; assumption.
Qed.
