(** C13: the leaf tables after a finite solve and after ops that do not solve, and the assembled
    statement "after solve k every guarded object evaluates to solution k". *)
From Coq Require Import List QArith Lia.
From PV Require Import Model.Dict Model.Terms Model.Dump Model.Sent Model.Eval Model.Resolve
  Proofs.C02Cache Proofs.C13Sent Proofs.C13Main.
Import ListNotations.
Local Open Scope nat_scope.

Lemma solve_leaves s sol :
  lpv (es (solve s (Some sol))) = map (fun i => Some (column (sP sol) i)) (seq 0 (length (lpv (es s))))
  /\ lev (es (solve s (Some sol))) = map (fun i => Some (nth i (sF sol) 0%Q)) (seq 0 (S (length (lev (es s))))).
Proof.
  unfold solve. destruct (finish_eq (prepare s) sol) as [rs ->].
  destruct (eval_all_frame rs (assign_solution (assign_duals (es (prepare s)) (wsent (prepare s)) (sDual sol))
                                 (sP sol) (sF sol))) as (-> & -> & _). cbn [assign_solution lpv lev].
  destruct (assign_duals_leaves (wsent (prepare s)) (sDual sol) (es (prepare s))) as [-> ->].
  destruct (prepare_leaves s) as [-> ->]. rewrite app_length, Nat.add_1_r. split; reflexivity.
Qed.

Definition tail_none {A} (l l' : list (option A)) : Prop := exists j, l' = l ++ repeat None j.
Lemma tail_none_refl {A} (l : list (option A)) : tail_none l l.
Proof. exists 0. cbn. rewrite app_nil_r. reflexivity. Qed.
Lemma tail_none_trans {A} (a b c : list (option A)) : tail_none a b -> tail_none b c -> tail_none a c.
Proof. intros [j ->] [k ->]. exists (j + k). rewrite <- app_assoc, repeat_app. reflexivity. Qed.

Lemma step_quiet_leaves s o : quiet o = true ->
  tail_none (lpv (es s)) (lpv (es (fst (step s o)))) /\ tail_none (lev (es s)) (lev (es (fst (step s o)))).
Proof.
  intro Q. destruct (step_cases s o) as [|s' _ ->| | |k _|r|a Hq]; try (split; apply tail_none_refl).
  - split; [exists 1; reflexivity|apply tail_none_refl].
  - split; [apply tail_none_refl|exists 1; reflexivity].
  - cbn [es with_es]. destruct (eval_frame (es s) r) as (-> & -> & _). split; apply tail_none_refl.
  - congruence.
Qed.

Lemma run_quiet_leaves ops s : forallb quiet ops = true ->
  tail_none (lpv (es s)) (lpv (es (fst (run s ops)))) /\ tail_none (lev (es s)) (lev (es (fst (run s ops)))).
Proof.
  intro Q.
  apply (run_preserves quiet
           (fun s' => tail_none (lpv (es s)) (lpv (es s')) /\ tail_none (lev (es s)) (lev (es s'))));
    [|exact Q|split; apply tail_none_refl].
  intros s1 o Qo [A B]. destruct (step_quiet_leaves s1 o Qo) as [A1 B1]. split; eapply tail_none_trans; eassumption.
Qed.

(** [s]: any state whose store is well formed (every reachable one).  Solve k = [solve s (Some sol)].
    Guard on the object [x]: no cache on it or on the expressions it refers to when the solver is
    called.  After the solve and ANY further ops that do not solve (leaf points may be created: repair
    e997f00): [eval] returns the cache-free value of [x] over the leaf tables, and these are solution k
    (column i of [sP] for leaf point i, entry i of [sF] for leaf expression i, nothing for leaves
    created since).  Only the empty combination is excluded (F-C02b: its null vector has as many
    coordinates as there are leaf points at the time of its first evaluation). *)
Theorem fresh_values s sol ops x o :
  store_ok (es s) ->
  let n := length (lpv (es s)) in
  let s2 := fst (run (solve s (Some sol)) ops) in
  clean (es (prepare s)) x -> x < length (objs (es (solve s (Some sol)))) ->
  forallb quiet ops = true ->
  get_obj (es s2) x = Some o -> okind_of o <> KPoint [] ->
  snd (eval_obj (es s2) x) = pure_obj n (es s2) (okind_of o)
  /\ tail_none (map (fun i => Some (column (sP sol) i)) (seq 0 n)) (lpv (es s2))
  /\ tail_none (map (fun i => Some (nth i (sF sol) 0%Q)) (seq 0 (S (length (lev (es s)))))) (lev (es s2)).
Proof.
  intro S. cbv zeta. intros C Hx Q Ho Hne.
  destruct (solve_leaves s sol) as [<- <-]. split; [|apply run_quiet_leaves, Q].
  destruct (get_obj (es (solve s (Some sol))) x) as [o1|] eqn:H1; [|apply nth_error_None in H1; lia].
  destruct (le_st_get _ _ x o1 (run_le ops (solve s (Some sol))) H1) as (o' & Ho' & Hk).
  rewrite Ho in Ho'. injection Ho' as <-.
  apply (quiet_run_value _ _ ops x o1); try assumption.
  - apply (le_store_ok (es s)); [apply solve_le|exact S].
  - congruence.
  - apply fresh_after_solve, C.
Qed.

(** ** the CVXPY problem of a dimension-reduction heuristic: the original rows plus ONE, at every solve index *)
Definition size_of (it : item) : nat := match it with SC _ _ => 0 | LMI m => length m end.
Definition cvx_rows (l : sent) : nat := cvx_rows_sizes (map size_of l).
Definition cvx_heuristic_rows (l : sent) : nat := cvx_heuristic_rows_sizes (map size_of l).
Definition cvx_vars (l : sent) : nat := cvx_vars_sizes (map size_of l).

Lemma sizes_indep d o o' : map size_of (sent_of d o) = map size_of (sent_of d o').
Proof. unfold sent_of. rewrite !(map_app size_of (map _ _)), !map_map. reflexivity. Qed.
