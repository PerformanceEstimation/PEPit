(** C11 -- the Task calls MosekWrapper emits denote, under MOSEK's API semantics, exactly the declared SDP
    (the executable side; no real numbers here).

    Every task state is written [mkT B V R Sy C BC se] with variables for the fields, so that a call rewrites the
    one field it touches; the calls of one row all act on the last row, [R ++ [mkRow L Bz bd]]. *)
From Coq Require Import List QArith Lia.
From PV Require Import Model.Dict Model.Terms Model.Sent Model.Matrices Model.Mosek.
Import ListNotations.
Local Open Scope nat_scope.

Lemma run_app a b s : run (a ++ b) s = match run a s with Some s' => run b s' | None => None end.
Proof.
  revert s. induction a as [|c a IH]; intros s; cbn [run app]; [reflexivity|].
  destruct (step s c); [apply IH|reflexivity].
Qed.

Lemma upd_nth_mid {A} (f : A -> A) pre x suf :
  upd_nth (length pre) f (pre ++ x :: suf) = Some (pre ++ f x :: suf).
Proof. induction pre as [|p pre IH]; cbn; [reflexivity|]. rewrite IH. reflexivity. Qed.

Lemma nth_error_mid {A} (l : list A) x suf : nth_error (l ++ x :: suf) (length l) = Some x.
Proof. rewrite nth_error_app2, Nat.sub_diag by apply le_n. reflexivity. Qed.

Lemma int32_ok_lt nb n : (Z.of_nat (nb + n) <= int32_lim)%Z -> 0 < n -> int32_ok nb = true.
Proof. intros H Hn. apply Z.ltb_lt. lia. Qed.

Lemma put_aij_last nvar rows Bz bd : forall (l L : list (nat * Q)),
    forallb (fun cv => Nat.ltb (fst cv) nvar) l = true ->
    put_aij nvar (rows ++ [mkRow L Bz bd]) (repeat (length rows) (length l)) (map fst l) (map snd l)
    = Some (rows ++ [mkRow (fold_left (fun acc cv => set_assoc (fst cv) (snd cv) acc) l L) Bz bd]).
Proof.
  induction l as [|[c v] l IH]; intros L Hwf; cbn [length repeat map put_aij fold_left fst snd]; [reflexivity|].
  cbn [forallb fst] in Hwf. apply andb_prop in Hwf as [Hc Hwf].
  rewrite Hc, upd_nth_mid. cbn [r_lin r_bar r_bnd]. apply IH, Hwf.
Qed.

Lemma valid_coupling size i j : i < size -> j < size -> valid_triples size [coupling_triple i j] = true.
Proof.
  intros Hi Hj. unfold coupling_triple. cbn [valid_triples pos_mem negb andb].
  assert (H1 : Nat.ltb (Nat.max i j) size = true) by (apply Nat.ltb_lt; lia).
  assert (H2 : Nat.leb (Nat.min i j) (Nat.max i j) = true) by (apply Nat.leb_le; lia).
  rewrite H1, H2. reflexivity.
Qed.

Lemma wf_expr_mono pc ec nvar e : ec <= nvar -> wf_expr pc ec e = true -> wf_expr pc nvar e = true.
Proof.
  unfold wf_expr. intros Hle H. apply andb_prop in H as [-> H]. cbn [andb].
  rewrite forallb_forall in *. intros cv Hin. specialize (H cv Hin). apply Nat.ltb_lt in H. apply Nat.ltb_lt. lia.
Qed.

Definition entry_rows (bar : nat) (es : list (nat * nat * edict)) : list row :=
  map (fun ije => lmi_row bar (fst (fst ije)) (snd (fst ije)) (snd ije)) es.
Definition entry_syms (pc size : nat) (es : list (nat * nat * edict)) : list (nat * list triple) :=
  flat_map (fun ije => [(pc, sG (sp (snd ije))); (size, [coupling_triple (fst (fst ije)) (snd (fst ije))])]) es.

Lemma entry_syms_length pc size es : length (entry_syms pc size es) = 2 * length es.
Proof. unfold entry_syms. induction es as [|x es IH]; cbn [flat_map length app]; [reflexivity|]. rewrite IH. lia. Qed.

Definition entry_ok (pc nvar size : nat) (ije : nat * nat * edict) : Prop :=
  fst (fst ije) < size /\ snd (fst ije) < size /\ wf_expr pc nvar (snd ije) = true.

Lemma row_entries_spec i : forall r j0 i' j' e,
    In (i', j', e) (row_entries i j0 r) -> i' = i /\ j0 <= j' < j0 + length r.
Proof.
  induction r as [|x r IH]; intros j0 i' j' e; cbn [row_entries In length]; [tauto|].
  intros [H|H]; [injection H as <- <- <-; lia|]. apply IH in H. lia.
Qed.

Lemma mat_entries_spec n : forall m i0 i j e,
    forallb (fun r => Nat.eqb (length r) n) m = true ->
    In (i, j, e) (mat_entries i0 m) -> i0 <= i < i0 + length m /\ j < n.
Proof.
  induction m as [|r m IH]; intros i0 i j e Hsq; cbn [mat_entries In length]; [tauto|].
  cbn [forallb] in Hsq. apply andb_prop in Hsq as [Hr Hsq]. apply Nat.eqb_eq in Hr.
  intros H. apply in_app_or in H as [H|H].
  - apply row_entries_spec in H. lia.
  - apply (IH _ _ _ _ Hsq) in H. lia.
Qed.

Lemma entries_ok pc ec nvar m : ec <= nvar -> wf_item pc ec (LMI m) = true ->
  Forall (entry_ok pc nvar (length m)) (entries m).
Proof.
  intros Hle H. cbn [wf_item] in H. apply andb_prop in H as [Hsq Hwf].
  apply Forall_forall. intros [[i j] e] Hin. unfold entry_ok. cbn [fst snd].
  pose proof (mat_entries_spec (length m) m 0 i j e Hsq Hin) as [Hi Hj].
  rewrite forallb_forall in Hwf. specialize (Hwf _ Hin). cbn [snd] in Hwf.
  split; [lia|]. split; [exact Hj|]. apply (wf_expr_mono pc ec nvar e Hle Hwf).
Qed.

Fixpoint syms_of (pc : nat) (l : sent) : list (nat * list triple) :=
  match l with
  | [] => []
  | SC e _ :: rest => (pc, sG (sp e)) :: syms_of pc rest
  | LMI m :: rest => entry_syms pc (length m) (entries m) ++ syms_of pc rest
  end.

Definition dims (l : sent) : list nat := map (fun m => length m) (lmis l).

Lemma total_rows_cons it l : total_rows (it :: l) = item_rows it + total_rows l.
Proof. reflexivity. Qed.
Lemma total_syms_cons it l : total_syms (it :: l) = item_syms it + total_syms l.
Proof. reflexivity. Qed.

Lemma syms_of_length pc l : length (syms_of pc l) = total_syms l.
Proof.
  induction l as [|[e s|m] l IH]; [reflexivity| |]; rewrite total_syms_cons, <- IH; cbn [syms_of length item_syms].
  - reflexivity.
  - rewrite app_length, entry_syms_length. reflexivity.
Qed.

Lemma rows_of_length l : forall kb, length (rows_of kb l) = total_rows l.
Proof.
  induction l as [|[e s|m] l IH]; intros kb; [reflexivity| |]; rewrite total_rows_cons; cbn [rows_of length item_rows].
  - rewrite IH. reflexivity.
  - rewrite app_length, map_length, IH. reflexivity.
Qed.

Section Calls.
  Variables (V : list (bkey * Q * Q)) (C : list (nat * Q)) (BC : list (nat * wmat)) (se : osense).
  Implicit Types (B : list nat) (R : list row) (Sy : list (nat * list triple)) (cs : list task_call).

  Lemma run_appendbarvars B R Sy d cs :
    run (TAppendBarvars d :: cs) (mkT B V R Sy C BC se) = run cs (mkT (B ++ d) V R Sy C BC se).
  Proof. reflexivity. Qed.

  Lemma run_getnumcon B R Sy cs :
    run (TGetNumCon (length R) :: cs) (mkT B V R Sy C BC se) = run cs (mkT B V R Sy C BC se).
  Proof. cbn [run step t_rows]. rewrite Nat.eqb_refl. reflexivity. Qed.

  Lemma run_appendcons B R Sy cs :
    run (TAppendCons 1 :: cs) (mkT B V R Sy C BC se)
    = run cs (mkT B V (R ++ [mkRow [] [] (BFr, 0%Q, 0%Q)]) Sy C BC se).
  Proof. reflexivity. Qed.

  Lemma run_symmat B R Sy dim tr cs : valid_triples dim tr = true ->
    run (TAppendSparseSymMat dim tr (length Sy) :: cs) (mkT B V R Sy C BC se)
    = run cs (mkT B V R (Sy ++ [(dim, tr)]) C BC se).
  Proof. intros Hv. cbn [run step t_syms]. rewrite Hv, Nat.eqb_refl. reflexivity. Qed.

  Lemma run_putbaraij B R Sy L Bz bd j k w dim tr cs :
    nth_error B j = Some dim -> nth_error Sy k = Some (dim, tr) ->
    run (TPutBarAij (length R) j [k] [w] :: cs) (mkT B V (R ++ [mkRow L Bz bd]) Sy C BC se)
    = run cs (mkT B V (R ++ [mkRow L (set_assoc j [(w, tr)] Bz) bd]) Sy C BC se).
  Proof.
    intros Hb Hs. cbn [run step t_bars t_syms t_rows resolve]. rewrite Hb, Hs, Nat.eqb_refl, upd_nth_mid. reflexivity.
  Qed.

  Lemma run_putbarcj B R Sy j k w dim tr cs :
    nth_error B j = Some dim -> nth_error Sy k = Some (dim, tr) ->
    run (TPutBarCj j [k] [w] :: cs) (mkT B V R Sy C BC se)
    = run cs (mkT B V R Sy C (set_assoc j [(w, tr)] BC) se).
  Proof. intros Hb Hs. cbn [run step t_bars t_syms resolve]. rewrite Hb, Hs, Nat.eqb_refl. reflexivity. Qed.

  Lemma run_getmaxnumvar B R Sy cs :
    run (TGetMaxNumVar (length V) :: cs) (mkT B V R Sy C BC se) = run cs (mkT B V R Sy C BC se).
  Proof. cbn [run step t_vb]. rewrite Nat.eqb_refl. reflexivity. Qed.

  Lemma run_putclist B R Sy j v cs : j < length V ->
    run (TPutCList [j] [v] :: cs) (mkT B V R Sy C BC se) = run cs (mkT B V R Sy (set_assoc j v C) BC se).
  Proof. intros H. apply Nat.ltb_lt in H. cbn [run step t_vb t_c put_c]. rewrite H. reflexivity. Qed.

  (** [putaijlist] then [putconbound] on the fresh last row: its coefficients and its bound *)
  Lemma run_row_tail B R Sy Bz bd e bk lo up :
    int32_ok (length R) = true -> forallb (fun cv => Nat.ltb (fst cv) (length V)) (sF (sp e)) = true ->
    run (row_tail (length R) e bk lo up) (mkT B V (R ++ [mkRow [] Bz bd]) Sy C BC se)
    = Some (mkT B V (R ++ [mkRow (lin_of (sF (sp e))) Bz (bk, lo, up)]) Sy C BC se).
  Proof.
    intros Hlt Hf. unfold row_tail. rewrite Hlt. cbn [run step t_vb t_rows].
    rewrite (put_aij_last _ R Bz bd _ [] Hf). cbn [t_rows]. rewrite upd_nth_mid. reflexivity.
  Qed.

  (** send_constraint_to_solver adds exactly the row [sc_row e s] (and stores one symmetric matrix) *)
  Lemma run_sc pc e s B R Sy :
    wf_expr pc (length V) e = true -> int32_ok (length R) = true ->
    run (emit_sc pc (length R) (length Sy) e s) (mkT (pc :: B) V R Sy C BC se)
    = Some (mkT (pc :: B) V (R ++ [sc_row e s]) (Sy ++ [(pc, sG (sp e))]) C BC se).
  Proof.
    intros Hwf Hlt. apply andb_prop in Hwf as [Hv Hf]. unfold emit_sc. cbn [app].
    rewrite run_getnumcon, run_appendcons, run_symmat by exact Hv.
    erewrite run_putbaraij; [|reflexivity|apply nth_error_mid].
    rewrite run_row_tail by assumption. unfold sc_row. destruct (sc_bound e s) as [[bk lo] up]. reflexivity.
  Qed.

  (** one entry of send_lmi_constraint_to_solver, for the LMI that owns bar variable [S b], adds exactly
      [lmi_row (S b) i j e] *)
  Lemma run_entry pc size b e i j B R Sy :
    nth_error B b = Some size -> i < size -> j < size ->
    wf_expr pc (length V) e = true -> int32_ok (length R) = true ->
    run (emit_entry pc size (S b) (length R) (length Sy) i j e) (mkT (pc :: B) V R Sy C BC se)
    = Some (mkT (pc :: B) V (R ++ [lmi_row (S b) i j e])
                (Sy ++ [(pc, sG (sp e)); (size, [coupling_triple i j])]) C BC se).
  Proof.
    intros Hb Hi Hj Hwf Hlt. apply andb_prop in Hwf as [Hv Hf]. unfold emit_entry. cbn [app].
    rewrite run_getnumcon, run_appendcons, run_symmat by exact Hv.
    rewrite <- (last_length Sy (pc, sG (sp e))), run_symmat by (apply valid_coupling; assumption).
    erewrite run_putbaraij; [|reflexivity|rewrite <- app_assoc; apply nth_error_mid].
    erewrite run_putbaraij; [|exact Hb|apply nth_error_mid].
    rewrite run_row_tail, <- app_assoc by assumption. reflexivity.
  Qed.

  Lemma run_entries pc size b B : nth_error B b = Some size -> forall es R Sy nb k,
      nb = length R -> k = length Sy ->
      Forall (entry_ok pc (length V) size) es -> (Z.of_nat (nb + length es) <= int32_lim)%Z ->
      run (emit_entries pc size (S b) nb k es) (mkT (pc :: B) V R Sy C BC se)
      = Some (mkT (pc :: B) V (R ++ entry_rows (S b) es) (Sy ++ entry_syms pc size es) C BC se).
  Proof.
    intros Hb. induction es as [|[[i j] e] es IH]; intros R Sy nb k -> -> Hok Hle.
    - cbn. rewrite !app_nil_r. reflexivity.
    - inversion Hok as [|? ? [Hi [Hj Hwf]] Hok']; subst. cbn [fst snd emit_entries length] in *.
      assert (Hlt : int32_ok (length R) = true) by (apply (int32_ok_lt _ (S (length es))); [exact Hle|lia]).
      rewrite Hlt, run_app, (run_entry pc size b e i j B R Sy Hb Hi Hj Hwf Hlt).
      rewrite (IH (R ++ [_]) (Sy ++ [_; _]) (S (length R)) (S (S (length Sy))));
        [|rewrite last_length; reflexivity|rewrite app_length, Nat.add_comm; reflexivity|exact Hok'|lia].
      cbn [entry_rows entry_syms map flat_map fst snd]. rewrite <- !app_assoc. reflexivity.
  Qed.

  (** the send loops: [nsdp], the wrapper's count of matrix variables, is the task's *)
  Lemma run_items pc ec : ec <= length V -> forall l B R Sy nb k nsdp,
      nb = length R -> k = length Sy -> nsdp = S (length B) ->
      wf_sent pc ec l = true -> (Z.of_nat (nb + total_rows l) <= int32_lim)%Z ->
      run (emit_items pc nb k nsdp l) (mkT (pc :: B) V R Sy C BC se)
      = Some (mkT (pc :: B ++ dims l) V (R ++ rows_of nsdp l) (Sy ++ syms_of pc l) C BC se).
  Proof.
    intros Hec. induction l as [|it l IH]; intros B R Sy nb k nsdp -> -> -> Hwf Hle.
    { cbn. rewrite !app_nil_r. reflexivity. }
    cbn [wf_sent forallb] in Hwf. apply andb_prop in Hwf as [Hit Hwf]. rewrite total_rows_cons in Hle.
    destruct it as [e s|m]; cbn [item_rows] in Hle; cbn [emit_items Nat.sub].
    - assert (Hlt : int32_ok (length R) = true) by (apply (int32_ok_lt _ (1 + total_rows l)); [exact Hle|lia]).
      rewrite Hlt, run_app, (run_sc pc e s B R Sy (wf_expr_mono pc ec _ e Hec Hit) Hlt).
      rewrite (IH B (R ++ [_]) (Sy ++ [_]) (S (length R)) (S (length Sy)) (S (length B)));
        [|rewrite last_length; reflexivity|rewrite last_length; reflexivity|reflexivity|exact Hwf|lia].
      cbn [rows_of syms_of]. rewrite <- !app_assoc. reflexivity.
    - assert (Hle' : Z.leb (Z.of_nat (length R + length (entries m))) int32_lim = true) by (apply Z.leb_le; lia).
      rewrite Hle', run_appendbarvars, run_getnumcon, run_app. cbn [app].
      rewrite (run_entries pc (length m) (length B) (B ++ [length m]) (nth_error_mid B _ []) (entries m) R Sy
                 _ _ eq_refl eq_refl (entries_ok pc ec _ m Hec Hit)) by lia.
      rewrite (IH (B ++ [length m]) (R ++ entry_rows _ (entries m)) (Sy ++ entry_syms pc _ (entries m)));
        [|unfold entry_rows; rewrite app_length, map_length; reflexivity
         |rewrite app_length, entry_syms_length; reflexivity
         |rewrite last_length; reflexivity|exact Hwf|lia].
      rewrite <- !app_assoc. reflexivity.
  Qed.

  (** heuristic(W): the objective becomes <W, G>, minimised *)
  Lemma run_heuristic pc W B R Sy : valid_triples pc W = true ->
    run (emit_heuristic pc (length Sy) W) (mkT (pc :: B) V R Sy C BC se)
    = Some (mkT (pc :: B) V R (Sy ++ [(pc, W)]) C (set_assoc 0 [(1%Q, W)] BC) OMin).
  Proof.
    intros HW. unfold emit_heuristic. rewrite run_symmat by exact HW.
    erewrite run_putbarcj; [|reflexivity|apply nth_error_mid]. reflexivity.
  Qed.
End Calls.

Lemma run_putvarbounds B R Sy C BC se lo up : forall n pre suf,
    run (map (fun i => TPutVarBound i BFr lo up) (seq (length pre) n))
        (mkT B (pre ++ repeat fixed0 n ++ suf) R Sy C BC se)
    = Some (mkT B (pre ++ repeat (BFr, lo, up) n ++ suf) R Sy C BC se).
Proof.
  induction n as [|n IH]; intros pre suf; cbn [seq map run repeat app]; [reflexivity|].
  cbn [step t_vb]. rewrite upd_nth_mid. cbn [t_bars t_vb t_rows t_syms t_c t_barc t_sense].
  specialize (IH (pre ++ [(BFr, lo, up)]) suf). rewrite last_length, <- !app_assoc in IH. exact IH.
Qed.

Definition vb_of (ec : nat) : list (bkey * Q * Q) := repeat (BFr, (- (1))%Q, 1%Q) ec ++ [fixed0].

Lemma vb_of_length ec : length (vb_of ec) = S ec.
Proof. unfold vb_of. rewrite last_length, repeat_length. reflexivity. Qed.

Lemma run_prologue pc ec : run (prologue pc ec) t0 = Some (mkT [pc] (vb_of ec) [] [] [] [] OMin).
Proof.
  unfold prologue. cbn [run step t0 t_bars t_vb t_rows t_syms t_c t_barc t_sense app repeat].
  rewrite repeat_cons. exact (run_putvarbounds [pc] [] [] [] [] OMin (- (1))%Q 1%Q ec [] [fixed0]).
Qed.

(** the state in which generate_problem leaves the task *)
Definition base_state (l : sent) (pc ec obj : nat) : tstate :=
  mkT (pc :: dims l) (vb_of ec) (rows_of 1 l) (syms_of pc l) [(obj, 1%Q)] [] OMax.

Lemma guard_spec l pc ec obj : guard l pc ec obj = true ->
  wf_sent pc ec l = true /\ obj < ec /\ (Z.of_nat (total_rows l) <= int32_lim)%Z.
Proof.
  unfold guard, rows_fit_int32. intros H.
  apply andb_prop in H as [H H3]. apply andb_prop in H as [H1 H2].
  repeat split; [exact H1|apply Nat.ltb_lt; exact H2|apply Z.leb_le; exact H3].
Qed.

Lemma run_emit l pc ec obj : guard l pc ec obj = true ->
  run (emit l pc ec obj) t0 = Some (base_state l pc ec obj).
Proof.
  intros Hg. apply guard_spec in Hg as (Hwf & Hobj & Hle).
  assert (Hec : ec <= length (vb_of ec)) by (rewrite vb_of_length; lia).
  unfold emit, rows_fit_int32. rewrite (proj2 (Z.leb_le _ _) Hle), run_app, run_prologue, run_app.
  rewrite (run_items _ [] [] OMin pc ec Hec l [] [] [] 0 0 1 eq_refl eq_refl eq_refl Hwf Hle).
  unfold epilogue. rewrite <- (vb_of_length ec), run_getmaxnumvar, run_putclist by (rewrite vb_of_length; lia).
  reflexivity.
Qed.

Theorem same_sdp l pc ec obj : guard l pc ec obj = true ->
  task_denote (emit l pc ec obj) = Some (sdp_of l pc ec obj).
Proof. intros Hg. unfold task_denote. rewrite (run_emit _ _ _ _ Hg). reflexivity. Qed.

Lemma run_lmi_reads : forall l st cp, cp + length (lmis l) <= length (t_bars st) ->
  run (recover_lmi_reads cp l) st = Some st.
Proof.
  induction l as [|[e s|m] l IH]; intros st cp H; cbn [recover_lmi_reads run]; [reflexivity|apply IH; exact H|].
  change (lmis (LMI m :: l)) with (m :: lmis l) in H. cbn [length] in H. cbn [step].
  assert (Hlt : Nat.ltb cp (length (t_bars st)) = true) by (apply Nat.ltb_lt; lia). rewrite Hlt.
  apply IH. lia.
Qed.

Lemma run_reads l pc ec obj :
  run (solve_reads ++ recover_reads l) (base_state l pc ec obj) = Some (base_state l pc ec obj).
Proof.
  unfold solve_reads, recover_reads. cbn [app run step base_state t_bars length Nat.ltb Nat.leb].
  apply run_lmi_reads. unfold base_state, dims. cbn [t_bars length]. rewrite map_length. lia.
Qed.

Lemma heur_edict_eq obj v :
  heur_edict obj v = (KF obj, (1 * - (1))%Q) :: (if nonzero (- - v) then [(K1, (- - v)%Q)] else []).
Proof. reflexivity. Qed.

Lemma wf_heur pc nvar obj v : obj < nvar -> wf_expr pc nvar (heur_edict obj v) = true.
Proof.
  intros H. apply Nat.ltb_lt in H. unfold wf_expr. rewrite heur_edict_eq.
  destruct (nonzero (- - v)); cbn -[Nat.ltb]; rewrite H; reflexivity.
Qed.

(** prepare_heuristic: tau leaves the objective, the row  -tau <= -(wc - tol)  is added *)
Lemma run_prepare l pc ec obj v : obj < ec -> int32_ok (total_rows l) = true ->
  run (emit_prepare pc ec obj (total_rows l) (total_syms l) v) (base_state l pc ec obj)
  = Some (mkT (pc :: dims l) (vb_of ec) (rows_of 1 l ++ [sc_row (heur_edict obj v) Ineq])
              (syms_of pc l ++ [(pc, sG (sp (heur_edict obj v)))]) [(obj, 0%Q)] [] OMin).
Proof.
  intros Hobj Hlt. assert (Hv : obj < length (vb_of ec)) by (rewrite vb_of_length; lia).
  unfold emit_prepare, base_state. cbn [app]. rewrite run_putclist by exact Hv.
  cbn [run step t_bars t_vb t_rows t_syms t_c t_barc t_sense set_assoc]. rewrite Nat.eqb_refl.
  rewrite <- (rows_of_length l 1), <- (syms_of_length pc l) in *.
  apply run_sc; [apply wf_heur; exact Hv|exact Hlt].
Qed.
