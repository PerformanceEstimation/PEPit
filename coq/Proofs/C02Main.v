(** C02: what a value returned by [eval] means ([means]) and when there is one ([assigned]), read off the
    cache-free values of Proofs/C02Cache.v; the optimisation argument for "objective = smallest metric";
    the example program and the pre-repair formula that Props/C02.v refers to. *)
From Coq Require Import List QArith Reals Lra.
From PV Require Import Base.IPS Model.Dict Model.Terms Model.Dump Model.Eval Model.Resolve Spec.Sem Spec.GramSem
  Proofs.DictLemmas Proofs.SemLemmas Proofs.C05Lemmas Proofs.C02Vec Proofs.C02Cache.
Import ListNotations.
Local Open Scope R_scope.

Definition means (n : nat) (st : est) (k : okind) (v : val) : Prop :=
  match k, v with
  | KPoint d, VVec u => (forall i, vecR u i = (evalP (rho_of n st) d : nat -> R) i) /\ (d <> [] -> length u = n)
  | KExpr d, VNum q => Q2R q = evalE (rho_of n st) (phi_of st) d
  | KCons e _, VNum q => Q2R q = evalE (rho_of n st) (phi_of st) (dict_of_eh st e)
  | KLmi m, VMat qss =>
      Forall2 (Forall2 (fun q e => Q2R q = evalE (rho_of n st) (phi_of st) (dict_of_eh st e))) qss m
  | _, _ => False
  end.

(** when every leaf the object mentions has a value *)
Definition dict_assigned (st : est) (d : edict) : Prop := forall k, In k (keys d) -> key_assigned st k.
Definition eh_assigned (st : est) (e : eh) : Prop :=
  match e with
  | ELeaf id => exists q, leafE st id = Ok q
  | ERef r => exists o d, get_obj st r = Some o /\ okind_of o = KExpr d /\ dict_assigned st d
  end.
Definition assigned (st : est) (k : okind) : Prop :=
  match k with
  | KPoint d => forall i, In i (keys d) -> exists v, leafP st i = Ok v
  | KExpr d => dict_assigned st d
  | KCons e _ => eh_assigned st e
  | KLmi m => forall e, In e (concat m) -> eh_assigned st e
  end.

(** The cache-free value of an object is what [means] says, and there is one as soon as the object is
    [assigned]: level by level, from the computations of Proofs/C02Vec.v.  (The lemmas about [assigned] do
    not mention the reals.) *)
Section Pure.
  Variable n : nat.
  Variable st : est.
  Hypothesis Hs : solved n st.

  Let reads (q : Q) (e : eh) : Prop := Q2R q = evalE (rho_of n st) (phi_of st) (dict_of_eh st e).

  Lemma pure_eh_hom e q : pure_eh st e = Ok q -> reads q e.
  Proof.
    unfold reads. destruct e as [id|r]; cbn [pure_eh dict_of_eh].
    - intro H. apply leafE_Ok in H. cbn [evalE evalK]. unfold phi_of. rewrite H, Q2R_1. lra.
    - destruct (get_obj st r) as [o|]; [|discriminate]. destruct (okind_of o); try discriminate.
      apply expr_compute_hom, Hs.
  Qed.
  Lemma pure_row_hom : forall row qs, pure_row st row = Ok qs -> Forall2 reads qs row.
  Proof.
    induction row as [|e row IH]; intros qs H; cbn [pure_row] in H; [injection H as <-; constructor|].
    destruct (pure_eh st e) as [q|] eqn:He; [|discriminate].
    destruct (pure_row st row) as [qs'|]; [|discriminate]. injection H as <-.
    constructor; [exact (pure_eh_hom e q He)|apply IH; reflexivity].
  Qed.
  Lemma pure_rows_hom : forall m qss, pure_rows st m = Ok qss -> Forall2 (Forall2 reads) qss m.
  Proof.
    induction m as [|row m IH]; intros qss H; cbn [pure_rows] in H; [injection H as <-; constructor|].
    destruct (pure_row st row) as [qs|] eqn:He; [|discriminate].
    destruct (pure_rows st m) as [qss'|]; [|discriminate]. injection H as <-.
    constructor; [exact (pure_row_hom row qs He)|apply IH; reflexivity].
  Qed.
  Lemma pure_obj_hom m0 k v : pure_obj m0 st k = Ok v -> means n st k v.
  Proof.
    destruct k as [d|d|e s|m]; cbn [pure_obj].
    - destruct (point_compute m0 st d) as [u|] eqn:H; [|discriminate]. intros [= <-].
      exact (point_compute_hom n st Hs m0 d u H).
    - destruct (expr_compute st d) as [q|] eqn:H; [|discriminate]. intros [= <-].
      exact (expr_compute_hom n st Hs d q H).
    - destruct (pure_eh st e) as [q|] eqn:H; [|discriminate]. intros [= <-]. exact (pure_eh_hom e q H).
    - destruct (pure_rows st m) as [qss|] eqn:H; [|discriminate]. intros [= <-]. exact (pure_rows_hom m qss H).
  Qed.

  Lemma pure_eh_total e : eh_assigned st e -> exists q, pure_eh st e = Ok q.
  Proof.
    destruct e as [id|r]; cbn [eh_assigned pure_eh]; [auto|].
    intros (o & d & -> & -> & Hd). apply (expr_sum_total n); assumption.
  Qed.
  Lemma pure_row_total : forall row, (forall e, In e row -> eh_assigned st e) -> exists qs, pure_row st row = Ok qs.
  Proof.
    induction row as [|e row IH]; intro H; cbn [pure_row]; [eauto|].
    destruct (pure_eh_total e) as [q ->]; [apply H; left; reflexivity|].
    destruct IH as [qs ->]; [intros; apply H; right; assumption|]. eauto.
  Qed.
  Lemma pure_rows_total : forall m, (forall e, In e (concat m) -> eh_assigned st e) ->
    exists qss, pure_rows st m = Ok qss.
  Proof.
    induction m as [|row m IH]; intro H; cbn [pure_rows]; [eauto|]. cbn [concat] in H.
    destruct (pure_row_total row) as [qs ->]; [intros; apply H, in_or_app; left; assumption|].
    destruct IH as [qss ->]; [intros; apply H, in_or_app; right; assumption|]. eauto.
  Qed.
  Lemma pure_obj_total m0 k : assigned st k -> exists v, pure_obj m0 st k = Ok v.
  Proof.
    destruct k as [d|d|e s|m]; cbn [assigned pure_obj]; intro H.
    - destruct (point_compute_total n st Hs m0 d H) as [v ->]. eauto.
    - destruct (expr_sum_total n st Hs d 0%Q H) as [q Hq]. unfold expr_compute. rewrite Hq. eauto.
    - destruct (pure_eh_total e H) as [q ->]. eauto.
    - destruct (pure_rows_total m H) as [q ->]. eauto.
  Qed.
End Pure.

Lemma nth_error_map_seq {A} (f : nat -> A) (n i : nat) : (i < n)%nat -> nth_error (map f (seq 0 n)) i = Some (f i).
Proof.
  intro H. rewrite nth_error_map, nth_error_nth' with (d := 0%nat) by (rewrite seq_length; exact H).
  rewrite seq_nth by exact H. reflexivity.
Qed.
Lemma upd_nth_same {A} (l : list A) i a : nth_error l i = Some a -> upd_nth (fun _ => a) i l = l.
Proof.
  revert i. induction l as [|b l IH]; intros [|i] H; cbn in *; try discriminate.
  - injection H as ->. reflexivity.
  - rewrite IH by exact H. reflexivity.
Qed.

Section ObjMin.
  Variable G : nat -> nat -> R.
  Variable o : nat.                               (* counter of the objective leaf *)
  Variable m0 : edict.
  Variable ms : list edict.                       (* the metrics: m0 :: ms, at least one *)
  Variable others : list (edict * sense).         (* every other scalar constraint sent *)
  Variable lmis : list (list (list edict)).       (* every LMI sent *)
  Variable PsdM : list (list R) -> Prop.          (* "is positive semi-definite", abstract *)

  Definition nokey (d : edict) : Prop := ~ In (KF o) (keys d).
  (** the objective leaf is created after everything it is compared with: nothing mentions it *)
  Hypothesis fresh_m : forall m, In m (m0 :: ms) -> nokey m /\ NoDupKeys ekey m.
  Hypothesis fresh_o : forall c, In c others -> nokey (fst c).
  Hypothesis fresh_l : forall M row d, In M lmis -> In row M -> In d row -> nokey d.

  Definition feasible (F : nat -> R) : Prop :=
    (forall m, In m (m0 :: ms) -> holdsGF G F (c_le [(KF o, 1%Q)] m))
    /\ (forall c, In c others -> holdsGF G F c)
    /\ (forall M, In M lmis -> PsdM (map (map (evalGF G F)) M)).

  Fixpoint minl (x : R) (l : list R) : R := match l with [] => x | y :: l' => Rmin x (minl y l') end.

  Lemma minl_le x l : forall y, In y (x :: l) -> minl x l <= y.
  Proof.
    revert x. induction l as [|z l IH]; intros x y [<-|H]; cbn [minl].
    - lra.
    - destruct H.
    - apply Rmin_l.
    - eapply Rle_trans; [apply Rmin_r|]. apply IH. exact H.
  Qed.
  Lemma minl_in x l : In (minl x l) (x :: l).
  Proof.
    revert x. induction l as [|z l IH]; intro x; cbn [minl]; [left; reflexivity|].
    unfold Rmin. destruct (Rle_dec x (minl z l)); [left; reflexivity|right; apply IH].
  Qed.

  (** a metric row says that [tau] is below the metric *)
  Lemma metric_row F m : In m (m0 :: ms) ->
    (holdsGF G F (c_le [(KF o, 1%Q)] m) <-> F o <= evalGF G F m).
  Proof.
    intro Hin. unfold holdsGF, c_le. cbn [fst snd].
    rewrite evalGF_sub; [|constructor; [intros []|constructor]|apply fresh_m, Hin].
    cbn [evalGF evalKGF]. rewrite Q2R_1. lra.
  Qed.

  Definition upd (F : nat -> R) (t : R) : nat -> R := fun e => if Nat.eqb e o then t else F e.

  Lemma upd_eq F t : upd F t o = t.
  Proof. unfold upd. rewrite Nat.eqb_refl. reflexivity. Qed.
  Lemma upd_neq F t e : e <> o -> upd F t e = F e.
  Proof. intro H. unfold upd. destruct (Nat.eqb_spec e o); [contradiction|reflexivity]. Qed.
  Lemma evalGF_upd F t d : nokey d -> evalGF G (upd F t) d = evalGF G F d.
  Proof.
    unfold nokey. induction d as [|[k q] d IH]; intro H; cbn [evalGF]; [reflexivity|].
    rewrite IH by (intro Hin; apply H; right; exact Hin). f_equal. f_equal.
    destruct k as [e|i j|]; cbn [evalKGF]; try reflexivity.
    apply upd_neq. intros ->. apply H. left. reflexivity.
  Qed.

  (** [tau] is below every metric, hence below the smallest; and moving [tau] to the smallest metric
      keeps the point feasible (nothing else mentions [tau]), so an optimal [tau] is not below it *)
  Theorem objective_is_min F :
    feasible F ->
    (forall F', (forall e, e <> o -> F' e = F e) -> feasible F' -> F' o <= F o) ->
    F o = minl (evalGF G F m0) (map (evalGF G F) ms).
  Proof.
    intros (Hm & Ho & Hl) Hopt. set (mu := minl (evalGF G F m0) (map (evalGF G F) ms)).
    apply Rle_antisym.
    - destruct (proj1 (in_map_iff (evalGF G F) (m0 :: ms) mu) (minl_in _ _)) as (m & Hv & Hin).
      rewrite <- Hv. apply metric_row; [exact Hin|exact (Hm m Hin)].
    - rewrite <- (upd_eq F mu). apply Hopt; [intros e He; apply upd_neq, He|]. split; [|split].
      + intros m Hin. apply metric_row; [exact Hin|].
        rewrite upd_eq, evalGF_upd by (apply fresh_m; exact Hin).
        apply minl_le. exact (in_map (evalGF G F) (m0 :: ms) m Hin).
      + intros c Hin. unfold holdsGF. rewrite evalGF_upd by (apply fresh_o; exact Hin). exact (Ho c Hin).
      + intros M Hin. rewrite (map_ext_in _ (map (evalGF G F))); [exact (Hl M Hin)|].
        intros row Hrow. apply map_ext_in. intros d Hd. apply evalGF_upd, (fresh_l M row d Hin Hrow Hd).
  Qed.
End ObjMin.

(** after a solve with 2 leaf points and one more leaf point created since, the not-yet-evaluated
    empty combination has 3 coordinates while every other point of the instance has 2 *)
Definition c02b_prog : list op :=
  [NewLeafP; NewLeafP; NewLeafE; MkPoint []; MkPoint [(0%nat, 1%Q); (1%nat, (-1)%Q)]; AddMetric (ELeaf 0);
   Solve (Some (mkSol [[1%Q; 0%Q]; [0%Q; 1%Q]] [1%Q; 1%Q] [VNum 1%Q]));
   NewLeafP].

(** *** Regression about the OLD formula (before e997f00), kept only to document what was repaired:
    [value = np.zeros(Point.counter); value += weight * point.eval()] raised a broadcasting error on
    the same state on which the repaired evaluation returns the combination. *)
Definition old_np_iadd (acc v : list Q) : res (list Q) :=
  if Nat.eqb (length v) (length acc) then Ok (zipadd acc v)
  else if Nat.eqb (length v) 1 then Ok (map (fun a => (a + hd 0 v)%Q) acc)
  else Raise EShape.
Fixpoint old_point_sum (st : est) (acc : list Q) (d : pdict) : res (list Q) :=
  match d with
  | [] => Ok acc
  | (k, w) :: d' => match leafP st k with
                    | Raise e => Raise e
                    | Ok v => match old_np_iadd acc (vscale w v) with
                              | Raise e => Raise e
                              | Ok acc' => old_point_sum st acc' d'
                              end
                    end
  end.
Definition old_point_compute (st : est) (d : pdict) : res (list Q) :=
  old_point_sum st (repeat 0%Q (length (lpv st))) d.
