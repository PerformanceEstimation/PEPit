(** The bookkeeping invariant [inv] of Model/Func.v ([inv_gen] with no exemption), read function by function
    ([inv_gen_each]); it is kept by the primitive state changes ([record] = the part of [add_point] common to
    leaves and composites, fresh leaves, [leaf_oracle]); the executable side conditions of the ops read as
    propositions. *)
From Coq Require Import List Reals Qreals Lia.
From PV Require Import Base.IPS Model.Dict Model.Terms Model.Func Spec.Sem
  Proofs.DictLemmas Proofs.SemLemmas Proofs.C07Dict.
Import ListNotations.
Local Open Scope R_scope.

Definition nfun (s : state) : nat := length (funs s).

(** a recorded sample is well formed: unique keys, the point is pruned and only mentions existing leaves *)
Definition wf_sample (s : state) (t : sample) : Prop :=
  pND (xof t) /\ pND (gof t) /\ eND (vof t) /\ allnz nat (xof t) = true /\
  (forall k, In k (keys (xof t)) -> (k < pt_ctr s)%nat).

(** a well-formed, pruned query point *)
Definition wfq (s : state) (x : pdict) : Prop :=
  pND x /\ allnz nat x = true /\ (forall k, In k (keys x) -> (k < pt_ctr s)%nat).

(** [ch] picks, for every term of the weights [W], a sample recorded for that term at the point [x] *)
Definition covers (s : state) (W : wdict) (x : pdict) (ch : nat -> sample) : Prop :=
  forall i q, In (i, q) W ->
    In (ch i) (f_pts (getf s i)) /\ dict_eqb Nat.eqb (xof (ch i)) x = true.

(** gradient [g] and value [v] are the [W]-weighted sums of the chosen samples, under every valuation of
    the leaves in every inner-product space (the gradient is observed through inner products) *)
Definition sums (W : wdict) (ch : nat -> sample) (g : pdict) (v : edict) : Prop :=
  (forall (E : ips) (rho : nat -> E) (w : E),
      ip rho w g = dsum nat (fun i => ip rho w (gof (ch i))) W) /\
  (forall (E : ips) (rho : nat -> E) (phi : nat -> R),
      evalE rho phi v = dsum nat (fun i => evalE rho phi (vof (ch i))) W).

(** the two conjuncts of [sums] *)
Definition wgrad (W : wdict) (ch : nat -> sample) (g : pdict) : Prop :=
  forall (E : ips) (rho : nat -> E) (w : E), ip rho w g = dsum nat (fun i => ip rho w (gof (ch i))) W.
Definition wval (W : wdict) (ch : nat -> sample) (v : edict) : Prop :=
  forall (E : ips) (rho : nat -> E) (phi : nat -> R),
    evalE rho phi v = dsum nat (fun i => evalE rho phi (vof (ch i))) W.

Lemma sums_halves W ch g v : sums W ch g v <-> wgrad W ch g /\ wval W ch v.
Proof. reflexivity. Qed.

Definition I3_at (s : state) (W : wdict) (t : sample) : Prop :=
  exists ch, covers s W (xof t) ch /\ sums W ch (gof t) (vof t).

(** The invariant.  [P] exempts samples from I3 (used while [add_point] of a composite has recorded the
    composite's sample but not yet distributed it over the terms); the invariant proper is [inv]. *)
Record inv_gen (P : nat -> sample -> Prop) (s : state) : Prop := {
  ig_leafw : forall i, (i < nfun s)%nat -> f_leaf (getf s i) = true -> f_w (getf s i) = [(i, 1%Q)];
  ig_compw : forall i, (i < nfun s)%nat -> f_leaf (getf s i) = false ->
      pND (f_w (getf s i)) /\ f_w (getf s i) <> [] /\ allnz nat (f_w (getf s i)) = true /\
      forall k q, In (k, q) (f_w (getf s i)) -> (k < nfun s)%nat /\ f_leaf (getf s k) = true;
  ig_samples : forall i t, (i < nfun s)%nat -> In t (f_pts (getf s i)) -> wf_sample s t;
  ig_stat : forall i t, (i < nfun s)%nat -> In t (f_stat (getf s i)) ->
      In t (f_pts (getf s i)) /\ gof t = [];
  ig_I1 : forall i t1 t2, (i < nfun s)%nat -> In t1 (f_pts (getf s i)) -> In t2 (f_pts (getf s i)) ->
      dict_eqb Nat.eqb (xof t1) (xof t2) = true -> eeq (vof t1) (vof t2);
  ig_I2 : forall i t1 t2, (i < nfun s)%nat -> f_reuse (getf s i) = true ->
      In t1 (f_pts (getf s i)) -> In t2 (f_pts (getf s i)) ->
      dict_eqb Nat.eqb (xof t1) (xof t2) = true -> peq (gof t1) (gof t2);
  ig_I3 : forall i t, (i < nfun s)%nat -> f_leaf (getf s i) = false -> In t (f_pts (getf s i)) ->
      P i t \/ I3_at s (f_w (getf s i)) t;
  (* a sum declared differentiable only has differentiable terms (the converse may fail: the flag is the
     conjunction over ALL operands of the construction, also those whose weights cancelled -- a sum is
     allowed to be declared non-differentiable) *)
  ig_I6 : forall i, (i < nfun s)%nat -> f_leaf (getf s i) = false -> f_reuse (getf s i) = true ->
      forallb (fun '(k, _) => f_reuse (getf s k)) (f_w (getf s i)) = true
}.

Definition noP : nat -> sample -> Prop := fun _ _ => False.
Definition inv (s : state) : Prop := inv_gen noP s.

(** the clauses of [inv] *)
Definition inv_leafw s (H : inv s) := ig_leafw noP s H.
Definition inv_compw s (H : inv s) := ig_compw noP s H.
Definition inv_samples s (H : inv s) := ig_samples noP s H.
Definition inv_stat s (H : inv s) := ig_stat noP s H.
Definition inv_I1 s (H : inv s) := ig_I1 noP s H.
Definition inv_I2 s (H : inv s) := ig_I2 noP s H.

Lemma inv_I3 s (H : inv s) i t :
  (i < nfun s)%nat -> f_leaf (getf s i) = false -> In t (f_pts (getf s i)) -> I3_at s (f_w (getf s i)) t.
Proof. intros Hi Hl Ht. destruct (ig_I3 noP s H i t Hi Hl Ht) as [[]|H3]. exact H3. Qed.

(** weights over distinct leaves of [s], differentiable if [reuse] *)
Definition wprop (s : state) (reuse : bool) (W : wdict) : Prop :=
  pND W /\
  forall k, In k (keys W) ->
    (k < nfun s)%nat /\ f_leaf (getf s k) = true /\ (reuse = true -> f_reuse (getf s k) = true).

(** The invariant, function by function.  What it says of [r], the [i]-th function of the table, falls in
    three parts by what they read of the rest of the state: the weights read the flags of the terms, the
    sample lists read the counter of leaf points, I3 reads the sample lists of the terms.  All three are
    kept when the table grows, flags stay and sample lists and counters only grow ([fok_mono]). *)
Definition wts_ok (s : state) (i : nat) (r : frec) : Prop :=
  (f_leaf r = true -> f_w r = [(i, 1%Q)]) /\
  (f_leaf r = false -> wprop s (f_reuse r) (f_w r) /\ f_w r <> [] /\ allnz nat (f_w r) = true).

Definition pts_ok (s : state) (r : frec) : Prop :=
  (forall t, In t (f_pts r) -> wf_sample s t) /\
  (forall t, In t (f_stat r) -> In t (f_pts r) /\ gof t = []) /\
  (forall t1 t2, In t1 (f_pts r) -> In t2 (f_pts r) -> dict_eqb Nat.eqb (xof t1) (xof t2) = true ->
     eeq (vof t1) (vof t2) /\ (f_reuse r = true -> peq (gof t1) (gof t2))).

Definition I3_ok (P : nat -> sample -> Prop) (s : state) (i : nat) (r : frec) : Prop :=
  f_leaf r = false -> forall t, In t (f_pts r) -> P i t \/ I3_at s (f_w r) t.

Definition fok (P : nat -> sample -> Prop) (s : state) (i : nat) (r : frec) : Prop :=
  wts_ok s i r /\ pts_ok s r /\ I3_ok P s i r.

Lemma inv_gen_each P s : inv_gen P s <-> forall i, (i < nfun s)%nat -> fok P s i (getf s i).
Proof.
  split.
  - intros [Hleafw Hcompw Hsamples Hstat HI1 HI2 HI3 HI6] i Hi. split; [|split].
    + (* wts_ok *)
      split; [exact (Hleafw i Hi)|]. intros Hl. destruct (Hcompw i Hi Hl) as (A & B & C & D).
      split; [|split; [exact B|exact C]]. split; [exact A|].
      intros k Hk. apply in_map_iff in Hk as [[k' q] [<- Hin]]. destruct (D k' q Hin) as [Dk Dl].
      split; [exact Dk|]. split; [exact Dl|].
      intros Hr. pose proof (HI6 i Hi Hl Hr) as Hf. rewrite forallb_forall in Hf. apply (Hf (k', q) Hin).
    + (* pts_ok *)
      split; [intros t; exact (Hsamples i t Hi)|]. split; [intros t; exact (Hstat i t Hi)|].
      intros t1 t2 H1 H2 He. split; [exact (HI1 i t1 t2 Hi H1 H2 He)|].
      intros Hr. exact (HI2 i t1 t2 Hi Hr H1 H2 He).
    + (* I3_ok *)
      intros Hl t. exact (HI3 i t Hi Hl).
  - intros H. split.
    + (* ig_leafw *)
      intros i Hi. destruct (H i Hi) as ((Wl & _) & _). exact Wl.
    + (* ig_compw *)
      intros i Hi Hl. destruct (H i Hi) as ((_ & Wc) & _). destruct (Wc Hl) as ((A & B) & C & D).
      split; [exact A|]. split; [exact C|]. split; [exact D|].
      intros k q Hin. destruct (B k (In_keys nat k q _ Hin)) as (Hk & Hkl & _). auto.
    + (* ig_samples *)
      intros i t Hi. destruct (H i Hi) as (_ & (Sw & _) & _). apply Sw.
    + (* ig_stat *)
      intros i t Hi. destruct (H i Hi) as (_ & (_ & Ss & _) & _). apply Ss.
    + (* ig_I1 *)
      intros i t1 t2 Hi H1 H2 He. destruct (H i Hi) as (_ & (_ & _ & Sc) & _). apply (Sc t1 t2 H1 H2 He).
    + (* ig_I2 *)
      intros i t1 t2 Hi Hr H1 H2 He. destruct (H i Hi) as (_ & (_ & _ & Sc) & _). apply (Sc t1 t2 H1 H2 He), Hr.
    + (* ig_I3 *)
      intros i t Hi Hl. destruct (H i Hi) as (_ & _ & S3). apply (S3 Hl).
    + (* ig_I6 *)
      intros i Hi Hl Hr. destruct (H i Hi) as ((_ & Wc) & _). destruct (Wc Hl) as ((_ & B) & _).
      apply forallb_forall. intros [k q] Hin. apply (B k (In_keys nat k q _ Hin)), Hr.
Qed.

Lemma I1_at {P} s i x t1 t2 :
  inv_gen P s -> (i < nfun s)%nat -> pND x ->
  In t1 (f_pts (getf s i)) -> In t2 (f_pts (getf s i)) ->
  dict_eqb Nat.eqb (xof t1) x = true -> dict_eqb Nat.eqb (xof t2) x = true -> eeq (vof t1) (vof t2).
Proof.
  intros Hinv Hi Nx H1 H2 E1 E2.
  destruct (ig_samples P s Hinv i t1 Hi H1) as (N1 & _), (ig_samples P s Hinv i t2 Hi H2) as (N2 & _).
  apply (ig_I1 P s Hinv i t1 t2 Hi H1 H2), (peqb_trans _ x _); auto. apply peqb_sym; auto.
Qed.

Lemma I6_In {P} s i k q :
  inv_gen P s -> (i < nfun s)%nat -> f_leaf (getf s i) = false -> f_reuse (getf s i) = true ->
  In (k, q) (f_w (getf s i)) -> f_reuse (getf s k) = true.
Proof.
  intros Hinv Hi Hl Hr Hin. pose proof (ig_I6 P s Hinv i Hi Hl Hr) as H. rewrite forallb_forall in H.
  apply (H (k, q) Hin).
Qed.

Lemma comp_term {P} s F k q :
  inv_gen P s -> (F < nfun s)%nat -> f_leaf (getf s F) = false -> In (k, q) (f_w (getf s F)) ->
  (k < nfun s)%nat /\ f_leaf (getf s k) = true /\ ~ (q == 0)%Q.
Proof.
  intros Hinv HF Hl Hin. destruct (ig_compw P s Hinv F HF Hl) as (_ & _ & C & D).
  destruct (D k q Hin). repeat split; auto. apply (allnz_In nat _ k q C Hin).
Qed.

Lemma term_in_range {P} s F i q :
  inv_gen P s -> (F < nfun s)%nat -> In (i, q) (f_w (getf s F)) -> (i < nfun s)%nat.
Proof.
  intros Hinv HF Hin. destruct (f_leaf (getf s F)) eqn:Hl.
  - rewrite (ig_leafw P s Hinv F HF Hl) in Hin. destruct Hin as [[= <- _]|[]]. exact HF.
  - apply (comp_term s F i q Hinv HF Hl Hin).
Qed.

(** monotone evolution of the state: [s'] extends [s], only the functions in [K] were touched *)
Record ext (K : nat -> Prop) (s s' : state) : Prop := {
  ext_nfun : nfun s' = nfun s;
  ext_ctr : (pt_ctr s <= pt_ctr s')%nat;
  ext_leaf : forall j, f_leaf (getf s' j) = f_leaf (getf s j);
  ext_pts : forall j t, In t (f_pts (getf s j)) -> In t (f_pts (getf s' j));
  ext_out : forall j, ~ K j -> getf s' j = getf s j
}.

Lemma ext_refl K s : ext K s s.
Proof. split; auto. Qed.

Lemma ext_trans K s1 s2 s3 : ext K s1 s2 -> ext K s2 s3 -> ext K s1 s3.
Proof.
  intros [A1 A2 A3 A4 A5] [B1 B2 B3 B4 B5]. split; [congruence|lia|congruence|auto|].
  intros j H. rewrite B5, A5; auto.
Qed.

Lemma ext_weaken (K K' : nat -> Prop) s s' : (forall j, K j -> K' j) -> ext K s s' -> ext K' s s'.
Proof. intros HK [A1 A2 A3 A4 A5]. split; auto. Qed.

Lemma ext_seq {K1 K2 s1 s2 s3} : ext K1 s1 s2 -> ext K2 s2 s3 -> ext (fun _ => True) s1 s3.
Proof. intros H1 H2. apply (ext_trans _ s1 s2 s3); eapply ext_weaken; eauto. Qed.

Lemma ext_bump K s a b : (pt_ctr s <= a)%nat -> ext K s (mkS a b (funs s)).
Proof. split; auto. Qed.

Lemma ext_wfq K s s' x : ext K s s' -> wfq s x -> wfq s' x.
Proof.
  intros He (A & B & C). split; [exact A|]. split; [exact B|].
  intros k Hk. specialize (C k Hk). pose proof (ext_ctr K s s' He). lia.
Qed.

Lemma I3_at_mono s s' W t :
  (forall j q u, In (j, q) W -> In u (f_pts (getf s j)) -> In u (f_pts (getf s' j))) ->
  I3_at s W t -> I3_at s' W t.
Proof.
  intros Hm (ch & Hc & Hs). exists ch. split; [|exact Hs].
  intros i q Hin. destruct (Hc i q Hin). eauto.
Qed.

Lemma fok_mono P s s' i r :
  (nfun s <= nfun s')%nat -> (pt_ctr s <= pt_ctr s')%nat ->
  (forall k, (k < nfun s)%nat ->
     f_leaf (getf s' k) = f_leaf (getf s k) /\ f_reuse (getf s' k) = f_reuse (getf s k) /\
     forall t, In t (f_pts (getf s k)) -> In t (f_pts (getf s' k))) ->
  fok P s i r -> fok P s' i r.
Proof.
  intros Hn Hc Hk ((Wl & Wc) & (Sw & Ss & Sc) & S3).
  split; [split; [exact Wl|]|split; [split; [|auto]|]].
  - intros Hl. destruct (Wc Hl) as ((A & B) & C). split; [split; [exact A|]|exact C].
    intros k Hin. destruct (B k Hin) as (B1 & B2 & B3). destruct (Hk k B1) as (-> & -> & _).
    split; [lia|auto].
  - intros t Ht. destruct (Sw t Ht) as (A & B & C & D & F). repeat split; auto.
    intros k Hin. specialize (F k Hin). lia.
  - intros Hl t Ht. destruct (S3 Hl t Ht) as [Hp|H3]; [left; exact Hp|right].
    apply (I3_at_mono s); [|exact H3]. intros k q u Hin. destruct (Wc Hl) as ((_ & B) & _).
    apply (Hk k), (B k (In_keys nat k q _ Hin)).
Qed.

Definition chupd (ch : nat -> sample) (i : nat) (c : sample) : nat -> sample :=
  fun j => if Nat.eqb j i then c else ch j.

Lemma covers_cons s i q l x ch c :
  ~ In i (keys l) -> In c (f_pts (getf s i)) -> dict_eqb Nat.eqb (xof c) x = true ->
  covers s l x ch -> covers s ((i, q) :: l) x (chupd ch i c).
Proof.
  intros Hni Hc He Hcov j qj Hj. unfold chupd. destruct (Nat.eqb_spec j i) as [->|Hne]; [auto|].
  destruct Hj as [[= <- _]|Hj]; [congruence|exact (Hcov j qj Hj)].
Qed.

Lemma dsum_chupd (f : sample -> R) i q l ch c :
  ~ In i (keys l) ->
  dsum nat (fun j => f (chupd ch i c j)) ((i, q) :: l) = Q2R q * f c + dsum nat (fun j => f (ch j)) l.
Proof.
  intros Hni. cbn [dsum]. unfold chupd at 1. rewrite Nat.eqb_refl. f_equal.
  apply dsum_ext. intros k qk Hk. unfold chupd.
  destruct (Nat.eqb_spec k i) as [->|_]; [destruct Hni; exact (In_keys nat i qk l Hk)|reflexivity].
Qed.

Lemma nfun_setf s i f : nfun (setf s i f) = nfun s.
Proof. apply upd_length. Qed.

Lemma getf_setf_eq s i f : (i < nfun s)%nat -> getf (setf s i f) i = f (getf s i).
Proof. apply nth_upd_eq. Qed.

Lemma getf_setf_neq s i j f : i <> j -> getf (setf s i f) j = getf s j.
Proof. apply nth_upd_neq. Qed.

Lemma getf_setf s i f j :
  getf (setf s i f) j = if Nat.eqb i j && Nat.ltb i (nfun s) then f (getf s j) else getf s j.
Proof.
  destruct (Nat.eqb_spec i j) as [<-|Hne]; [|apply getf_setf_neq, Hne].
  destruct (Nat.ltb_spec i (nfun s)) as [Hlt|Hge]; [apply getf_setf_eq, Hlt|].
  unfold getf, setf; cbn. rewrite upd_out by exact Hge. reflexivity.
Qed.

Lemma nfun_record s i t : nfun (record s i t) = nfun s.
Proof. apply nfun_setf. Qed.

Lemma getf_record_neq s i j t : i <> j -> getf (record s i t) j = getf s j.
Proof. apply getf_setf_neq. Qed.

Lemma getf_record_eq s i t :
  (i < nfun s)%nat ->
  getf (record s i t) i =
  let r := getf s i in
  let t' := pruned_sample t in
  mkF (f_leaf r) (f_reuse r) (f_w r) (f_pts r ++ [t']) (if is_nil (gof t') then f_stat r ++ [t'] else f_stat r).
Proof. intros H. unfold record. rewrite getf_setf_eq by exact H. reflexivity. Qed.

Lemma pts_record_eq s i t :
  (i < nfun s)%nat -> f_pts (getf (record s i t) i) = f_pts (getf s i) ++ [pruned_sample t].
Proof. intros H. rewrite getf_record_eq by exact H. reflexivity. Qed.

Lemma pts_record_new s i t : (i < nfun s)%nat -> In (pruned_sample t) (f_pts (getf (record s i t) i)).
Proof. intros H. rewrite pts_record_eq by exact H. apply in_elt. Qed.

Lemma flags_record s i j t :
  f_leaf (getf (record s i t) j) = f_leaf (getf s j) /\
  f_reuse (getf (record s i t) j) = f_reuse (getf s j) /\
  f_w (getf (record s i t) j) = f_w (getf s j).
Proof. unfold record. rewrite getf_setf. destruct (_ && _); auto. Qed.

Lemma ext_setf s i f :
  (forall r, f_leaf (f r) = f_leaf r /\ incl (f_pts r) (f_pts (f r))) -> ext (eq i) s (setf s i f).
Proof.
  intros Hf.
  split; [apply nfun_setf|apply Nat.le_refl|intros j; rewrite getf_setf|intros j; rewrite getf_setf|].
  - destruct (_ && _); [apply Hf|reflexivity].
  - destruct (_ && _); [apply Hf|auto].
  - intros j H. apply getf_setf_neq, H.
Qed.

Lemma ext_record s i t : ext (eq i) s (record s i t).
Proof. apply ext_setf. intros r. split; [reflexivity|apply incl_appl, incl_refl]. Qed.

Lemma pts_record_mono s i t j u : In u (f_pts (getf s j)) -> In u (f_pts (getf (record s i t) j)).
Proof. apply (ext_pts _ _ _ (ext_record s i t)). Qed.

(** the counters only grow; nothing else is read from them than bounds on recorded points *)
Lemma inv_bump P s a b :
  inv_gen P s -> (pt_ctr s <= a)%nat -> inv_gen P (mkS a b (funs s)).
Proof.
  intros Hinv Ha. apply inv_gen_each. intros i Hi.
  apply (fok_mono P s); auto. apply (proj1 (inv_gen_each P s) Hinv i Hi).
Qed.

Lemma wf_pruned s x g v :
  pND x -> pND g -> eND v -> (forall k, In k (keys x) -> (k < pt_ctr s)%nat) ->
  wf_sample s (prune x, prune g, prune v).
Proof.
  intros Hx Hg Hv Hk.
  split; [apply pND_prune, Hx|]. split; [apply pND_prune, Hg|]. split; [apply eND_prune, Hv|].
  split; [apply allnz_prune|]. intros k H. apply Hk, (keys_prune_incl nat x k H).
Qed.

(** one more sample [t] in the lists of [r]: if [r] already has a sample at that point, [r] is not
    differentiable and the value of [t] means the stored one *)
Lemma pts_ok_snoc s r t :
  pts_ok s r -> wf_sample s t ->
  (forall g0 v0, find_pt (f_pts r) (xof t) = Some (g0, v0) -> f_reuse r = false /\ eeq v0 (vof t)) ->
  pts_ok s (mkF (f_leaf r) (f_reuse r) (f_w r) (f_pts r ++ [t])
                (if is_nil (gof t) then f_stat r ++ [t] else f_stat r)).
Proof.
  intros (Sw & Ss & Sc) Hwf Hrec.
  (* the lookup returns the first of the earlier samples at that point; they all have its value *)
  assert (Hold : forall t0, In t0 (f_pts r) -> dict_eqb Nat.eqb (xof t0) (xof t) = true ->
            eeq (vof t0) (vof t) /\ f_reuse r = false).
  { intros t0 Ht0 He. destruct (find_pt (f_pts r) (xof t)) as [[g0 v0]|] eqn:Hf.
    - destruct (Hrec g0 v0 eq_refl) as [Hr Hv0]. split; [|exact Hr].
      destruct (find_pt_Some _ _ _ _ Hf) as (x0 & Hin0 & He0).
      apply (eeq_trans _ v0); [|exact Hv0]. apply (Sc t0 (x0, g0, v0) Ht0 Hin0).
      apply (peqb_trans _ (xof t)); [apply (Sw t0 Ht0)|apply Hwf|apply (Sw _ Hin0)|exact He|].
      apply peqb_sym; [apply (Sw _ Hin0)|apply Hwf|exact He0].
    - rewrite (proj1 (find_pt_None _ _) Hf t0 Ht0) in He. discriminate. }
  unfold pts_ok. cbn [f_pts f_stat f_reuse]. split; [|split].
  - intros u Hu. apply in_app_or in Hu as [Hu|[<-|[]]]; auto.
  - assert (Hs : forall u, In u (f_stat r) -> In u (f_pts r ++ [t]) /\ gof u = [])
      by (intros u Hu; destruct (Ss u Hu); split; [apply in_or_app; left|]; assumption).
    destruct (gof t) eqn:Hg; cbn [is_nil]; [|exact Hs].
    intros u Hu. apply in_app_or in Hu as [Hu|[<-|[]]]; [exact (Hs u Hu)|split; [apply in_elt|exact Hg]].
  - intros t1 t2 H1 H2 He.
    apply in_app_or in H1 as [H1|[<-|[]]]; apply in_app_or in H2 as [H2|[<-|[]]].
    + exact (Sc t1 t2 H1 H2 He).
    + destruct (Hold t1 H1 He). split; [assumption|intros Hr; congruence].
    + destruct (Hold t2 H2 (peqb_sym _ _ (proj1 Hwf) (proj1 (Sw t2 H2)) He)).
      split; [apply eeq_sym; assumption|intros Hr; congruence].
    + split; [apply eeq_refl|intros _; apply peq_refl].
Qed.

(** one more sample for function [i]; for a composite the sample is exempt or a weighted sum *)
Lemma record_inv P s i x g v :
  inv_gen P s -> (i < nfun s)%nat ->
  pND x -> pND g -> eND v -> (forall k, In k (keys x) -> (k < pt_ctr s)%nat) ->
  (forall g0 v0, find_pt (f_pts (getf s i)) (prune x) = Some (g0, v0) ->
     f_reuse (getf s i) = false /\ eeq v0 v) ->
  (f_leaf (getf s i) = false ->
     P i (prune x, prune g, prune v) \/ I3_at s (f_w (getf s i)) (prune x, prune g, prune v)) ->
  inv_gen P (record s i (x, g, v)).
Proof.
  intros Hinv Hi Hx Hg Hv Hk Hrec HI3. apply inv_gen_each. rewrite nfun_record. intros j Hj.
  assert (Hj' : fok P (record s i (x, g, v)) j (getf s j)).
  { apply (fok_mono P s); [rewrite nfun_record| | |apply (proj1 (inv_gen_each P s) Hinv j Hj)]; auto.
    intros k _. destruct (flags_record s i k (x, g, v)) as (-> & -> & _).
    split; [reflexivity|]. split; [reflexivity|apply pts_record_mono]. }
  destruct (Nat.eq_dec i j) as [<-|Hne]; [|rewrite getf_record_neq by exact Hne; exact Hj'].
  rewrite getf_record_eq by exact Hi. destruct Hj' as (Hw & Hp & H3). split; [exact Hw|]. split.
  - apply pts_ok_snoc; [exact Hp|exact (wf_pruned _ x g v Hx Hg Hv Hk)|].
    intros g0 v0 Hf. destruct (Hrec g0 v0 Hf) as [Hr He]. split; [exact Hr|].
    exact (eeq_trans _ _ _ He (eeq_sym _ _ (eeq_prune v))).
  - intros Hl u Hu. apply in_app_or in Hu as [Hu|[<-|[]]]; [exact (H3 Hl u Hu)|].
    destruct (HI3 Hl) as [Hp'|HI]; [left; exact Hp'|right].
    apply (I3_at_mono s); [|exact HI]. intros k q u _. apply pts_record_mono.
Qed.

Lemma wfq_prune s x : wfq s x -> prune x = x.
Proof. intros (_ & H & _). apply prune_id. exact H. Qed.

Lemma wfq_self s x : wfq s x -> dict_eqb Nat.eqb (prune x) x = true.
Proof. intros H. rewrite (wfq_prune s x H). apply peqb_refl, H. Qed.

Lemma getf_bump s a b j : getf (mkS a b (funs s)) j = getf s j.
Proof. reflexivity. Qed.

Lemma ext_leaf_oracle s i x : ext (eq i) s (fst (leaf_oracle s i x)).
Proof.
  unfold leaf_oracle. destruct (find_pt (f_pts (getf s i)) x) as [[g v]|]; [destruct (f_reuse (getf s i))|];
    cbn [fst fresh_pt fresh_ex]; [apply ext_refl| |];
    (eapply ext_trans; [apply ext_bump|apply ext_record]); cbn; lia.
Qed.

Lemma leaf_oracle_records s i x :
  (i < nfun s)%nat -> wfq s x ->
  exists x0, In (x0, fst (snd (leaf_oracle s i x)), snd (snd (leaf_oracle s i x)))
                (f_pts (getf (fst (leaf_oracle s i x)) i)) /\ dict_eqb Nat.eqb x0 x = true.
Proof.
  intros Hi Hq. unfold leaf_oracle.
  destruct (find_pt (f_pts (getf s i)) x) as [[g0 v0]|] eqn:Hf; [destruct (f_reuse (getf s i))|];
    cbn [fst snd fresh_pt fresh_ex]; [exact (find_pt_Some _ _ _ _ Hf)| |];
    (exists (prune x); split; [apply (pts_record_new _ i (x, _, _)), Hi|exact (wfq_self s x Hq)]).
Qed.

Lemma leaf_oracle_inv P s i x :
  inv_gen P s -> (i < nfun s)%nat -> f_leaf (getf s i) = true -> wfq s x ->
  inv_gen P (fst (leaf_oracle s i x)).
Proof.
  intros Hinv Hi Hl Hq. pose proof (wfq_prune s x Hq) as Hpx. destruct Hq as (Nx & Hnz & Hk).
  unfold leaf_oracle. destruct (find_pt (f_pts (getf s i)) x) as [[g0 v0]|] eqn:Hf.
  - destruct (f_reuse (getf s i)) eqn:Hr; cbn [fst snd fresh_pt]; [exact Hinv|].
    destruct (find_pt_Some _ _ _ _ Hf) as [x0 [Hin0 He0]].
    apply (inv_bump P (record s i (x, [(pt_ctr s, 1%Q)], v0))); [|cbn; lia].
    apply record_inv; auto using NoDupKeys_single; rewrite ?Hpx, ?Hf, ?Hl; try discriminate.
    + apply (ig_samples P s Hinv i _ Hi Hin0).
    + intros g1 v1 [= _ <-]. split; [exact Hr|apply eeq_refl].
  - cbn [fst snd fresh_pt fresh_ex].
    apply (inv_bump P (record s i (x, [(pt_ctr s, 1%Q)], [(KF (ex_ctr s), 1%Q)]))); [|cbn; lia].
    apply record_inv; auto using NoDupKeys_single; rewrite ?Hpx, ?Hf, ?Hl; discriminate.
Qed.

(** The executable side conditions of Model/Func.v ([op_scoped], [op_guard]) read as propositions. *)
Lemma is_nil_true {A} (l : list A) : is_nil l = true <-> l = [].
Proof. destruct l; cbn; split; congruence. Qed.

Lemma nodup_by_spec {A} (eqb : A -> A -> bool) (Heq : forall a b, reflect (a = b) (eqb a b)) l :
  nodup_by eqb l = true -> NoDup l.
Proof.
  induction l as [|a l IH]; cbn; [constructor|].
  intros H. apply andb_true_iff in H as [H1 H2]. constructor; [|auto].
  intros Hin. apply negb_true_iff, not_true_iff_false in H1. apply H1.
  apply existsb_exists. exists a. split; [exact Hin|]. destruct (Heq a a) as [_|Hne]; [reflexivity|destruct Hne; reflexivity].
Qed.

Lemma nodup_by_complete {A} (eqb : A -> A -> bool) (Heq : forall a b, reflect (a = b) (eqb a b)) l :
  NoDup l -> nodup_by eqb l = true.
Proof.
  induction 1 as [|a l Hn Hd IH]; cbn [nodup_by]; [reflexivity|].
  rewrite IH, andb_true_r. apply negb_true_iff.
  destruct (existsb (eqb a) l) eqn:He; [|reflexivity]. exfalso. apply Hn.
  apply existsb_exists in He as [b [Hb Hab]]. destruct (Heq a b); [subst; exact Hb|discriminate].
Qed.

Lemma pwf_b_spec s d :
  pwf_b s d = true -> pND d /\ (forall k, In k (keys d) -> (k < pt_ctr s)%nat).
Proof.
  unfold pwf_b. intros H. apply andb_true_iff in H as [H1 H2]. split.
  - apply (nodup_by_spec Nat.eqb nat_eqb_spec). exact H1.
  - intros k Hk. rewrite forallb_forall in H2. apply Nat.ltb_lt. apply H2. exact Hk.
Qed.

Lemma pwf_b_complete s d :
  pND d -> (forall k, In k (keys d) -> (k < pt_ctr s)%nat) -> pwf_b s d = true.
Proof.
  intros N H. unfold pwf_b. rewrite (nodup_by_complete Nat.eqb nat_eqb_spec _ N). cbn [andb].
  apply forallb_forall. intros k Hk. apply Nat.ltb_lt. apply H. exact Hk.
Qed.

Lemma in_range_spec s f : in_range s f = true -> (f < nfun s)%nat.
Proof. unfold in_range. apply Nat.ltb_lt. Qed.

(** what [op_scoped] and [op_guard] ask of a query [f.oracle(x)], [f.gradient(x)], [f.value(x)] *)
Lemma query_guard s f x :
  in_range s f && pwf_b s x = true -> allnz_b x = true -> (f < nfun s)%nat /\ wfq s x.
Proof.
  intros H Hnz. apply andb_true_iff in H as [Hr Hp]. destruct (pwf_b_spec s x Hp) as [Nx Hk].
  split; [exact (in_range_spec s f Hr)|]. split; [exact Nx|]. split; [exact Hnz|exact Hk].
Qed.
