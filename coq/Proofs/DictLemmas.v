(** Lemmas about the dictionary model: the weighted sum of a dictionary under any valuation of its
    keys is additive for [merge], invariant under [prune], homogeneous for [scale]; key uniqueness is
    preserved by every operation. *)
From Coq Require Import List Rbase Qreals Lra.
From PV Require Import Model.Dict.
Import ListNotations.
Local Open Scope R_scope.

Lemma Q2R_0 : Q2R 0 = 0. Proof. unfold Q2R; cbn; lra. Qed.
Lemma Q2R_1 : Q2R 1 = 1. Proof. unfold Q2R; cbn; lra. Qed.
Lemma Q2R_m1 : Q2R (-1) = -1. Proof. unfold Q2R; cbn; lra. Qed.
Lemma Q2R_2 : Q2R 2 = 2. Proof. unfold Q2R; cbn; lra. Qed.

Lemma NoDup_map_filter {A B} (f : A -> B) (p : A -> bool) l :
  NoDup (map f l) -> NoDup (map f (filter p l)).
Proof.
  induction l as [|a l IH]; cbn; [auto|]. intros H. apply NoDup_cons_iff in H as [Hn H'].
  destruct (p a); cbn; [|auto]. constructor; [|auto].
  intros Hin. apply Hn. apply in_map_iff in Hin as [x [Hx Hin]]. apply filter_In in Hin as [Hin _].
  rewrite <- Hx. apply in_map. exact Hin.
Qed.

Lemma NoDup_app_disjoint {A} (l1 l2 : list A) :
  NoDup l1 -> NoDup l2 -> (forall x, In x l1 -> In x l2 -> False) -> NoDup (l1 ++ l2).
Proof.
  induction l1 as [|a l1 IH]; cbn; intros H1 H2 H; [exact H2|].
  apply NoDup_cons_iff in H1 as [Hn H1']. constructor.
  - intros Hin. apply in_app_or in Hin as [Hin|Hin]; [tauto|]. apply (H a); auto.
  - apply IH; auto. intros x Hx1 Hx2. apply (H x); auto.
Qed.

Section Generic.
  Variable K : Type.
  Variable keqb : K -> K -> bool.
  Hypothesis keqb_spec : forall a b, reflect (a = b) (keqb a b).

  Definition NoDupKeys (d : dict K) : Prop := NoDup (keys d).

  Lemma NoDupKeys_nil : NoDupKeys [].
  Proof. constructor. Qed.
  Lemma NoDupKeys_single k q : NoDupKeys [(k, q)].
  Proof. constructor; [intros []|constructor]. Qed.

  Lemma In_keys k v (d : dict K) : In (k, v) d -> In k (keys d).
  Proof. exact (in_map fst d (k, v)). Qed.

  Lemma lookup_None k d : lookup keqb k d = None <-> ~ In k (keys d).
  Proof.
    induction d as [|[k' v] d IH]; cbn.
    - split; [intros _ []|reflexivity].
    - destruct (keqb_spec k k') as [->|Hne].
      + split; [discriminate|intros H; destruct H; left; reflexivity].
      + rewrite IH. split.
        * intros H [E|I]; [exact (Hne (eq_sym E))|exact (H I)].
        * intros H I. exact (H (or_intror I)).
  Qed.

  Lemma lookup_Some_In k v d : lookup keqb k d = Some v -> In (k, v) d.
  Proof.
    induction d as [|[k' v'] d IH]; cbn; [discriminate|].
    destruct (keqb_spec k k') as [->|Hne]; [intros [= ->]; left; reflexivity|right; auto].
  Qed.

  Lemma In_lookup k v d : NoDupKeys d -> In (k, v) d -> lookup keqb k d = Some v.
  Proof.
    unfold NoDupKeys. induction d as [|[k' v'] d IH]; cbn; [tauto|].
    intros Hnd [H|H].
    - injection H as -> ->. destruct (keqb_spec k k); [reflexivity|congruence].
    - apply NoDup_cons_iff in Hnd as [Hni Hnd'].
      destruct (keqb_spec k k') as [->|Hne]; [|auto].
      destruct Hni. exact (In_keys k' v d H).
  Qed.

  Lemma mem_true k d : mem keqb k d = true <-> In k (keys d).
  Proof.
    unfold mem. destruct (lookup keqb k d) eqn:Hl.
    - split; [intros _|reflexivity]. exact (In_keys k q d (lookup_Some_In k q d Hl)).
    - apply lookup_None in Hl. split; [discriminate|tauto].
  Qed.

  Lemma mem_cons k a v d : mem keqb k ((a, v) :: d) = keqb k a || mem keqb k d.
  Proof. unfold mem. cbn. destruct (keqb k a); reflexivity. Qed.

  Lemma mem_false k d : mem keqb k d = false <-> ~ In k (keys d).
  Proof. rewrite <- mem_true. destruct (mem keqb k d); split; congruence. Qed.

  (** the keys of a scaled, pruned, merged dictionary; key uniqueness is preserved *)
  Lemma keys_scale c (d : dict K) : keys (scale c d) = keys d.
  Proof. unfold keys, scale. rewrite map_map. apply map_ext. intros [k v]; reflexivity. Qed.
  Lemma keys_halve (d : dict K) : keys (halve d) = keys d.
  Proof. unfold keys, halve. rewrite map_map. apply map_ext. intros [k v]; reflexivity. Qed.
  Lemma NoDupKeys_scale c (d : dict K) : NoDupKeys d -> NoDupKeys (scale c d).
  Proof. unfold NoDupKeys. rewrite keys_scale. auto. Qed.

  Lemma keys_prune_incl (d : dict K) : incl (keys (prune d)) (keys d).
  Proof. apply incl_map, incl_filter. Qed.

  Lemma NoDupKeys_prune (d : dict K) : NoDupKeys d -> NoDupKeys (prune d).
  Proof. apply NoDup_map_filter. Qed.

  Lemma NoDupKeys_merge d1 d2 : NoDupKeys d1 -> NoDupKeys d2 -> NoDupKeys (merge keqb d1 d2).
  Proof.
    unfold NoDupKeys, merge, keys. intros H1 H2. rewrite map_app, map_map.
    rewrite (map_ext _ fst) by (intros [k v]; destruct (lookup keqb k d2); reflexivity).
    apply NoDup_app_disjoint; [exact H1|apply NoDup_map_filter; exact H2|].
    intros k Hk1 Hk2. apply in_map_iff in Hk2 as [[k' v'] [<- Hin]].
    apply filter_In in Hin as [_ Hm]. apply negb_true_iff, mem_false in Hm. exact (Hm Hk1).
  Qed.

  (** Pruning removes exactly the entries whose coefficient is zero. *)
  Lemma In_prune (d : dict K) k v : In (k, v) (prune d) <-> In (k, v) d /\ ~ (v == 0)%Q.
  Proof.
    unfold prune. rewrite filter_In. apply and_iff_compat_l. unfold nonzero.
    rewrite negb_true_iff, <- not_true_iff_false. apply not_iff_compat, Qeq_bool_iff.
  Qed.
  Lemma prune_nonzero (d : dict K) k v : In (k, v) (prune d) -> ~ (v == 0)%Q.
  Proof. apply In_prune. Qed.
  Lemma prune_keeps (d : dict K) k v : In (k, v) d -> ~ (v == 0)%Q -> In (k, v) (prune d).
  Proof. intros H1 H2. apply In_prune. exact (conj H1 H2). Qed.

  Section Sum.
  Variable val : K -> R.

  Fixpoint dsum (d : dict K) : R :=
    match d with
    | [] => 0
    | (k, q) :: d' => Q2R q * val k + dsum d'
    end.

  Lemma dsum_app d1 d2 : dsum (d1 ++ d2) = dsum d1 + dsum d2.
  Proof. induction d1 as [|[k q] d1 IH]; cbn; [lra|rewrite IH; lra]. Qed.

  (** value of key k in d, 0 when absent *)
  Definition get (k : K) (d : dict K) : R :=
    match lookup keqb k d with Some v => Q2R v | None => 0 end.

  (** Taking the key [a] out of a selection of entries that contains it. *)
  Lemma dsum_filter_remove (p : K -> bool) a d :
    p a = true -> NoDupKeys d ->
    dsum (filter (fun '(k, _) => p k) d)
    = get a d * val a + dsum (filter (fun '(k, _) => p k && negb (keqb k a)) d).
  Proof.
    intros Hp. unfold NoDupKeys, get.
    induction d as [|[c e] d IH]; cbn [keys map fst filter lookup dsum]; intros H; [lra|].
    apply NoDup_cons_iff in H as [Hc H']. specialize (IH H').
    destruct (keqb_spec c a) as [->|Hne].
    - destruct (keqb_spec a a) as [_|]; [|congruence].
      apply lookup_None in Hc. rewrite Hc in IH. rewrite Hp. cbn [andb negb dsum]. lra.
    - destruct (keqb_spec a c) as [->|_]; [congruence|]. rewrite andb_true_r.
      destruct (p c); cbn [dsum]; lra.
  Qed.

  (** Sum of the [d2]-values found at the keys of [d1] + sum of the [d2]-entries whose key is not in
      [d1] is the whole sum of [d2], when keys are unique on both sides. *)
  Lemma dsum_split d1 d2 :
    NoDupKeys d1 -> NoDupKeys d2 ->
    dsum d2 =
    fold_right (fun '(k, _) acc => get k d2 * val k + acc) 0 d1
    + dsum (filter (fun '(k, _) => negb (mem keqb k d1)) d2).
  Proof.
    unfold NoDupKeys. intros H1 H2. induction d1 as [|[a b] d1 IH]; cbn [fold_right].
    - rewrite Rplus_0_l. clear. induction d2 as [|[c e] d2 IH]; cbn in *; [|rewrite <- IH]; reflexivity.
    - apply NoDup_cons_iff in H1 as [Ha H1']. apply mem_false in Ha.
      rewrite (IH H1'), (dsum_filter_remove (fun k => negb (mem keqb k d1)) a d2 (f_equal negb Ha) H2).
      rewrite (filter_ext _ (fun '(k, _) => negb (mem keqb k ((a, b) :: d1))))
        by (intros [k v]; rewrite mem_cons, negb_orb; apply andb_comm).
      lra.
  Qed.

  Lemma dsum_merge d1 d2 :
    NoDupKeys d1 -> NoDupKeys d2 -> dsum (merge keqb d1 d2) = dsum d1 + dsum d2.
  Proof.
    intros H1 H2. unfold merge. rewrite dsum_app, (dsum_split d1 d2 H1 H2).
    rewrite <- Rplus_assoc. apply Rplus_eq_compat_r.
    clear H1 H2. induction d1 as [|[k v] d1 IH]; cbn [map dsum fold_right]; [lra|].
    unfold get at 1. destruct (lookup keqb k d2) as [v2|]; cbn [dsum].
    - rewrite Q2R_plus, IH. lra.
    - rewrite IH. lra.
  Qed.

  Lemma dsum_prune d : dsum (prune d) = dsum d.
  Proof.
    unfold prune. induction d as [|[k v] d IH]; cbn [filter dsum]; [reflexivity|]. unfold nonzero at 1.
    destruct (Qeq_bool v 0) eqn:Hz; cbn [negb dsum].
    - apply Qeq_bool_eq in Hz. apply Qeq_eqR in Hz. rewrite Hz, Q2R_0, IH. lra.
    - rewrite IH. reflexivity.
  Qed.

  Lemma dsum_scale c d : dsum (scale c d) = Q2R c * dsum d.
  Proof.
    unfold scale. induction d as [|[k v] d IH]; cbn [map dsum]; [lra|rewrite IH, Q2R_mult; lra].
  Qed.

  End Sum.
End Generic.
