(** C09 — a SHIPPED example as a program of the op language (the tie "shipped example = model program").

    The literal below is what harness/extrace.py produces from tracing
    PEPit/examples/unconstrained_convex_minimization/proximal_point.py, wc_proximal_point(gamma = 0.1, n = 3) (the
    parameters of tests/test_examples.py) on the real PEPit:
        func = problem.declare_function(ConvexFunction); xs = func.stationary_point(); fs = func(xs)   (a reuse: no op)
        x0 = problem.set_initial_point(); x = x0; for _ in range(3): x, _, fx = proximal_step(x, func, gamma)
    The step size is the float 0.1 as the exact rational it is.  The stream `examples-as-programs` of harness/p_c09.py
    re-traces the example on every run, compares `mrun` of the traced program with the real bookkeeping, and reports
    whether this literal is still the traced one (distribution.coq_example_literal_is_the_traced_program). *)
From Coq Require Import List QArith.
From PV Require Import Model.Dict Model.Terms Model.Method.
Import ListNotations.

Definition shipped_proximal_point_program : list mop :=
  [MStat 0%nat; MFresh; MProx 0%nat [(1%nat, (1 # 1)%Q)] (3602879701896397 # 36028797018963968)%Q; MProx 0%nat [(1%nat, (1 # 1)%Q); (2%nat, ((-3602879701896397) # 36028797018963968)%Q)] (3602879701896397 # 36028797018963968)%Q; MProx 0%nat [(1%nat, (1 # 1)%Q); (2%nat, ((-3602879701896397) # 36028797018963968)%Q); (3%nat, ((-3602879701896397) # 36028797018963968)%Q)] (3602879701896397 # 36028797018963968)%Q].

Definition shipped_gamma : Q := (3602879701896397 # 36028797018963968)%Q.

Example shipped_proximal_point_example :
  mwf shipped_proximal_point_program minit = true /\
  forallb linopt_dir_nonzero shipped_proximal_point_program = true /\
  m_np (mrun shipped_proximal_point_program minit) = 5%nat /\
  m_ne (mrun shipped_proximal_point_program minit) = 4%nat /\
  List.length (m_samples (mrun shipped_proximal_point_program minit)) = 4%nat /\
  m_cons (mrun shipped_proximal_point_program minit) = [] /\
  (* the last recorded triple: x3 = x0 - gamma g1 - gamma g2 - gamma g3, the fresh subgradient leaf 4, the fresh value leaf 3 *)
  nth_error (m_samples (mrun shipped_proximal_point_program minit)) 3 =
    Some (0%nat, ([(1%nat, 1%Q); (2%nat, Qopp shipped_gamma); (3%nat, Qopp shipped_gamma); (4%nat, Qopp shipped_gamma)],
                  [(4%nat, 1%Q)], [(KF 3, 1%Q)])).
Proof. vm_compute. repeat split; reflexivity. Qed.
