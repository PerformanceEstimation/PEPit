(** C08 x C07, closed forms of the guard [StepsFunc.ok_prog] for generated steps: explicit conditions on the
    ARGUMENTS of the call under which the guard holds in every state that satisfies C07's invariant, hence
    (Proofs/C08Composite.v) the step preserves the invariant on any function, leaf or composite.
      inexact_gradient_step (absolute / relative / invalid option): the function exists, x0 has unique keys over
        existing leaves and no explicit zero coefficient -- this IS the guard;
      linear_optimization_step: the function exists, [dir] has unique keys (the recorded point is a fresh leaf);
      proximal_step: the function exists, x0 has unique keys over existing leaves, gamma <> 0 (then
        x = x0 - gamma gx contains the fresh leaf gx, so it is new for the function and all its terms). *)
From Coq Require Import List QArith Lia String.
From PV Require Import Base.IPS Model.Dict Model.Terms Model.StepsRT Model.Func Model.StepsFunc Gen.Steps Spec.Sem
  Proofs.DictLemmas Proofs.SemLemmas Proofs.C07Dict Proofs.C07Inv Proofs.C07Main Proofs.C07Thm
  Proofs.C08Composite.
Import ListNotations.
Local Open Scope R_scope.

Lemma fresh_for_key s F X n a b :
  inv s -> (F < nfun s)%nat -> pND X -> In n (keys X) -> (pt_ctr s <= n)%nat ->
  fresh_for (mkS a b (funs s)) F X = true.
Proof.
  intros Hinv HF NX Hn Hle. unfold fresh_for. change (getf (mkS a b (funs s))) with (getf s).
  rewrite (no_match_key s F X n Hinv HF NX Hn Hle). cbn [is_none andb].
  apply forallb_forall. intros [i q] Hin.
  rewrite (no_match_key s i X n Hinv (term_in_range s F i q Hinv HF Hin) NX Hn Hle). reflexivity.
Qed.

(** the side conditions of [f.add_point((X, g, v))], new leaves having been created, when [X] involves a leaf
    created after every recorded sample *)
Lemma add_point_guard_new s F X g v a b n :
  inv s -> (F < nfun s)%nat -> pND X -> (forall k, In k (keys X) -> (k < a)%nat) ->
  In n (keys (prune X)) -> (pt_ctr s <= n)%nat -> pND g -> eND v ->
  let s' := mkS a b (funs s) in
  in_range s' F && pwf_b s' X && nodup_by Nat.eqb (keys g) && nodup_by ekey_eqb (keys v)
  && fresh_for s' F (prune X) = true.
Proof.
  intros Hinv HF NX HX Hn Hle Ng Nv s'.
  assert (Hr : in_range s' F = true) by (apply Nat.ltb_lt; exact HF).
  rewrite Hr, (pwf_b_complete s' X NX HX), (nodup_by_complete Nat.eqb nat_eqb_spec _ Ng),
    (nodup_by_complete ekey_eqb ekey_eqb_spec _ Nv).
  exact (fresh_for_key s F (prune X) n a b Hinv HF (pND_prune _ NX) Hn Hle).
Qed.

(** ** inexact_gradient_step: the guard is the condition on (f, x0) *)
Lemma inexact_gradient_guard (prog : program) x0 F gamma eps s cs :
  prog = prog_inexact_gradient_step_absolute \/ prog = prog_inexact_gradient_step_relative \/
  prog = prog_inexact_gradient_step_invalid ->
  ok_prog prog (mk_args [x0] [F] [gamma; eps] []) (s, cs) = in_range s F && pwf_b s x0 && allnz_b x0.
Proof.
  intros [ -> | [ -> | -> ] ]; unfold ok_prog, prog_inexact_gradient_step_absolute, prog_inexact_gradient_step_relative,
    prog_inexact_gradient_step_invalid;
    cbn [ok_exec guard_s init_env e_p a_pts mk_args a_fun nth StepsFunc.exec_s];
    destruct (Func.oracle s F x0) as [s' [gd vd]]; cbn; rewrite ?andb_true_r; reflexivity.
Qed.

Theorem inexact_gradient_step_composite_inv (opt : string) x0 F gamma eps s cs :
  inv s -> (F < nfun s)%nat -> pwf_b s x0 = true -> allnz_b x0 = true ->
  inv (run_state (step_program "inexact_gradient_step" opt) (mk_args [x0] [F] [gamma; eps] []) (s, cs)).
Proof.
  intros Hinv HF Hp Hz. apply run_inv_steps; [exact Hinv|].
  rewrite (inexact_gradient_guard _ x0 F gamma eps s cs).
  - assert (Hr : in_range s F = true) by (unfold in_range; apply Nat.ltb_lt; exact HF).
    rewrite Hr, Hp, Hz. reflexivity.
  - cbn [step_program String.eqb Ascii.eqb Bool.eqb].
    destruct (String.eqb opt "absolute"); [auto|]. destruct (String.eqb opt "relative"); auto.
Qed.

Lemma linear_optimization_guard dir F s cs :
  inv s -> (F < nfun s)%nat -> pND dir ->
  ok_prog prog_linear_optimization_step (mk_args [dir] [F] [] []) (s, cs) = true.
Proof.
  intros Hinv HF Nd. unfold ok_prog, prog_linear_optimization_step.
  cbn [ok_exec guard_s init_env e_p e_x a_pts mk_args a_fun a_scal nth StepsFunc.exec_s fresh_pt fresh_ex
       setp setx StepsRT.upd Nat.eqb pdefb andb compileP fst snd Func.pt_ctr Func.ex_ctr Func.funs pruned_sample].
  assert (Hk : forall k, In k (keys [(pt_ctr s, 1%Q)]) -> (k < S (pt_ctr s))%nat)
    by (intros k [<-|[]]; apply Nat.lt_succ_diag_r).
  assert (Ng : pND (p_neg dir)) by (unfold p_neg, p_scal, pND, NoDupKeys; rewrite (keys_scale nat); exact Nd).
  rewrite (add_point_guard_new s F _ _ _ _ (S (ex_ctr s)) (pt_ctr s) Hinv HF (NoDupKeys_single nat _ _) Hk
             (or_introl eq_refl) (le_n _) Ng (NoDupKeys_single ekey _ _)).
  reflexivity.
Qed.

Theorem linear_optimization_step_composite_inv dir F s cs :
  inv s -> (F < nfun s)%nat -> pND dir ->
  inv (run_state prog_linear_optimization_step (mk_args [dir] [F] [] []) (s, cs)).
Proof. intros Hinv HF Nd. apply run_inv_steps; [exact Hinv|]. apply linear_optimization_guard; assumption. Qed.

(** ** proximal_step: x = x0 - gamma gx with gx a fresh leaf *)
Section ProxPoint.
  Variables (x0 : pdict) (gamma : Q) (n : nat).
  Hypothesis Nx0 : pND x0.
  Hypothesis Hfresh : forall k, In k (keys x0) -> (k < n)%nat.
  Hypothesis Hgamma : ~ (gamma == 0)%Q.

  Let X : pdict := p_sub x0 (p_scal gamma [(n, 1%Q)]).

  Lemma prox_point_ND : pND X.
  Proof.
    unfold X, p_sub, p_add, p_neg, p_scal. apply pND_prune.
    apply (NoDupKeys_merge nat Nat.eqb nat_eqb_spec); [exact Nx0|]. cbn. apply NoDupKeys_single.
  Qed.

  Lemma prox_point_keys k : In k (keys X) -> (k < S n)%nat.
  Proof.
    unfold X, p_sub, p_add, p_neg, p_scal. intros H. apply (keys_prune_incl nat) in H.
    apply keys_merge_in in H as [H|H]; [specialize (Hfresh k H); lia|].
    cbn in H. destruct H as [<-|[]]. lia.
  Qed.

  Lemma prox_point_has_fresh : In n (keys (prune X)).
  Proof.
    assert (Hnz : ~ (1 * gamma * -1 == 0)%Q).
    { intros H. apply Hgamma. assert (E : (gamma == (1 * gamma * -1) * -1)%Q) by ring.
      rewrite H in E. rewrite E. ring. }
    apply (In_keys nat n (1 * gamma * -1)%Q).
    apply (prune_keeps nat); [|exact Hnz].
    unfold X, p_sub, p_add, p_neg, p_scal. apply (prune_keeps nat); [|exact Hnz].
    unfold pmerge, merge. apply in_or_app. right. cbn [scale map filter].
    assert (Hm : mem Nat.eqb n x0 = false).
    { apply (mem_false nat Nat.eqb nat_eqb_spec). intros Hc. specialize (Hfresh n Hc). lia. }
    rewrite Hm. left. reflexivity.
  Qed.
End ProxPoint.

Lemma proximal_guard x0 F gamma s cs :
  inv s -> (F < nfun s)%nat -> pwf_b s x0 = true -> ~ (gamma == 0)%Q ->
  ok_prog prog_proximal_step (mk_args [x0] [F] [gamma] []) (s, cs) = true.
Proof.
  intros Hinv HF Hp Hg. destruct (pwf_b_spec s x0 Hp) as [Nx0 Hk].
  unfold ok_prog, prog_proximal_step.
  cbn [ok_exec guard_s init_env e_p e_x a_pts mk_args a_fun a_scal nth StepsFunc.exec_s fresh_pt fresh_ex
       setp setx StepsRT.upd Nat.eqb pdefb sdefb andb compileP seval fst snd Func.pt_ctr Func.ex_ctr Func.funs
       pruned_sample].
  rewrite (add_point_guard_new s F _ _ _ (S (pt_ctr s)) (S (ex_ctr s)) (pt_ctr s) Hinv HF
             (prox_point_ND x0 gamma (pt_ctr s) Nx0) (prox_point_keys x0 gamma (pt_ctr s) Hk)
             (prox_point_has_fresh x0 gamma (pt_ctr s) Hk Hg) (le_n _) (NoDupKeys_single nat _ _) (NoDupKeys_single ekey _ _)).
  reflexivity.
Qed.

(** proximal_step(x0, F, gamma) on ANY function F (leaf or composite), any well-formed x0, any gamma <> 0 *)
Theorem proximal_step_composite_inv x0 F gamma s cs :
  inv s -> (F < nfun s)%nat -> pwf_b s x0 = true -> ~ (gamma == 0)%Q ->
  inv (run_state prog_proximal_step (mk_args [x0] [F] [gamma] []) (s, cs)).
Proof. intros Hinv HF Hp Hg. apply run_inv_steps; [exact Hinv|]. apply proximal_guard; assumption. Qed.

(** ... and the sample it records on a composite F is the weighted sum of the samples it makes the terms record *)
Theorem proximal_step_composite_sample x0 F gamma s cs :
  inv s -> (F < nfun s)%nat -> f_leaf (getf s F) = false -> pwf_b s x0 = true -> ~ (gamma == 0)%Q ->
  let s' := run_state prog_proximal_step (mk_args [x0] [F] [gamma] []) (s, cs) in
  let gx := [(pt_ctr s, 1%Q)] in
  let t := (prune (p_sub x0 (p_scal gamma gx)), prune gx, prune [(KF (ex_ctr s), 1%Q)]) in
  In t (f_pts (getf s' F)) /\ weighted_sum_at s' F t.
Proof.
  intros Hinv HF Hc Hp Hg s' gx t.
  assert (Hin : In t (f_pts (getf s' F))).
  { unfold s', run_state, StepsFunc.run, run_full, prog_proximal_step.
    cbn [StepsFunc.exec init_env e_p e_x a_pts mk_args a_fun a_scal nth StepsFunc.exec_s fresh_pt fresh_ex
         setp setx StepsRT.upd Nat.eqb pdefb sdefb andb compileP seval fst snd Func.pt_ctr Func.ex_ctr Func.funs
         pruned_sample].
    apply (add_point_records (mkS (S (pt_ctr s)) (S (ex_ctr s)) (funs s)) F). exact HF. }
  split; [exact Hin|].
  apply (run_composite_samples prog_proximal_step (mk_args [x0] [F] [gamma] []) s cs Hinv
           (proximal_guard x0 F gamma s cs Hinv HF Hp Hg) F t HF Hc Hin).
Qed.
