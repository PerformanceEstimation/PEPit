(** C09, the bound: at the values a real run gives to the leaves, a dual certificate bounds the
    performance.  The Gram matrix of the leaf points' values is symmetric and positive semidefinite,
    and the Gram reading of an expression at that matrix is its value: so a valuation under which every
    item sent to the solver holds is a feasible point of the SDP, and weak duality (C01) applies. *)
From Coq Require Import List Reals Qreals Lra.
From PV Require Import Base.IPS Model.Dict Model.Terms Model.Sent Model.Cvxpy Spec.Sem Spec.GramSem Spec.KKT
  Proofs.C01Gram Proofs.C01Identity Proofs.PSDLemmas.
Import ListNotations.
Local Open Scope R_scope.

Section Bound.
  Context {E : ips}.
  Variable rho : nat -> E.
  Variable phi : nat -> R.

  Definition gramOf : nat -> nat -> R := fun i j => inner (rho i) (rho j).

  Lemma gramOf_sym : symG gramOf.
  Proof. intros i j. unfold gramOf. apply inner_sym. Qed.

  Lemma evalGF_gram (e : edict) : evalGF gramOf phi e = evalE rho phi e.
  Proof.
    induction e as [|[k q] e IH]; cbn [evalGF evalE]; [reflexivity|].
    rewrite IH. destruct k; reflexivity.
  Qed.

  (** an item sent to the solver holds at the valuation *)
  Definition item_holds_at (it : item) : Prop :=
    match it with
    | SC e s => holds rho phi (e, s)
    | LMI m => psd_qf (nrows m) (fun i j => evalE rho phi (entry m i j))
    end.

  Lemma item_holds_gram it : item_holds_at it -> item_holds gramOf phi it.
  Proof.
    destruct it as [e s|m]; cbn [item_holds_at item_holds].
    - unfold holds, holdsGF. cbn [fst snd]. rewrite evalGF_gram. tauto.
    - intros [Hs Hq]. unfold lmi_value. split.
      + intros i j Hi Hj. rewrite !evalGF_gram. apply Hs; assumption.
      + intros c. erewrite sumn_ext; [apply (Hq c)|].
        intros i _. apply sumn_ext. intros j _. rewrite evalGF_gram. reflexivity.
  Qed.
End Bound.

Section Capstone.
  Context {E : ips}.

  (** A valuation under which every sent item holds cannot beat a certified bound. *)
  Theorem real_valuation_bounded (rho : nat -> E) (phi : nat -> R)
      (np : nat) (obj : edict) (tracked : sent) (duals : list dval) (entries : list (option (list (list Q)))) (res : list (list Q)) (tau : R) :
    length duals = length tracked -> length entries = length tracked ->
    certificate_identity obj (combine (combine tracked duals) entries) res tau ->
    dual_feasible (combine (combine tracked duals) entries) ->
    rank1sum res np ->
    Forall (item_holds_at rho phi) tracked ->
    evalE rho phi obj <= tau.
  Proof.
    intros Hlen Hlen' Hid Hdf Hres Hall.
    rewrite <- evalGF_gram.
    apply (weak_duality np obj tracked duals entries res tau Hlen Hlen' Hid Hdf Hres).
    split; [apply gramOf_sym|]. split; [apply gram_psd|].
    rewrite Forall_forall in *. intros it Hin. apply item_holds_gram, Hall, Hin.
  Qed.

  (** ** The objective leaf.  PEPit maximises a fresh leaf [o] under the rows [o - metric_k <= 0]
      (C05_metric_row); nothing else mentions [o]. *)
  Definition mentions_F (o : nat) (e : edict) : bool :=
    existsb (fun '(k, _) => match k with KF i => Nat.eqb i o | _ => false end) e.

  Definition item_mentions (o : nat) (it : item) : bool :=
    match it with
    | SC e _ => mentions_F o e
    | LMI m => existsb (fun row => existsb (mentions_F o) row) m
    end.

  Definition updF (phi : nat -> R) (o : nat) (t : R) : nat -> R := fun i => if Nat.eqb i o then t else phi i.

  Lemma evalE_updF (rho : nat -> E) phi o t e : mentions_F o e = false -> evalE rho (updF phi o t) e = evalE rho phi e.
  Proof.
    induction e as [|[k q] e IH]; cbn [evalE mentions_F existsb]; [reflexivity|].
    intros H. apply orb_false_elim in H as [Hk He]. rewrite (IH He). f_equal. f_equal.
    destruct k as [i|i j|]; cbn [evalK]; try reflexivity.
    unfold updF. rewrite Hk. reflexivity.
  Qed.

  Lemma entry_not_mentioned o m i j :
    existsb (fun row => existsb (mentions_F o) row) m = false -> mentions_F o (entry m i j) = false.
  Proof.
    intros H. unfold entry.
    destruct (nth_in_or_default i m []) as [Hin|Hd].
    - assert (Hrow : existsb (mentions_F o) (nth i m []) = false).
      { destruct (existsb (mentions_F o) (nth i m [])) eqn:Hx; [|reflexivity].
        assert (existsb (fun row => existsb (mentions_F o) row) m = true)
          by (apply existsb_exists; exists (nth i m []); split; assumption). congruence. }
      destruct (nth_in_or_default j (nth i m []) []) as [Hin2|Hd2].
      + destruct (mentions_F o (nth j (nth i m []) [])) eqn:Hx; [|reflexivity].
        assert (existsb (mentions_F o) (nth i m []) = true)
          by (apply existsb_exists; exists (nth j (nth i m []) []); split; assumption). congruence.
      + rewrite Hd2. reflexivity.
    - rewrite Hd. destruct j; reflexivity.
  Qed.

  Lemma item_holds_updF (rho : nat -> E) phi o t it :
    item_mentions o it = false -> item_holds_at rho phi it -> item_holds_at rho (updF phi o t) it.
  Proof.
    destruct it as [e s|m]; cbn [item_mentions item_holds_at]; intros Hm H.
    - unfold holds in *. cbn [fst snd] in *. rewrite (evalE_updF rho phi o t e Hm). exact H.
    - destruct H as [Hs Hq]. split.
      + intros i j Hi Hj. rewrite !evalE_updF by (apply entry_not_mentioned; exact Hm). apply Hs; assumption.
      + intros c. erewrite sumn_ext; [apply (Hq c)|]. intros i _. apply sumn_ext. intros j _.
        rewrite evalE_updF by (apply entry_not_mentioned; exact Hm). reflexivity.
  Qed.

  (** the metric row PEPit sends for metric [m]:  o - m <= 0  (as a dictionary: C05_metric_row) *)
  Definition is_metric_row (rho : nat -> E) (o : nat) (it : item) (m : edict) : Prop :=
    exists e, it = SC e Ineq /\ mentions_F o m = false /\
              forall phi, evalE rho phi e = phi o - evalE rho phi m.

  (** Capstone: the sent list consists of metric rows and of other items that do not mention the
      objective leaf; a real valuation satisfies the other items (class constraints by C03, step
      constraints by C08, partition constraints by C15, the user's initial condition by assumption).
      Then every number [t] that is below all the metric values at that valuation -- in particular the
      smallest metric, the performance of the run -- is below the certified bound. *)
  Theorem performance_bounded (rho : nat -> E) (phi : nat -> R) (o np : nat)
      (metrics : list (item * edict)) (others : sent)
      (duals : list dval) (entries : list (option (list (list Q)))) (res : list (list Q)) (tau t : R) :
    let tracked := map fst metrics ++ others in
    length duals = length tracked -> length entries = length tracked ->
    certificate_identity [(KF o, 1%Q)] (combine (combine tracked duals) entries) res tau ->
    dual_feasible (combine (combine tracked duals) entries) ->
    rank1sum res np ->
    Forall (fun im => is_metric_row rho o (fst im) (snd im)) metrics ->
    Forall (fun it => item_mentions o it = false) others ->
    Forall (item_holds_at rho phi) others ->
    (forall im, In im metrics -> t <= evalE rho phi (snd im)) ->
    t <= tau.
  Proof.
    intros tracked Hlen Hlen' Hid Hdf Hres Hmet Hno Hoth Ht.
    pose (phi' := updF phi o t).
    assert (Hobj : evalE rho phi' [(KF o, 1%Q)] = t).
    { cbn [evalE evalK]. unfold phi', updF. rewrite Nat.eqb_refl. unfold Q2R; cbn. lra. }
    rewrite <- Hobj.
    apply (real_valuation_bounded rho phi' np [(KF o, 1%Q)] tracked duals entries res tau Hlen Hlen' Hid Hdf Hres).
    unfold tracked. apply Forall_app. split.
    - rewrite Forall_forall in *. intros it Hin. apply in_map_iff in Hin as [im [<- Him]].
      destruct (Hmet im Him) as (e & -> & Hm & He). cbn [item_holds_at]. unfold holds. cbn [fst snd].
      rewrite He. unfold phi'. rewrite (evalE_updF rho phi o t (snd im) Hm). unfold updF. rewrite Nat.eqb_refl.
      specialize (Ht im Him). lra.
    - rewrite Forall_forall in *. intros it Hin. apply item_holds_updF; [apply Hno, Hin|apply Hoth, Hin].
  Qed.
End Capstone.
