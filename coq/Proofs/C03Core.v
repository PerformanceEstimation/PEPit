(** C03 — class constraints never exclude a real member: the part that holds for every plan.
    [plan_sound]: a plan generates only satisfied constraints and LMIs once each of its items is sound
    at the state the generator starts from ([item_ok]).  [pairs_ok], [singles_ok], [lmi_item_ok]: an
    item is sound when its formula denotes a reference condition of Spec/Reference.v on the values of
    the samples (a [feq_*] lemma of FormulaEq.v) that holds on the samples at hand (a [mem_*] lemma). *)
From Coq Require Import List Reals Qreals.
From PV Require Import Base.IPS Model.Dict Model.Terms Model.ClassGen Spec.Sem Spec.Reference Spec.Classes.
From PV Require Import Proofs.DictLemmas Proofs.SemLemmas Proofs.ClassGenLemmas Proofs.C04Lemmas.
From PV Require Import Proofs.MembersC.
Import ListNotations.
Local Open Scope R_scope.

(** the stationary sample PEPit creates itself ([Function.stationary_point()] called by
    ConvexQGFunction / RsiEbFunction when none was recorded): fresh leaf point, empty gradient, fresh
    leaf value *)
Definition fresh_stationary (st : fstate) : sample :=
  mkSample [(f_next_point st, 1%Q)] [] [(KF (f_next_expr st), 1%Q)] None (f_next_uid st)
           (S (f_next_uid st)) (S (S (f_next_uid st))) [].

(** [start_state plan st], the state the generator works on: [st] itself when a stationary sample was
    recorded; otherwise, for a plan that begins with [AutoStationary], [st] with [fresh_stationary st]
    appended to the points and as the only stationary sample *)
Lemma start_state_recorded plan st : f_stat st <> [] -> start_state plan st = st.
Proof. intros H. apply start_state_ind; [reflexivity|]. intros Es. contradiction. Qed.

(** what holds of the samples of a list and of [fresh_stationary st] holds of the samples the generator sees *)
Lemma start_state_list plan st l (G : sample -> Prop) :
  (forall s, In s (get_list st l) -> G s) -> G (fresh_stationary st) ->
  forall s, In s (get_list (start_state plan st) l) -> G s.
Proof.
  intros Hl Hf. apply start_state_ind; [exact Hl|]. intros _ s Hs.
  destruct l; cbn [get_list auto_stationary f_points f_stat f_tpoints] in Hs; [| |exact (Hl s Hs)];
    (apply in_app_or in Hs as [Hs|[<-|[]]]; [exact (Hl s Hs)|exact Hf]).
Qed.

Lemma start_state_auto_stat plan st (G : sample -> Prop) :
  f_stat st = [] -> G (fresh_stationary st) -> forall s, In s (f_stat (start_state plan st)) -> G s.
Proof.
  intros He Hf. apply (start_state_list plan st LStationary G); [|exact Hf].
  cbn [get_list]. rewrite He. intros s [].
Qed.

(** the block dictionaries of the recorded gradients have unique keys (Python dicts) *)
Definition wf_blocks (st : fstate) : Prop :=
  forall s k, In s (f_points st) -> NoDupKeys nat (nth k (s_gblocks s) []).

Section Core.
  Context {E : ips}.
  Variable rho : nat -> E.          (* value of each leaf point *)
  Variable phi : nat -> R.          (* value of each leaf expression *)

  Definition px (s : sample) : E := evalP rho (s_x s).
  Definition pg (s : sample) : E := evalP rho (s_g s).
  Definition pf (s : sample) : R := evalE rho phi (s_f s).
  Definition sval (s : sample) : @triple E := (px s, pg s, pf s).
  (** value of block k of the recorded gradient *)
  Definition pgk (k : nat) (s : sample) : E := evalP rho (nth k (s_gblocks s) []).
  (** the first stationary sample (what [self.list_of_stationary_points[0]] refers to) *)
  Definition stat_x (st : fstate) : E := evalP rho (match f_stat st with s :: _ => s_x s | [] => [] end).
  Definition stat_f (st : fstate) : R := evalE rho phi (match f_stat st with s :: _ => s_f s | [] => [] end).
  (** value of [self.v] *)
  Definition v_val (st : fstate) : E := evalP rho (match f_v st with Some d => d | None => [] end).

  Definition lmi_ok (m : list (list edict)) : Prop :=
    psd_rows (evalM rho phi m) /\ sym_rows (evalM rho phi m).
  Definition all_satisfied (o : genout) : Prop :=
    (forall c, In c (g_cons o) -> holds rho phi (c_obj c)) /\
    (forall m, In m (g_lmis o) -> lmi_ok m).

  Definition lmi_of (st : fstate) (l : lst) (entry : xterm) : list (list edict) :=
    map (fun si => map (fun sj => instX st entry si sj) (get_list st l)) (get_list st l).

  (** an item is sound at a state: on whatever samples of its lists it is instantiated *)
  Fixpoint item_ok (st : fstate) (it : plan_item) : Prop :=
    match it with
    | Pairs l1 l2 _ f _ =>
        forall si sj, In si (get_list st l1) -> In sj (get_list st l2) -> holds rho phi (inst st f si sj)
    | Singles l _ f => forall si, In si (get_list st l) -> holds rho phi (inst st f si si)
    | Guarded g it' => guard_true st g = true -> item_ok st it'
    | AutoStationary => True
    | LMI l entry => lmi_ok (lmi_of st l entry)
    | BlockPairs _ f =>
        forall si sj k, In si (f_points st) -> In sj (f_points st) -> (k < f_nblocks st)%nat ->
                        holds rho phi (instB st f k si sj)
    end.

  Lemma item_ok_src st it c : item_ok st it -> item_src st it c -> holds rho phi (c_obj c).
  Proof.
    induction it as [l1 l2 cname f sym|l cname f|g it IH| |l entry|cprefix f]; cbn [item_ok item_src].
    - intros H (i & j & si & sj & Hi & Hj & _ & ->). cbn [c_obj].
      apply H; eapply nth_error_In; eassumption.
    - intros H (i & si & Hi & ->). cbn [c_obj]. apply H. eapply nth_error_In; eassumption.
    - intros H [Hg Hs]. exact (IH (H Hg) Hs).
    - intros _ [].
    - intros _ [].
    - intros H (i & j & k & si & sj & Hi & Hj & _ & Hk & ->). cbn [c_obj].
      apply H; [eapply nth_error_In; eassumption|eapply nth_error_In; eassumption|exact Hk].
  Qed.

  Lemma item_ok_lmi_src st it m : item_ok st it -> item_lmi_src st it m -> lmi_ok m.
  Proof.
    induction it as [l1 l2 cname f sym|l cname f|g it IH| |l entry|cprefix f];
      cbn [item_ok item_lmi_src]; try solve [intros _ []].
    - intros H [Hg Hs]. exact (IH (H Hg) Hs).
    - intros H ->. exact H.
  Qed.

  Theorem plan_sound plan st :
    auto_head_only plan = true ->
    Forall (item_ok (start_state plan st)) plan ->
    all_satisfied (run_plan plan st).
  Proof.
    intros Hh Hall. rewrite Forall_forall in Hall. split.
    - intros c Hc. apply (run_plan_items_spec_simple plan st c Hh) in Hc as (it & Hin & Hsrc).
      exact (item_ok_src _ it c (Hall it Hin) Hsrc).
    - intros m Hm. apply (run_plan_lmis_spec_simple plan st m Hh) in Hm as (it & Hin & Hsrc).
      exact (item_ok_lmi_src _ it m (Hall it Hin) Hsrc).
  Qed.

  (** an item over lists whose samples are valued in [G1], [G2]: the formula is the reference [ref]
      of the values of the two samples ([feq_*]) and [ref] holds on [G1] x [G2] ([mem_*]).  The
      variables of the formula are by computation the values of the samples, [stat_x], [stat_f]
      and [v_val] of the state. *)
  Lemma pairs_ok st l1 l2 cname f sym (G1 G2 : @triple E -> Prop) (ref : E -> E -> R -> E -> E -> R -> R) sn :
    wf_state st ->
    (forall s, In s (get_list st l1) -> G1 (sval s)) ->
    (forall s, In s (get_list st l2) -> G2 (sval s)) ->
    (forall si sj, cdef (parR st) f /\
       lhs_minus_rhs (parR st) (upR rho st si sj) (uxR rho phi st si sj) f
       = (ref (px si) (pg si) (pf si) (px sj) (pg sj) (pf sj), sn)) ->
    (forall xi gi fi xj gj fj, G1 (xi, gi, fi) -> G2 (xj, gj, fj) -> sat (ref xi gi fi xj gj fj, sn)) ->
    item_ok st (Pairs l1 l2 cname f sym).
  Proof.
    intros Hst H1 H2 Hf Hm si sj Hi Hj.
    exact (proj2 (inst_holds_sat rho phi st f si sj _ sn Hst (wf_get_list st l1 si Hst Hi)
                                 (wf_get_list st l2 sj Hst Hj) (Hf si sj))
                 (Hm _ _ _ _ _ _ (H1 si Hi) (H2 sj Hj))).
  Qed.

  (** the same for a reference that does not look at the function values (operator classes) *)
  Lemma pairs_xg_ok st l1 l2 cname f sym (G1 G2 : @triple E -> Prop) (ref : E -> E -> E -> E -> R) sn :
    wf_state st ->
    (forall s, In s (get_list st l1) -> G1 (sval s)) ->
    (forall s, In s (get_list st l2) -> G2 (sval s)) ->
    (forall si sj, cdef (parR st) f /\
       lhs_minus_rhs (parR st) (upR rho st si sj) (uxR rho phi st si sj) f
       = (ref (px si) (pg si) (px sj) (pg sj), sn)) ->
    (forall xi gi fi xj gj fj, G1 (xi, gi, fi) -> G2 (xj, gj, fj) -> sat (ref xi gi xj gj, sn)) ->
    item_ok st (Pairs l1 l2 cname f sym).
  Proof. exact (pairs_ok st l1 l2 cname f sym G1 G2 (fun xi gi _ xj gj _ => ref xi gi xj gj) sn). Qed.

  Lemma singles_ok st l cname f (G : @triple E -> Prop) (ref : E -> E -> R -> R) sn :
    wf_state st ->
    (forall s, In s (get_list st l) -> G (sval s)) ->
    (forall si, cdef (parR st) f /\
       lhs_minus_rhs (parR st) (upR rho st si si) (uxR rho phi st si si) f = (ref (px si) (pg si) (pf si), sn)) ->
    (forall xi gi fi, G (xi, gi, fi) -> sat (ref xi gi fi, sn)) ->
    item_ok st (Singles l cname f).
  Proof.
    intros Hst H Hf Hm si Hi. pose proof (wf_get_list st l si Hst Hi) as Hw.
    exact (proj2 (inst_holds_sat rho phi st f si si _ sn Hst Hw Hw (Hf si)) (Hm _ _ _ (H si Hi))).
  Qed.

  (** the valuation of a block formula of BlockSmoothConvexFunction, block k *)
  Definition parB (st : fstate) (k : nat) : nat -> R := fun p => Q2R (par_b st k p).
  Definition upB (st : fstate) (k : nat) (si sj : sample) : nat -> E := fun v => evalP rho (env_pb st k si sj v).

  Lemma env_pb_wf st k si sj :
    wf_state st -> wf_sample si -> wf_sample sj ->
    NoDupKeys nat (nth k (s_gblocks si) []) -> NoDupKeys nat (nth k (s_gblocks sj) []) ->
    forall v, NoDupKeys nat (env_pb st k si sj v).
  Proof.
    intros Hst Hi Hj Hbi Hbj v. unfold env_pb.
    destruct (Nat.eqb v V_gik); [exact Hbi|]. destruct (Nat.eqb v V_gjk); [exact Hbj|].
    apply env_p_wf; assumption.
  Qed.

  Lemma instB_holds_ref st f k si sj (r : R) (sn : sense) :
    wf_state st -> wf_sample si -> wf_sample sj ->
    NoDupKeys nat (nth k (s_gblocks si) []) -> NoDupKeys nat (nth k (s_gblocks sj) []) ->
    cdef (parB st k) f /\ lhs_minus_rhs (parB st k) (upB st k si sj) (uxR rho phi st si sj) f = (r, sn) ->
    sat (r, sn) ->
    holds rho phi (instB st f k si sj).
  Proof.
    intros Hst Hi Hj Hbi Hbj [Hdef Heq] Hsat. unfold instB.
    apply (compileC_holds rho phi (par_b st k) (env_pb st k si sj) (env_x st si sj)
                          (env_pb_wf st k si sj Hst Hi Hj Hbi Hbj) (env_x_wf st si sj Hst Hi Hj) f Hdef).
    apply denoteC_sat. unfold parB, upB, uxR in Heq. rewrite Heq. exact Hsat.
  Qed.

  (** an LMI over a list whose samples are valued in [G]: its numeric matrix is the reference matrix
      over the (x, g) values of the samples ([feq_*_lmi]), which [mem_*_lmi] shows PSD and symmetric *)
  Lemma lmi_item_ok st l entry (G : @triple E -> Prop) (ref : E -> E -> E -> E -> R) :
    wf_state st ->
    (forall s, In s (get_list st l) -> G (sval s)) ->
    (forall si sj, xdef (parR st) entry /\
       denoteX (parR st) (upR rho st si sj) (uxR rho phi st si sj) entry = ref (px si) (pg si) (px sj) (pg sj)) ->
    (forall samples, (forall t, In t samples -> G t) ->
       psd_rows (Spec.Classes.lmi_matrix ref (map sample_xg samples)) /\
       sym_rows (Spec.Classes.lmi_matrix ref (map sample_xg samples))) ->
    item_ok st (LMI l entry).
  Proof.
    intros Hst HG Href Hm. cbn [item_ok]. unfold lmi_ok.
    replace (evalM rho phi (lmi_of st l entry))
      with (Spec.Classes.lmi_matrix ref (map sample_xg (map sval (get_list st l)))).
    - apply Hm. intros t Ht. apply in_map_iff in Ht as [s [<- Hs]]. exact (HG s Hs).
    - symmetry. unfold lmi_of. rewrite C04Lemmas.lmi_matrix. unfold Spec.Classes.lmi_matrix.
      rewrite !map_map. apply map_ext_in. intros si Hi.
      cbn beta iota delta [sample_xg sval fst snd]. rewrite map_map. apply map_ext_in. intros sj Hj.
      cbn beta iota delta [sample_xg sval fst snd]. destruct (Href si sj) as [Hdef <-].
      pose proof (wf_get_list st l si Hst Hi) as Hwi. pose proof (wf_get_list st l sj Hst Hj) as Hwj.
      exact (compileX_denote rho phi (f_par st) (env_p st si sj) (env_x st si sj)
                         (env_p_wf st si sj Hst Hwi Hwj) (env_x_wf st si sj Hst Hwi Hwj) entry Hdef).
  Qed.

  (** only the norm of a difference of two blocks enters the block condition *)
  Lemma ref_block_smooth_veq Lk (xi xj gj a b a' b' : E) fi fj :
    veq a a' -> veq b b' ->
    ref_block_smooth Lk xi xj gj a b fi fj = ref_block_smooth Lk xi xj gj a' b' fi fj.
  Proof.
    intros Ha Hb. unfold ref_block_smooth, nrm2. f_equal. f_equal.
    apply veq_inner; apply veq_sub; assumption.
  Qed.

  (** a stationary sample has the empty gradient dictionary: its value is the zero vector *)
  Lemma pg_nil s : s_g s = [] -> pg s = vzero.
  Proof. unfold pg. intros ->. reflexivity. Qed.

  (** a subgradient is only observed through inner products *)
  Lemma subgrad_veq (F : fn) (x g g' : E) : veq g g' -> subgrad F x g -> subgrad F x g'.
  Proof.
    intros Hv [Hd H]. split; [exact Hd|]. intros y Hy. rewrite <- (veq_inner_l _ _ _ Hv). exact (H y Hy).
  Qed.
End Core.
Arguments pairs_ok {E rho phi st l1 l2 cname f sym G1 G2} ref {sn} & _ _ _ _ _.
Arguments pairs_xg_ok {E rho phi st l1 l2 cname f sym G1 G2} ref {sn} & _ _ _ _ _.
Arguments singles_ok {E rho phi st l cname f G} ref {sn} & _ _ _ _.
Arguments lmi_item_ok {E rho phi st l entry G} ref & _ _ _ _.

(** states whose parameter table / infinity flags agree with a member's optional parameter
    ([None] = the parameter is [np.inf]: the plan's guard removes the condition) *)
Definition par_is (st : fstate) (p : nat) (v : R) : Prop := Q2R (f_par st p) = v.
Definition opt_par_is (st : fstate) (p : nat) (o : option R) : Prop :=
  match o with
  | Some v => f_inf st p = false /\ Q2R (f_par st p) = v
  | None => f_inf st p = true
  end.

Lemma start_state_par plan st p v : par_is st p v -> par_is (start_state plan st) p v.
Proof. intros H. apply start_state_ind; [exact H|]. intros _. exact H. Qed.

Lemma guard_finite_Some st p o :
  opt_par_is st p o -> guard_true st (GParFinite p) = true -> exists v, o = Some v /\ Q2R (f_par st p) = v.
Proof.
  unfold opt_par_is. cbn [guard_true]. destruct o as [v|].
  - intros [_ Hv] _. exists v. auto.
  - intros -> H. discriminate.
Qed.

Lemma guard_v_Some st : guard_true st GHasV = true -> exists d, f_v st = Some d.
Proof. cbn [guard_true]. destruct (f_v st) as [d|]; [exists d; reflexivity|discriminate]. Qed.
