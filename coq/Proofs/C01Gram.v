(** Gram reading of the dictionaries computed by [Model.Cert]: the value, as an affine function of
    (G,F), of every intermediate expression of the proof reconstruction.  Line numbers are those of
    [check_feasibility] in PEPit/pep.py. *)
From Coq Require Import List Reals Qreals Lra Lia.
From PV Require Import Base.IPS Model.Dict Model.Terms Model.Sent Model.Cvxpy Model.Cert
     Spec.Sem Spec.GramSem Spec.KKT Proofs.DictLemmas Proofs.SemLemmas Proofs.C05Lemmas.
Import ListNotations.
Local Open Scope R_scope.

Lemma Q2R_0' : Q2R 0 = 0. Proof. apply RMicromega.Q2R_0. Qed.

(** ** Folds that add up.
    A fold whose every step keeps the accumulator well formed ([ok]) and adds [v x] to its value ([val]) adds
    up the [v x]; the reductions of Model.Cert (np.dot, np.sum, the loops of check_feasibility) are all of this kind. *)
Fixpoint lsum (l : list R) : R :=
  match l with [] => 0 | x :: r => x + lsum r end.

Lemma lsum_app a b : lsum (a ++ b) = lsum a + lsum b.
Proof. induction a as [|x a IH]; cbn [app lsum]; [lra|rewrite IH; lra]. Qed.

Lemma fold_left_sum {D A} (ok : D -> Prop) (val : D -> R) (f : D -> A -> D) (v : A -> R) (P : A -> Prop) :
  (forall acc x, ok acc -> P x -> ok (f acc x) /\ val (f acc x) = val acc + v x) ->
  forall l acc, ok acc -> Forall P l ->
  ok (fold_left f l acc) /\ val (fold_left f l acc) = val acc + lsum (map v l).
Proof.
  intros Hstep. induction l as [|x l IH]; intros acc Hacc Hl; cbn [fold_left map lsum].
  - split; [exact Hacc|lra].
  - inversion Hl as [|? ? Hx Hl']; subst. destruct (Hstep acc x Hacc Hx) as [H1 H2].
    destruct (IH (f acc x) H1 Hl') as [H3 H4]. split; [exact H3|]. rewrite H4, H2. lra.
Qed.

Lemma fold1_sum {D} (ok : D -> Prop) (val : D -> R) (f : D -> D -> D) dflt :
  ok dflt -> val dflt = 0 ->
  (forall acc x, ok acc -> ok x -> ok (f acc x) /\ val (f acc x) = val acc + val x) ->
  forall l, Forall ok l -> ok (fold1 f dflt l) /\ val (fold1 f dflt l) = lsum (map val l).
Proof.
  intros Hd Hd0 Hstep [|x l] Hl; cbn [fold1 map lsum]; [split; assumption|].
  inversion Hl as [|? ? Hx Hl']; subst. apply (fold_left_sum ok val f val ok Hstep); assumption.
Qed.

Section GF.
  Variable G : nat -> nat -> R.
  Variable F : nat -> R.
  Notation ev := (evalGF G F).
  Notation kv := (evalKGF G F).

  Lemma ev_app a b : ev (a ++ b) = ev a + ev b.
  Proof. rewrite !evalGF_dsum. apply dsum_app. Qed.
  Lemma ev_neg a : ev (x_neg a) = - ev a.
  Proof. unfold x_neg. rewrite evalGF_scal, Q2R_m1. lra. Qed.
  Lemma ev_prune d : ev (prune d) = ev d.
  Proof. rewrite !evalGF_dsum. apply dsum_prune. Qed.

  Lemma x_add_step acc d : eND acc -> eND d -> eND (x_add acc d) /\ ev (x_add acc d) = ev acc + ev d.
  Proof. intros Ha Hd. split; [apply eND_add|apply evalGF_add]; assumption. Qed.

  Lemma fold1_x_add l : Forall eND l ->
    eND (fold1 x_add [] l) /\ ev (fold1 x_add [] l) = lsum (map ev l).
  Proof. apply (fold1_sum eND ev x_add [] (NoDupKeys_nil ekey) eq_refl x_add_step). Qed.
End GF.

Section Pts.
  Variable val : nat -> R.
  Notation pv := (dsum nat val).

  Lemma p_add_step a b : pND a -> pND b -> pND (p_add a b) /\ pv (p_add a b) = pv a + pv b.
  Proof.
    intros Ha Hb. split; [apply pND_add; assumption|]. unfold p_add, pmerge. rewrite dsum_prune.
    apply (dsum_merge nat Nat.eqb nat_eqb_spec); assumption.
  Qed.

  Lemma scaled_leaves_spec row : forall j,
    Forall pND (scaled_leaves row j) /\ lsum (map pv (scaled_leaves row j)) = rdot row val j.
  Proof.
    induction row as [|r row IH]; intro j; cbn [scaled_leaves map lsum rdot].
    - split; [constructor|reflexivity].
    - destruct (IH (S j)) as [H1 H2]. unfold p_scal, leaf_p. cbn [scale map dsum]. split.
      + constructor; [apply NoDupKeys_single|exact H1].
      + rewrite H2, Q2R_mult, Q2R_1. lra.
  Qed.

  (** one row of np.dot(residual, leafs) *)
  Lemma res_row_spec row :
    pND (fold1 p_add [] (scaled_leaves row 0)) /\ pv (fold1 p_add [] (scaled_leaves row 0)) = rdot row val 0.
  Proof.
    destruct (scaled_leaves_spec row 0) as [H1 H2]. rewrite <- H2.
    apply (fold1_sum pND pv p_add [] (NoDupKeys_nil nat) eq_refl p_add_step), H1.
  Qed.
End Pts.

Definition same_shape (Sm : list (list Q)) (m : list (list edict)) : Prop :=
  Forall2 (fun s e => length s = length e) Sm m.

Definition wf_matrix (m : list (list edict)) : Prop := Forall (Forall wf_edict) m.

Definition ok_expo (p : expo) : Prop :=
  match p with
  | (SC e _, _, _) => wf_edict e
  | (LMI m, d, u) =>
      match lmi_multiplier d u with Some s => same_shape s m | None => True end
      /\ match d with VM s => same_shape s m | VS _ => True end
      /\ wf_matrix m
  end.

Lemma combine_app {A B} (a1 a2 : list A) (b1 b2 : list B) :
  length a1 = length b1 -> combine (a1 ++ a2) (b1 ++ b2) = combine a1 b1 ++ combine a2 b2.
Proof.
  revert b1. induction a1 as [|x a1 IH]; intros [|y b1] H; cbn in *; try discriminate; [reflexivity|].
  f_equal. apply IH. lia.
Qed.

Section Recon.
  Variable G : nat -> nat -> R.
  Variable F : nat -> R.
  Notation ev := (evalGF G F).

  (** <P_i, v> *)
  Lemma ev_multiply_leaf i v : ev (multiply (leaf_p i) v) = dsum nat (G i) v.
  Proof.
    unfold multiply, leaf_p. cbn [flat_map]. rewrite app_nil_r.
    induction v as [|[k q] v IH]; cbn [map evalGF dsum evalKGF]; [reflexivity|].
    rewrite IH, Q2R_mult, Q2R_1. lra.
  Qed.

  (** the products P_i * (row i of residual . leafs) add up to <residual, G> *)
  Lemma points_times_res res : forall i0,
    Forall eND (points_times (res_times_points res) i0)
    /\ lsum (map ev (points_times (res_times_points res) i0)) = mdot_from res G i0.
  Proof.
    induction res as [|row res IH]; intro i0; cbn [res_times_points map points_times lsum mdot_from].
    - split; [constructor|reflexivity].
    - destruct (IH (S i0)) as [H1 H2]. destruct (res_row_spec (G i0) row) as [H3 H4]. split.
      + constructor; [apply keys_multiply_NoDup; [apply NoDupKeys_single|exact H3]|exact H1].
      + fold (res_times_points res). rewrite H2, ev_multiply_leaf, H4. reflexivity.
  Qed.

  (** line 733: the value of -<leafs, residual leafs> is -<residual, G>, for every G *)
  Lemma gram_term_spec res : eND (gram_term res) /\ ev (gram_term res) = - mdot res G.
  Proof.
    unfold gram_term. destruct (points_times_res res 0) as [H1 H2].
    destruct (fold1_x_add G F _ H1) as [H3 H4]. split; [apply eND_neg, H3|].
    rewrite ev_neg, H4, H2. reflexivity.
  Qed.

  (** coefficient * expression *)
  Definition scaled_val (p : Q * edict) : R := Q2R (fst p) * ev (snd p).

  Lemma rdot_combine srow : forall erow j0 (a : nat -> R),
    length srow = length erow ->
    (forall k, (k < length erow)%nat -> a (j0 + k)%nat = ev (nth k erow [])) ->
    rdot srow a j0 = lsum (map scaled_val (combine srow erow)).
  Proof.
    induction srow as [|s srow IH]; intros [|e erow] j0 a Hlen Ha; try discriminate; cbn [rdot combine map lsum];
      [reflexivity|].
    injection Hlen as Hlen. rewrite (IH erow (S j0) a Hlen).
    - pose proof (Ha 0%nat (Nat.lt_0_succ _)) as H0. rewrite Nat.add_0_r in H0. rewrite H0. reflexivity.
    - intros k Hk. rewrite Nat.add_succ_comm. apply Ha. apply -> Nat.succ_lt_mono. exact Hk.
  Qed.

  Lemma mdot_combine Sm : forall m i0 (A : nat -> nat -> R),
    same_shape Sm m ->
    (forall i j, A (i0 + i)%nat j = ev (nth j (nth i m []) [])) ->
    mdot_from Sm A i0 = lsum (map scaled_val (combine (concat Sm) (concat m))).
  Proof.
    induction Sm as [|s Sm IH]; intros m i0 A Hsh HA; inversion Hsh as [|? e ? m' Hlen Hsh']; subst;
      cbn [mdot_from concat combine map lsum]; [reflexivity|].
    rewrite combine_app, map_app, lsum_app by exact Hlen. f_equal.
    - apply rdot_combine; [exact Hlen|]. intros k _. rewrite <- (Nat.add_0_r i0). apply HA.
    - apply (IH m' (S i0) A Hsh'). intros i j. rewrite Nat.add_succ_comm. apply HA.
  Qed.

  (** line 747: np.sum(S * E) evaluates to <S, E(G,F)> *)
  Lemma lmi_term_spec Sm m : same_shape Sm m -> wf_matrix m ->
    eND (lmi_term Sm m) /\ ev (lmi_term Sm m) = mdot Sm (lmi_value G F m).
  Proof.
    intros Hsh Hwf. unfold lmi_term.
    destruct (fold1_x_add G F (map (fun '(s, e) => x_scal s e) (combine (concat Sm) (concat m)))) as [H1 H2].
    { apply Forall_forall. intros d Hin. apply in_map_iff in Hin as [[s e] [<- Hin]]. apply eND_scal.
      apply in_combine_r, in_concat in Hin as [row [Hrow Hin]].
      unfold wf_matrix in Hwf. rewrite Forall_forall in Hwf. specialize (Hwf row Hrow).
      rewrite Forall_forall in Hwf. exact (Hwf e Hin). }
    split; [exact H1|]. rewrite H2, map_map. unfold mdot.
    rewrite (mdot_combine Sm m 0%nat (lmi_value G F m) Hsh (fun i j => eq_refl)).
    f_equal. apply map_ext. intros [s e]. apply evalGF_scal.
  Qed.

  Definition psd_val (p : list (list Q) * list (list edict)) : R := mdot (fst p) (lmi_value G F (snd p)).
  Definition psd_ok (p : list (list Q) * list (list edict)) : Prop := same_shape (fst p) (snd p) /\ wf_matrix (snd p).

  Lemma multiplier_sum_split a :
    multiplier_sum G F a = lsum (map scaled_val (scalar_part a)) - lsum (map psd_val (psd_part a)).
  Proof.
    induction a as [|[[it d] u] a IH]; cbn [multiplier_sum scalar_part psd_part flat_map map lsum]; [lra|].
    fold (scalar_part a). fold (psd_part a). rewrite IH.
    destruct it as [e s|m]; [destruct d|destruct (lmi_multiplier d u)];
      cbn [app map lsum]; unfold scaled_val, psd_val; cbn [fst snd]; lra.
  Qed.

  Lemma old_multiplier_sum_split a :
    old_multiplier_sum G F a = lsum (map scaled_val (scalar_part a)) - lsum (map psd_val (old_psd_part a)).
  Proof.
    induction a as [|[[it d] u] a IH]; cbn [old_multiplier_sum scalar_part old_psd_part flat_map map lsum]; [lra|].
    fold (scalar_part a). fold (old_psd_part a). rewrite IH.
    destruct it as [e s|m], d; cbn [app map lsum]; unfold scaled_val, psd_val; cbn [fst snd]; lra.
  Qed.

  (** lines 733-768: the Gram term, minus the LMI terms, plus the scaled scalar constraints *)
  Lemma combine_terms_spec res psds scs :
    Forall psd_ok psds -> Forall (fun p : Q * edict => eND (snd p)) scs ->
    eND (combine_terms res psds scs)
    /\ ev (combine_terms res psds scs) = lsum (map scaled_val scs) - lsum (map psd_val psds) - mdot res G.
  Proof.
    intros Hp Hs. destruct (gram_term_spec res) as [H0 H0']. unfold combine_terms. cbv zeta.
    destruct (fold_left_sum (D := edict) eND ev (fun (cc : edict) '(s, m) => x_sub cc (lmi_term s m)) (fun p => - psd_val p) psd_ok)
      with (l := psds) (acc := gram_term res) as [H1 H1']; [|exact H0|exact Hp|].
    { intros cc [s m] Hcc [Hsh Hwf]. destruct (lmi_term_spec s m Hsh Hwf) as [Ht Ht'].
      split; [apply eND_sub; assumption|]. rewrite evalGF_sub, Ht' by assumption. reflexivity. }
    destruct (fold_left_sum (D := edict) eND ev (fun (cc : edict) '(la, e) => x_add cc (x_scal la e)) scaled_val (fun p => eND (snd p)))
      with (l := scs) (acc := fold_left (fun (cc : edict) '(s, m) => x_sub cc (lmi_term s m)) psds (gram_term res))
      as [H2 H2']; [|exact H1|exact Hs|].
    { intros cc [la e] Hcc He. apply eND_scal with (c := la) in He.
      split; [apply eND_add; assumption|]. rewrite evalGF_add, evalGF_scal by assumption. reflexivity. }
    split; [exact H2|]. rewrite H2', H1', H0'.
    assert (Hneg : forall l, lsum (map (fun p => - psd_val p) l) = - lsum (map psd_val l))
      by (induction l as [|p l IH]; cbn [map lsum]; [|rewrite IH]; lra).
    rewrite Hneg. lra.
  Qed.

  Lemma scalar_part_ok a : Forall ok_expo a -> Forall (fun p : Q * edict => eND (snd p)) (scalar_part a).
  Proof.
    intro H. apply Forall_flat_map. revert H. apply Forall_impl.
    intros [[[e s|m] [l|Sm]] u] He; repeat constructor. exact He.
  Qed.

  Lemma psd_part_ok a : Forall ok_expo a -> Forall psd_ok (psd_part a).
  Proof.
    intro H. apply Forall_flat_map. revert H. apply Forall_impl.
    intros [[[e s|m] d] u]; cbn [ok_expo]; [constructor|]. intros [H1 [_ H3]].
    destruct (lmi_multiplier d u); repeat constructor; assumption.
  Qed.

  Lemma old_psd_part_ok a : Forall ok_expo a -> Forall psd_ok (old_psd_part a).
  Proof.
    intro H. apply Forall_flat_map. revert H. apply Forall_impl.
    intros [[[e s|m] [l|Sm]] u]; cbn [ok_expo]; repeat constructor; tauto.
  Qed.

  Theorem combination_spec res a : Forall ok_expo a ->
    eND (combination res a)
    /\ ev (combination res a) = multiplier_sum G F a - mdot res G.
  Proof.
    intro Hok. rewrite multiplier_sum_split.
    apply combine_terms_spec; [apply psd_part_ok|apply scalar_part_ok]; exact Hok.
  Qed.

  Theorem old_combination_spec res a : Forall ok_expo a ->
    eND (old_combination res a)
    /\ ev (old_combination res a) = old_multiplier_sum G F a - mdot res G.
  Proof.
    intro Hok. rewrite old_multiplier_sum_split.
    apply combine_terms_spec; [apply old_psd_part_ok|apply scalar_part_ok]; exact Hok.
  Qed.
End Recon.

(** ** symmetrize: its value at ANY matrix G is the value of the original at the symmetric part of G *)
Definition symm (G : nat -> nat -> R) : nat -> nat -> R := fun i j => (G i j + G j i) / 2.

Lemma symm_sym G : symG (symm G).
Proof. intros i j. unfold symm. lra. Qed.

Lemma evalGF_symm G F d : symG G -> evalGF (symm G) F d = evalGF G F d.
Proof.
  intro H. induction d as [|[k q] d IH]; cbn [evalGF]; [reflexivity|].
  rewrite IH. destruct k as [e|i j|]; cbn [evalKGF]; try reflexivity. unfold symm. rewrite (H j i). lra.
Qed.

Lemma swap_key_inj a b : swap_key a = swap_key b -> a = b.
Proof. destruct a, b; cbn; congruence. Qed.

Lemma eND_swap d : eND d -> eND (map (fun '(k, v) => (swap_key k, v)) d).
Proof.
  unfold NoDupKeys, keys. rewrite map_map.
  replace (map (fun x : ekey * Q => fst (let '(k, v) := x in (swap_key k, v))) d)
    with (map swap_key (map fst d))
    by (rewrite map_map; apply map_ext; intros [k v]; reflexivity).
  intro H. apply FinFun.Injective_map_NoDup; [|exact H]. intros a b. apply swap_key_inj.
Qed.

Lemma evalGF_swap G F d :
  evalGF G F (map (fun '(k, v) => (swap_key k, v)) d) = evalGF (fun i j => G j i) F d.
Proof.
  induction d as [|[k q] d IH]; cbn [map evalGF]; [reflexivity|].
  rewrite IH. f_equal. f_equal. destruct k; reflexivity.
Qed.

Lemma evalGF_symmetrize G F d : eND d -> evalGF G F (symmetrize d) = evalGF (symm G) F d.
Proof.
  intro Hd. unfold symmetrize, emerge.
  assert (Hh : forall d', evalGF G F (halve d') = evalGF G F d' / 2).
  { induction d' as [|[k q] d' IH]; cbn [halve map evalGF]; [lra|].
    change (map (fun '(k0, v) => (k0, (v / 2)%Q)) d') with (halve d'). rewrite IH.
    unfold Qdiv. rewrite Q2R_mult, Q2R_inv by (intro H; discriminate H). rewrite Q2R_2. lra. }
  rewrite Hh, evalGF_dsum.
  rewrite (dsum_merge ekey ekey_eqb ekey_eqb_spec) by (assumption || apply eND_swap; assumption).
  rewrite <- !evalGF_dsum, evalGF_swap.
  (* linearity in G *)
  clear Hd Hh. induction d as [|[k q] d IH]; cbn [evalGF]; [lra|].
  assert (evalGF G F d + evalGF (fun i j => G j i) F d = 2 * evalGF (symm G) F d) by lra.
  destruct k as [e|i j|]; cbn [evalKGF]; unfold symm in *; lra.
Qed.

(** lines 771-774: the pruned symmetrised dictionary *)
Lemma eND_symmetrized d : eND d -> eND (prune (symmetrize d)).
Proof.
  intro Hd. apply NoDupKeys_prune. unfold symmetrize, NoDupKeys. rewrite keys_halve.
  apply (NoDupKeys_merge ekey ekey_eqb ekey_eqb_spec); [exact Hd|apply eND_swap, Hd].
Qed.

Lemma ev_symmetrized G F d : eND d -> evalGF G F (prune (symmetrize d)) = evalGF (symm G) F d.
Proof. intro Hd. rewrite ev_prune. apply evalGF_symmetrize, Hd. Qed.

(** line 769: objective - constraints_combination *)
Lemma sub_combination_spec G F obj res a : eND obj -> Forall ok_expo a ->
  eND (x_sub obj (combination res a))
  /\ evalGF G F (x_sub obj (combination res a)) = evalGF G F obj - (multiplier_sum G F a - mdot res G).
Proof.
  intros Ho Hok. destruct (combination_spec G F res a Hok) as [Hc Hv].
  split; [apply eND_sub; assumption|]. rewrite evalGF_sub, Hv by assumption. reflexivity.
Qed.
