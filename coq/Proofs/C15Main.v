(** C15 — twin objects with equal dictionaries; a PEP with several partitions, one history per
    registered partition. *)
From Coq Require Import List Reals.
From PV Require Import Base.IPS Model.Blocks Spec.Sem Proofs.C15Model Proofs.C15Sem.
Import ListNotations.
Local Open Scope R_scope.

Corollary two_objects_equal_dicts (E : ips) (rho : nat -> E) (phi : nat -> R) d n0 ops :
  (1 <= d)%nat -> ok (init_partition d n0) ops ->
  let st := fst (trace (init_partition d n0) [] ops) in
  let g := snd (trace (init_partition d n0) [] ops) in
  forall e1 e2, In e1 g -> In e2 g -> e_pd e1 = e_pd e2 ->
    (forall c, In c (partition_constraints st) -> holds rho phi c) ->
    forall k, (k < d)%nat ->
      veq (evalP rho (nth k (blocks_of d e1) [])) (evalP rho (nth k (blocks_of d e2) [])).
Proof.
  intros Hd Hok st g e1 e2 He1 He2 Heq Hc.
  apply (two_objects rho phi d st g e1 e2 Hd (trace_Inv d n0 ops Hok) He1 He2 Hc). rewrite Heq. apply veq_refl.
Qed.

Fixpoint nsum (l : list nat) : nat := match l with [] => 0 | x :: l' => x + nsum l' end.

(** one partition of a PEP: its number of blocks, Point.counter when it was created, its history *)
Definition hist : Type := (nat * nat * list op)%type.
Definition h_d (h : hist) : nat := fst (fst h).
Definition h_ok (h : hist) : Prop := ok (init_partition (h_d h) (snd (fst h))) (snd h).
Definition h_state (h : hist) : pstate := fst (trace (init_partition (h_d h) (snd (fst h))) [] (snd h)).
Definition h_ghost (h : hist) : list entry := snd (trace (init_partition (h_d h) (snd (fst h))) [] (snd h)).

Lemma h_Inv h : h_ok h -> Inv (h_d h) (h_state h) (h_ghost h).
Proof. apply trace_Inv. Qed.
