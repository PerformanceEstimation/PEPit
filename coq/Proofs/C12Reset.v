(** C12 — lemmas: history cannot leak through the class-level state (for all states, all programs and
    every reset list that covers the attributes the operations touch) except into the length returned by
    the un-reset null point; what the boolean checks on the generated lists mean. *)
From Coq Require Import List String ZArith Bool.
From PV Require Import Model.Reset.
Import ListNotations.
Open Scope string_scope.

Lemma key_eqb_spec : forall a b : key, reflect (a = b) (key_eqb a b).
Proof.
  intros [a1 a2] [b1 b2]. unfold key_eqb. cbn [fst snd].
  destruct (String.eqb_spec a1 b1) as [H1|H1]; destruct (String.eqb_spec a2 b2) as [H2|H2]; cbn;
    constructor; congruence.
Qed.

Lemma key_eqb_refl : forall k, key_eqb k k = true.
Proof. intro k. destruct (key_eqb_spec k k); congruence. Qed.

Lemma mem_key_In : forall k l, mem_key k l = true <-> In k l.
Proof.
  intros k l. unfold mem_key. rewrite existsb_exists. split.
  - intros [x [Hx He]]. destruct (key_eqb_spec k x); [subst; assumption|discriminate].
  - intros H. exists k. split; [assumption|apply key_eqb_refl].
Qed.

Lemma covers_In : forall ks sub, covers ks sub = true -> forall k, In k sub -> In k ks.
Proof. intros ks sub H k Hk. apply mem_key_In. unfold covers in H. rewrite forallb_forall in H. exact (H k Hk). Qed.

Lemma set_same : forall k v g, set k v g k = v.
Proof. intros. unfold set. now rewrite key_eqb_refl. Qed.
Lemma set_other : forall k k' v g, k' <> k -> set k v g k' = g k'.
Proof. intros k k' v g H. unfold set. destruct (key_eqb_spec k' k); congruence. Qed.

Definition agree (P : key -> Prop) (g g' : gmap) : Prop := forall k, P k -> g k = g' k.

Lemma agree_weaken : forall (P Q : key -> Prop) g g', (forall k, Q k -> P k) -> agree P g g' -> agree Q g g'.
Proof. intros P Q g g' HQ H k Hk. apply H, HQ, Hk. Qed.

Lemma agree_set : forall P k v g g', agree P g g' -> agree P (set k v g) (set k v g').
Proof. intros P k v g g' H x Hx. unfold set. destruct (key_eqb x k); [reflexivity|exact (H x Hx)]. Qed.

Lemma agree_getN : forall (P : key -> Prop) g g' k, agree P g g' -> P k -> getN g k = getN g' k.
Proof. intros P g g' k H Hk. unfold getN. now rewrite (H k Hk). Qed.

Lemma agree_fresh : forall (P : key -> Prop) c g g', P c -> agree P g g' ->
    fst (fresh c g) = fst (fresh c g') /\ agree P (snd (fresh c g)) (snd (fresh c g')).
Proof.
  intros P c g g' Hc H. unfold fresh. cbn [fst snd]. rewrite (agree_getN P g g' c H Hc).
  split; [reflexivity|apply agree_set, H].
Qed.

Lemma agree_push : forall (P : key -> Prop) r x g g', P r -> agree P g g' -> agree P (push r x g) (push r x g').
Proof. intros P r x g g' Hr H. unfold push, getL. rewrite (H r Hr). apply agree_set, H. Qed.

(** after the reset, two arbitrary states agree on every key the reset assigns (the last assignment
    to a key decides) *)
Lemma reset_forgets : forall fields g g',
    agree (fun k => In k (map fst fields)) (reset_with fields g) (reset_with fields g').
Proof.
  intros fields g g'. induction fields as [|[k i] fs IH] using rev_ind; [intros x []|].
  unfold reset_with. rewrite !fold_left_app, map_app. cbn [fold_left map fst snd]. intros x Hx.
  unfold set. destruct (key_eqb_spec x k) as [E|E]; [reflexivity|]. apply IH.
  apply in_app_or in Hx. destruct Hx as [Hx|[Hx|[]]]; [exact Hx|congruence].
Qed.

Lemma reset_frame : forall fields g k, ~ In k (map fst fields) -> reset_with fields g k = g k.
Proof.
  unfold reset_with. induction fields as [|[k0 i] fs IH]; intros g k H; [reflexivity|].
  cbn [fold_left fst snd]. rewrite IH.
  - apply set_other. intro E. apply H. left. cbn. congruence.
  - intro Hin. apply H. right. exact Hin.
Qed.

Lemma reset_value : forall fields g k i,
    In (k, i) fields -> nodup_keys (map fst fields) = true -> reset_with fields g k = val_of_init i.
Proof.
  unfold reset_with. induction fields as [|[k0 i0] fs IH]; intros g k i Hin Hnd; [destruct Hin|].
  cbn [map fst nodup_keys] in Hnd. apply andb_true_iff in Hnd. destruct Hnd as [Hnot Hnd].
  cbn [fold_left fst snd]. destruct Hin as [E|Hin].
  - inversion E; subst. fold (reset_with fs (set k (val_of_init i) g)).
    rewrite reset_frame; [apply set_same|].
    intro Hk. apply mem_key_In in Hk. rewrite Hk in Hnot. discriminate.
  - apply IH; assumption.
Qed.

(** with null_point.eval() allowed: its own output may depend on history (F-C12a), nothing else does --
    the cached value never flows into the class-level state, hence not into any index or registry *)
Definition mask (x : out) : out := match x with ODim _ => ODim 0 | y => y end.

Lemma run_cons : forall fields o prog s,
    run fields (o :: prog) s
    = (fst (step fields o s) :: fst (run fields prog (snd (step fields o s))),
       snd (run fields prog (snd (step fields o s)))).
Proof.
  intros fields o prog s. cbn [run]. destruct (step fields o s) as [x s1].
  cbn [fst snd]. destruct (run fields prog s1). reflexivity.
Qed.

Definition alike (g g' : gmap) : Prop := agree (fun k => In k model_keys) g g'.

Definition alike_res (r r' : out * pstate) : Prop :=
  fst r = fst r' /\ alike (glob (snd r)) (glob (snd r')).

(** the rule for [let (i, g1) := fresh c g in ...] *)
Lemma alike_let_fresh : forall c g g' (F F' : Z -> gmap -> out * pstate),
    In c model_keys -> alike g g' ->
    (forall i g1 g1', alike g1 g1' -> alike_res (F i g1) (F' i g1')) ->
    alike_res (let (i, g1) := fresh c g in F i g1) (let (i, g1) := fresh c g' in F' i g1).
Proof.
  intros c g g' F F' Hc H HF. destruct (agree_fresh _ c g g' Hc H) as [A B].
  destruct (fresh c g) as [i g1], (fresh c g') as [i' g1']. cbn [fst snd] in A, B. subst i'. exact (HF i g1 g1' B).
Qed.

Section Frame.
  Variable fields : list (key * ginit).
  Hypothesis Hcov : covers (map fst fields) model_keys = true.

  (** membership in the concrete [model_keys] *)
  Ltac kin := apply mem_key_In; reflexivity.

  (** PEP() makes any two states alike *)
  Lemma new_pep_alike : forall s s', alike_res (step fields NewPEP s) (step fields NewPEP s').
  Proof.
    intros s s'. cbn [step]. apply alike_let_fresh; [kin| |].
    - eapply agree_weaken; [exact (covers_In _ _ Hcov)|apply reset_forgets].
    - intros i g1 g1' H1. split; [reflexivity|exact H1].
  Qed.

  (** every operation but null_point.eval() reads and writes the class-level state only *)
  Lemma step_alike : forall o s s',
      is_eval_null o = false -> alike (glob s) (glob s') -> alike_res (step fields o s) (step fields o s').
  Proof.
    intros o s s' Ho H.
    assert (HF : forall g g', alike g g' ->
                   alike (push kFunL (Some (getN g kFunC)) g) (push kFunL (Some (getN g' kFunC)) g')).
    { intros g g' Hg. rewrite (agree_getN _ g g' kFunC Hg) by kin. apply agree_push; [kin|exact Hg]. }
    destruct o as [| | |[|]| | | | | |]; try discriminate Ho; cbn [step].
    - (* NewPEP *) apply new_pep_alike.
    - (* NewPoint *) apply alike_let_fresh; [kin|exact H|]. intros i g1 g1' H1.
      split; [reflexivity|]. apply agree_push; [kin|exact H1].
    - (* NewExpression *) apply alike_let_fresh; [kin|exact H|]. intros i g1 g1' H1.
      split; [reflexivity|]. apply agree_push; [kin|exact H1].
    - (* NewFunction true *)
      apply alike_let_fresh; [kin|exact (HF _ _ H)|]. intros i g1 g1' H1. split; [reflexivity|exact H1].
    - (* NewFunction false *) split; [reflexivity|]. apply agree_push; [kin|exact H].
    - (* NewLinearOperator *) apply alike_let_fresh; [kin|exact (HF _ _ H)|]. intros i g1 g1' H1.
      apply alike_let_fresh; [kin|apply agree_push; [kin|exact H1]|]. intros _ g2 g2' H2.
      split; [reflexivity|]. cbn [snd glob]. rewrite (agree_getN _ g2 g2' kFunC H2) by kin. apply agree_set, H2.
    - (* NewConstraint *) apply alike_let_fresh; [kin|exact H|]. intros i g1 g1' H1. split; [reflexivity|exact H1].
    - (* NewPSD *) apply alike_let_fresh; [kin|exact H|]. intros i g1 g1' H1. split; [reflexivity|exact H1].
    - (* NewPartition *) apply alike_let_fresh; [kin|exact H|]. intros i g1 g1' H1.
      split; [reflexivity|]. apply agree_push; [kin|exact H1].
    - (* ReadGlobals *) split; [|exact H]. cbn [fst]. f_equal. apply map_ext_in. exact H.
  Qed.

  (** what two runs of a program have in common: the outputs up to the lengths returned by null_point.eval(),
      the outputs outright when the program does not call it, and alike final states *)
  Definition same_runs (prog : list op) (s s' : pstate) : Prop :=
    map mask (fst (run fields prog s)) = map mask (fst (run fields prog s'))
    /\ (no_null_eval prog = true -> fst (run fields prog s) = fst (run fields prog s'))
    /\ alike (glob (snd (run fields prog s))) (glob (snd (run fields prog s'))).

  Lemma same_runs_cons : forall o prog s s',
      alike_res (step fields o s) (step fields o s') ->
      same_runs prog (snd (step fields o s)) (snd (step fields o s')) -> same_runs (o :: prog) s s'.
  Proof.
    intros o prog s s' [A _] [C [D E]]. unfold same_runs. rewrite !run_cons. cbn [fst snd map]. rewrite A, C.
    split; [reflexivity|]. split; [|exact E]. intro Hn. apply andb_true_iff in Hn. now rewrite (D (proj2 Hn)).
  Qed.

  Lemma run_alike : forall prog s s', alike (glob s) (glob s') -> same_runs prog s s'.
  Proof.
    induction prog as [|o rest IH]; intros s s' H; [repeat split; exact H|]. destruct (is_eval_null o) eqn:Eo.
    - destruct o; try discriminate Eo. destruct (IH (snd (step fields EvalNull s)) (snd (step fields EvalNull s')) H) as [C [_ E]].
      unfold same_runs. rewrite !run_cons. cbn [fst snd map]. rewrite C. split; [reflexivity|]. split; [discriminate|exact E].
    - pose proof (step_alike o s s' Eo H) as Hs. exact (same_runs_cons o rest s s' Hs (IH _ _ (proj2 Hs))).
  Qed.

  (** NON-INTERFERENCE: whatever happened before (two arbitrary states), a program that starts by
      creating a PEP hands out the same indices, reads the same globals and leaves the same registries *)
  Theorem noninterference : forall prog s s', same_runs (NewPEP :: prog) s s'.
  Proof.
    intros prog s s'. pose proof (new_pep_alike s s') as Hs. exact (same_runs_cons _ _ s s' Hs (run_alike prog _ _ (proj2 Hs))).
  Qed.
End Frame.

Lemma triple_eqb_eq : forall a b, triple_eqb a b = true -> a = b.
Proof.
  intros [[c a] i] [[c' a'] i'] H. unfold triple_eqb in H. apply andb_true_iff in H. destruct H as [Hk Hi].
  cbn [fst snd] in *. destruct (key_eqb_spec (c, a) (c', a')) as [E|E]; [|discriminate]. inversion E; subst.
  f_equal. destruct i, i'; try discriminate Hi; try reflexivity.
  - apply Z.eqb_eq in Hi. now subst.
  - apply String.eqb_eq in Hi. now subst.
Qed.

Lemma reset_to_initial_In : forall reset attrs, reset_to_initial reset attrs = true ->
  forall c a i, In (c, a, i) attrs -> is_mutable i = true -> In (c, a, i) reset.
Proof.
  intros reset attrs H c a i Hin Hm. unfold reset_to_initial in H.
  rewrite forallb_forall in H. specialize (H _ Hin). cbn [snd] in H. rewrite Hm in H.
  apply existsb_exists in H. destruct H as [x [Hx He]]. apply triple_eqb_eq in He. now subst.
Qed.

Lemma mutated_are_reset_In : forall reset muts, mutated_are_reset reset muts = true ->
  forall c a (o : string), In (c, a, o) muts -> exists i, In (c, a, i) reset.
Proof.
  intros reset muts H c a o Hin. unfold mutated_are_reset in H.
  rewrite forallb_forall in H. specialize (H _ Hin). apply mem_key_In, in_map_iff in H.
  destruct H as [[[c' a'] i] [E Hi]]. inversion E; subst. exists i. exact Hi.
Qed.

(** after PEP() every declared counter / registry holds its class-body value, whatever the state before *)
Lemma reset_restores_initial : forall reset attrs,
  reset_to_initial reset attrs = true -> nodup_keys (keys3 reset) = true ->
  forall g c a i, In (c, a, i) attrs -> is_mutable i = true ->
                  reset_with (fields_of reset) g (c, a) = val_of_init i.
Proof.
  intros reset attrs Hr Hnd g c a i Hin Hm. apply reset_value with (i := i).
  - apply (in_map (fun t => (fst (fst t), snd (fst t), snd t)) reset (c, a, i)).
    exact (reset_to_initial_In reset attrs Hr c a i Hin Hm).
  - unfold fields_of. rewrite map_map. exact Hnd.
Qed.

(** the null objects are only ever read to START an accumulation or as an operand of + / -: none is handed out *)
Definition use_ok (u : string * string * string * string) : bool :=
  let k := snd u in String.eqb k "accumulator" || String.eqb k "operand".

Lemma vexec_sent_indep : forall p, vclean p = true -> forall v v', sent (vexec v p) = sent (vexec v' p).
Proof.
  induction p as [|st rest IH]; intros Hc v v'; [reflexivity|].
  cbn [vclean forallb] in Hc. apply andb_true_iff in Hc. destruct Hc as [Hs Hc].
  specialize (IH Hc v v'). destruct st; cbn [vexec sent]; try discriminate; now rewrite ?IH.
Qed.
