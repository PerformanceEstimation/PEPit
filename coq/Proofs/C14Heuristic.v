(** C14, the cvxpy side of the dimension-reduction heuristic (Model.Cvxpy.prepare_heuristic /
    heuristic): the heuristic problem has the constraint list of the original problem plus the single row
    [objective >= wc - tol]; its feasible set is the original feasible set intersected with that
    half-space; every point of it satisfies every constraint of the declared model. *)
From Coq Require Import List Reals Qreals Lra Lia.
From PV Require Import Model.Dict Model.Terms Model.Sent Model.Cvxpy Spec.GramSem Spec.KKT Proofs.PSDLemmas.
Import ListNotations.
Local Open Scope R_scope.

(** further calls of heuristic (logdet iterations) only replace the objective *)
Theorem heuristic_again w W W' :
  p_rows (w_prob (heuristic (heuristic w W) W')) = p_rows (w_prob (heuristic w W))
  /\ w_rows (heuristic w W) = w_rows w.
Proof. split; reflexivity. Qed.

(** feasible set of the heuristic problem = feasible set of the original one, cut by objective >= wc - tol *)
Theorem feasible_subset np obj l wc tol W G F M :
  rows_feasible np (p_rows (w_prob (heuristic (prepare_heuristic (generate_problem obj l) wc tol) W))) G F M
  <-> (rows_feasible np (emit l) G F M /\ Q2R wc - Q2R tol <= evalGF G F obj).
Proof.
  cbn [heuristic prepare_heuristic generate_problem w_prob p_rows w_rows w_objective].
  unfold rows_feasible. split.
  - intros [Hs H]. apply Forall_app in H as [H1 H2]. apply Forall_inv in H2. cbn [row_holds] in H2.
    rewrite Q2R_minus in H2. split; [split; assumption|exact H2].
  - intros [[Hs H1] H2]. split; [exact Hs|]. apply Forall_app. split; [exact H1|]. constructor; [|constructor].
    cbn [row_holds]. rewrite Q2R_minus. exact H2.
Qed.

Lemma entry_rows_hold np G F M kk m :
  Forall (row_holds np G F M) (entry_rows kk m) ->
  forall i j, (i < nrows m)%nat -> (j < ncols m)%nat -> M kk i j = evalGF G F (entry m i j).
Proof.
  intros H i j Hi Hj. apply (proj1 (Forall_forall _ _) H (REnt kk i j (entry m i j))). unfold entry_rows.
  apply in_flat_map. exists i. split; [apply in_seq; lia|]. apply in_map_iff. exists j. split; [reflexivity|apply in_seq; lia].
Qed.

Lemma psd_qf_ext n A B :
  (forall i j, (i < n)%nat -> (j < n)%nat -> A i j = B i j) -> psd_qf n A -> psd_qf n B.
Proof.
  intros E [Hsym Hqf]. split.
  - intros i j Hi Hj. rewrite <- !E by assumption. apply Hsym; assumption.
  - intro c. rewrite (sumn_ext n _ (fun i => sumn n (fun j => c i * A i j * c j))); [apply Hqf|].
    intros i Hi. apply sumn_ext. intros j Hj. now rewrite E.
Qed.

Lemma emitted_feasible_items np G F M l : forall kk,
  Forall square_item l ->
  Forall (row_holds np G F M) (emit_from kk l) -> Forall (item_holds G F) l.
Proof.
  induction l as [|[e s|m] l IH]; intros kk Hsq H; cbn [emit_from] in H; [constructor| |];
    apply Forall_cons_iff in Hsq as [Hm Hsq']; apply Forall_cons_iff in H as [Hr H'].
  - constructor; [|exact (IH kk Hsq' H')]. destruct s; exact Hr.
  - apply Forall_app in H' as [He Hrest]. constructor; [|exact (IH (S kk) Hsq' Hrest)]. cbn [square_item] in Hm.
    apply (psd_qf_ext _ (M kk)); [|exact Hr]. intros i j Hi Hj. apply (entry_rows_hold np G F M kk m He); lia.
Qed.

Theorem emitted_feasible_is_feasible np l G F M :
  Forall square_item l -> rows_feasible np (emit l) G F M -> feasible np l G F.
Proof.
  intros Hsq [Hs H]. apply Forall_cons_iff in H as [Hg H'].
  split; [exact Hs|]. split; [exact Hg|]. exact (emitted_feasible_items np G F M l 0%nat Hsq H').
Qed.

(** the quantity the second solve minimises *)
Definition hvalue (W : list (list Q)) (G : nat -> nat -> R) : R := mdot W G.

(** <I, G> is the trace *)
Definition idmat (n : nat) : list (list Q) :=
  map (fun i => map (fun j => if Nat.eqb i j then 1%Q else 0%Q) (seq 0 n)) (seq 0 n).

Example trace_identity_3 G : hvalue (idmat 3) G = G 0%nat 0%nat + G 1%nat 1%nat + G 2%nat 2%nat.
Proof.
  unfold hvalue, idmat, mdot. cbn [seq map Nat.eqb mdot_from rdot].
  unfold Q2R. cbn [Qnum Qden]. rewrite Rinv_1. lra.
Qed.
