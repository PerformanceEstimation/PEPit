(** C15 — meaning of block decompositions and of the generated constraints in an arbitrary real
    inner-product space: sum-back, the constraints are exactly the cross-block orthogonality
    relations, any family of orthogonal "projections" summing to the identity satisfies the model,
    and two objects with the same value are forced to have equal blocks. *)
From Coq Require Import List Reals Qreals Lra Lia.
From PV Require Import Base.IPS Model.Dict Model.Terms Model.Blocks Spec.Sem
                       Proofs.DictLemmas Proofs.SemLemmas Proofs.C15Model.
Import ListNotations.
Local Open Scope R_scope.

Lemma keys_multiply_KG a b key :
  In key (keys (multiply a b)) -> exists x y, key = KG x y /\ In x (keys a) /\ In y (keys b).
Proof.
  unfold multiply, keys. intros H. apply in_map_iff in H as [[k v] [Hk H]]. cbn in Hk; subst k.
  apply in_flat_map in H as [[k1 v1] [H1 H]]. apply in_map_iff in H as [[k2 v2] [Heq H2]].
  injection Heq as <- _. exists k1, k2. split; [reflexivity|]. split; apply in_map_iff.
  - exists (k1, v1); auto.
  - exists (k2, v2); auto.
Qed.

Lemma x_subs_0 (M : edict) : ~ In K1 (keys M) -> x_subs M 0 = prune M.
Proof.
  intros H. unfold x_subs, x_adds, emerge, merge. cbn [filter].
  rewrite (proj2 (mem_false ekey ekey_eqb ekey_eqb_spec K1 M) H). cbn [negb].
  rewrite (map_ext_in _ (fun kv => kv)), map_id.
  - unfold prune. rewrite filter_app. apply app_nil_r.
  - intros [k v] Hin. destruct k; try reflexivity. destruct H. apply (in_map fst _ _ Hin).
Qed.

(** [xi[k] * xj[l] == 0] is the (pruned) bilinear expansion of the two block dictionaries with
    sense "equality": nothing else (no constant, no function value). *)
Lemma block_constraint_shape a b : block_constraint a b = (prune (multiply a b), Equ).
Proof.
  unfold block_constraint, c_eqs. rewrite x_subs_0; [reflexivity|].
  intros H. apply keys_multiply_KG in H as (x & y & Hk & _). discriminate.
Qed.

Lemma block_constraint_keys a b key :
  In key (keys (fst (block_constraint a b))) ->
  exists x y, key = KG x y /\ In x (keys a) /\ In y (keys b).
Proof.
  rewrite block_constraint_shape. cbn [fst]. intros H. apply keys_multiply_KG, keys_prune_incl, H.
Qed.

Section Meaning.
  Context {E : ips}.

  Fixpoint vsum (l : list E) : E := match l with [] => vzero | u :: l' => vadd u (vsum l') end.

  Lemma inner_vsum_l l w : inner (vsum l) w = lsum (map (fun u => inner u w) l).
  Proof. induction l as [|u l IH]; cbn; [apply inner_zero_l|rewrite inner_add_l, IH; reflexivity]. Qed.
  Lemma inner_vsum_r l w : inner w (vsum l) = lsum (map (fun u => inner w u) l).
  Proof. rewrite inner_sym, inner_vsum_l. f_equal. apply map_ext. intro; apply inner_sym. Qed.

  Variable rho : nat -> E.
  Variable phi : nat -> R.

  (** the sum of the meanings of a list of block dictionaries *)
  Definition sumP (bl : list pdict) : E := vsum (map (evalP rho) bl).

  Lemma inner_sumP bl w :
    inner (sumP bl) w = lsum (map (dsum nat (fun k => inner (rho k) w)) bl).
  Proof.
    unfold sumP. rewrite inner_vsum_l, map_map. f_equal. apply map_ext. intro b. apply inner_evalP.
  Qed.

  Lemma sum_back_dblocks d n pd : pND pd -> veq (sumP (dblocks d n pd)) (evalP rho pd).
  Proof. intros H w. rewrite inner_sumP, inner_evalP. apply ds_dblocks, H. Qed.

  Lemma evalP_leaf i : veq (evalP rho (leaf_dict i)) (rho i).
  Proof.
    intros w. unfold leaf_dict. cbn [evalP]. rewrite inner_add_l, inner_scal_l, inner_zero_l, Q2R_1. lra.
  Qed.

  Lemma block_constraint_holds a b :
    pND a -> pND b ->
    (holds rho phi (block_constraint a b) <-> inner (evalP rho a) (evalP rho b) = 0).
  Proof.
    intros Ha Hb. unfold holds, block_constraint. cbn [snd c_eqs].
    rewrite evalE_c_eqs by (apply keys_multiply_NoDup; assumption).
    rewrite evalE_multiply, RMicromega.Q2R_0. split; intros H; lra.
  Qed.

  Lemma block_holds d st g e1 e2 k l :
    Inv d st g -> In e1 g -> In e2 g ->
    (holds rho phi (block_constraint (nth k (blocks_of d e1) []) (nth l (blocks_of d e2) []))
     <-> inner (evalP rho (nth k (blocks_of d e1) [])) (evalP rho (nth l (blocks_of d e2) [])) = 0).
  Proof. intros I He1 He2. apply block_constraint_holds; apply (Inv_pND _ _ _ I); assumption. Qed.

  Definition all_orthogonal (d : nat) (g : list entry) : Prop :=
    forall e1 e2, In e1 g -> In e2 g ->
    forall k l, (k < d)%nat -> (l < d)%nat -> k <> l ->
      inner (evalP rho (nth k (blocks_of d e1) [])) (evalP rho (nth l (blocks_of d e2) [])) = 0.

  (** the list only has l < k; symmetry of the inner product supplies k < l *)
  Lemma constraints_iff d st g :
    Inv d st g ->
    ((forall c, In c (partition_constraints st) -> holds rho phi c) <-> all_orthogonal d g).
  Proof.
    intros I. split.
    - intros H.
      assert (Hlt : forall e1 e2 k l, In e1 g -> In e2 g -> (k < d)%nat -> (l < k)%nat ->
                inner (evalP rho (nth k (blocks_of d e1) [])) (evalP rho (nth l (blocks_of d e2) [])) = 0).
      { intros e1 e2 k l He1 He2 Hk Hl. apply (block_holds d st g _ _ _ _ I He1 He2), H.
        apply (Inv_constraints _ _ _ _ I). exists e1, e2, k, l. auto. }
      intros e1 e2 He1 He2 k l Hk Hl Hne.
      destruct (Nat.lt_ge_cases l k) as [Hlk|Hkl]; [apply Hlt; assumption|].
      rewrite inner_sym. apply Hlt; try assumption. apply Nat.le_neq. split; assumption.
    - intros H c Hc. apply (Inv_constraints _ _ _ _ I) in Hc as (e1 & e2 & k & l & He1 & He2 & Hk & Hl & ->).
      apply (block_holds d st g _ _ _ _ I He1 He2).
      apply (H e1 e2 He1 He2 k l Hk (Nat.lt_trans _ _ _ Hl Hk) (not_eq_sym (Nat.lt_neq _ _ Hl))).
  Qed.

  Lemma inner_vsum_single (w : E) (L : list E) d k :
    length L = d -> (k < d)%nat ->
    (forall i, (i < d)%nat -> i <> k -> inner w (nth i L vzero) = 0) ->
    inner w (vsum L) = inner w (nth k L vzero).
  Proof. intros <-. rewrite inner_vsum_r. apply lsum_map_single. Qed.

  Lemma same_component (w : E) (X Y : list E) d k :
    length X = d -> length Y = d -> (k < d)%nat -> veq (vsum X) (vsum Y) ->
    (forall i, (i < d)%nat -> i <> k -> inner w (nth i X vzero) = 0 /\ inner w (nth i Y vzero) = 0) ->
    inner w (nth k X vzero) = inner w (nth k Y vzero).
  Proof.
    intros HX HY Hk Hsum H.
    rewrite <- (inner_vsum_single w X d k HX Hk), <- (inner_vsum_single w Y d k HY Hk)
      by (intros i Hi Hne; apply (H i Hi Hne)).
    apply veq_inner_r, Hsum.
  Qed.

  (** Two orthogonal families with the same sum that are also orthogonal ACROSS the families (for
      different indices) coincide block by block: with a, b the k-th members, <a,a> = <a,b> and
      <b,a> = <b,b>, so |a - b|^2 = 0. *)
  Lemma orthogonal_families_equal (X Y : list E) d :
    length X = d -> length Y = d ->
    veq (vsum X) (vsum Y) ->
    (forall k l, (k < d)%nat -> (l < d)%nat -> k <> l ->
       inner (nth k X vzero) (nth l X vzero) = 0 /\ inner (nth k Y vzero) (nth l Y vzero) = 0
       /\ inner (nth k X vzero) (nth l Y vzero) = 0) ->
    forall k, (k < d)%nat -> veq (nth k X vzero) (nth k Y vzero).
  Proof.
    intros HX HY Hsum Horth k Hk. set (a := nth k X vzero). set (b := nth k Y vzero).
    assert (Ea : inner a a = inner a b).
    { apply (same_component a X Y d k HX HY Hk Hsum). intros i Hi Hne.
      split; apply (Horth k i Hk Hi (not_eq_sym Hne)). }
    assert (Eb : inner b a = inner b b).
    { apply (same_component b X Y d k HX HY Hk Hsum). intros i Hi Hne. split.
      - rewrite inner_sym. apply (Horth i k Hi Hk Hne).
      - apply (Horth k i Hk Hi (not_eq_sym Hne)). }
    assert (Z : inner (vsub a b) (vsub a b) = 0) by (rewrite inner_sub_l, !inner_sub_r; lra).
    intros w. pose proof (cauchy_schwarz (vsub a b) w) as CS. rewrite Z, inner_sub_l in CS. nra.
  Qed.

  Lemma nth_map_evalP bl k : nth k (map (evalP rho) bl) vzero = evalP rho (nth k bl []).
  Proof. apply (map_nth (evalP rho) bl [] k). Qed.

  Lemma two_objects d st g e1 e2 :
    (1 <= d)%nat -> Inv d st g -> In e1 g -> In e2 g ->
    (forall c, In c (partition_constraints st) -> holds rho phi c) ->
    veq (evalP rho (e_pd e1)) (evalP rho (e_pd e2)) ->
    forall k, (k < d)%nat ->
      veq (evalP rho (nth k (blocks_of d e1) [])) (evalP rho (nth k (blocks_of d e2) [])).
  Proof.
    intros Hd I He1 He2 Hc Hval k Hk.
    apply (constraints_iff d st g I) in Hc.
    assert (P1 : pND (e_pd e1)) by apply (inv_pd _ _ _ I e1 He1).
    assert (P2 : pND (e_pd e2)) by apply (inv_pd _ _ _ I e2 He2).
    rewrite <- !nth_map_evalP.
    apply (orthogonal_families_equal _ _ d); try exact Hk.
    - rewrite map_length. apply length_dblocks, Hd.
    - rewrite map_length. apply length_dblocks, Hd.
    - change (veq (sumP (blocks_of d e1)) (sumP (blocks_of d e2))).
      eapply veq_trans; [apply sum_back_dblocks, P1|]. eapply veq_trans; [exact Hval|].
      apply veq_sym, sum_back_dblocks, P2.
    - intros k' l' Hk' Hl' Hne. rewrite !nth_map_evalP. repeat split; apply Hc; assumption.
  Qed.
End Meaning.

(** Any orthogonal family of "projections" summing to the identity satisfies the model. *)
Section Projections.
  Context {E : ips}.
  Variable d : nat.
  Variable P : nat -> E -> E.

  Lemma evalP_ext (r r' : nat -> E) pd :
    (forall x, In x (keys pd) -> r x = r' x) -> evalP r pd = evalP r' pd.
  Proof.
    induction pd as [|[k q] pd IH]; intros H; cbn [evalP]; [reflexivity|].
    rewrite (H k) by (left; reflexivity). rewrite IH by (intros x Hx; apply H; right; exact Hx). reflexivity.
  Qed.

  (** the fresh leaves of every decomposed object are valued by the projections of the object's value *)
  Definition consistent (g : list entry) (r : nat -> E) : Prop :=
    forall e, In e g -> forall k, (k < d - 1)%nat -> r (e_n e + k)%nat = P k (evalP r (e_pd e)).

  (** every valuation of the leaves that are not block leaves extends to a consistent one *)
  Definition realizable (g : list entry) : Prop :=
    forall r0, exists r, consistent g r
      /\ forall x, (forall e, In e g -> ~ In x (leaves_of d e)) -> r x = r0 x.

  (** [r] with the values of the m leaves n, ..., n+m-1 replaced by f 0, ..., f (m-1) *)
  Definition override (r : nat -> E) (n m : nat) (f : nat -> E) : nat -> E :=
    fun x => if (n <=? x)%nat && (x <? n + m)%nat then f (x - n)%nat else r x.

  Lemma override_in r n m f k : (k < m)%nat -> override r n m f (n + k)%nat = f k.
  Proof.
    intros H. unfold override. destruct (Nat.leb_spec n (n + k)); [|lia].
    destruct (Nat.ltb_spec (n + k) (n + m)); [|lia]. cbn [andb]. f_equal. lia.
  Qed.

  Lemma override_out r n m f x : ~ In x (seq n m) -> override r n m f x = r x.
  Proof.
    intros H. unfold override. destruct (Nat.leb_spec n x); [|reflexivity].
    destruct (Nat.ltb_spec x (n + m)); [|reflexivity]. destruct H. apply in_seq. split; assumption.
  Qed.

  (** a new decomposition: value its fresh leaves n, ..., n+d-2 by the projections of the object's
      value; nothing recorded before mentions them *)
  Lemma realizable_step st g o :
    Inv d st g -> realizable g -> op_ok st o -> realizable (gstep st g o).
  Proof.
    intros I IH Hok r0. destruct o as [obj pd k|]; cbn [gstep]; [|apply IH].
    destruct (decomposed obj st); [apply IH|].
    destruct (IH r0) as [r [Hc Hagree]]. destruct Hok as [Hnd Hlt].
    set (n := bp_next st) in *. set (r' := override r n (d - 1) (fun k => P k (evalP r pd))).
    assert (Hold : forall x, (x < n)%nat -> r' x = r x).
    { intros x Hx. apply override_out. intros Hin. apply in_seq in Hin. lia. }
    assert (Hev : forall q, (forall x, In x (keys q) -> (x < n)%nat) -> evalP r q = evalP r' q).
    { intros q Hq. apply evalP_ext. intros x Hx. symmetry. apply Hold, Hq, Hx. }
    exists r'. split.
    - intros e He k' Hk'. apply in_app_or in He as [He|[<-|[]]].
      + destruct (inv_pd _ _ _ I e He) as (_ & B & C).
        rewrite Hold, (Hc e He k' Hk') by lia. f_equal. apply Hev.
        intros x Hx. specialize (B x Hx). lia.
      + cbn [e_n e_pd]. unfold r'. rewrite override_in by exact Hk'. f_equal. apply Hev, Hlt.
    - intros x Hx. unfold r'. rewrite override_out.
      + apply Hagree. intros e He. apply Hx, in_or_app. left; exact He.
      + apply (Hx (mkE obj pd n)), in_or_app. right; left; reflexivity.
  Qed.

  Lemma realizable_trace n0 ops :
    ok (init_partition d n0) ops -> realizable (snd (trace (init_partition d n0) [] ops)).
  Proof.
    apply (trace_ind_from (fun _ => realizable) d realizable_step); [apply Inv_init|].
    intros r0. exists r0. split; [intros e []|reflexivity].
  Qed.

  Hypothesis d_pos : (1 <= d)%nat.
  Hypothesis P_sum : forall u, veq (vsum (map (fun k => P k u) (seq 0 d))) u.
  Hypothesis P_orth : forall k l u w, (k < d)%nat -> (l < d)%nat -> k <> l -> inner (P k u) (P l w) = 0.

  (** under a consistent valuation every block, the remainder included, is the projection of the
      object's value *)
  Lemma consistent_blocks st g r e k :
    Inv d st g -> consistent g r -> In e g -> (k < d)%nat ->
    veq (evalP r (nth k (blocks_of d e) [])) (P k (evalP r (e_pd e))).
  Proof.
    intros I Hc He Hk. specialize (Hc e He). destruct (inv_pd _ _ _ I e He) as (Hnd & _).
    unfold blocks_of. destruct (Nat.eq_dec k (d - 1)) as [->|Hne].
    - rewrite nth_dblocks_last. intros w. rewrite inner_evalP.
      rewrite ds_p_sub, ds_acc by (exact Hnd || apply pND_acc). rewrite <- inner_evalP.
      pose proof (P_sum (evalP r (e_pd e)) w) as HS. rewrite inner_vsum_l, map_map in HS.
      replace (seq 0 d) with (seq 0 (S (d - 1))) in HS by (f_equal; lia).
      rewrite seq_S, map_app, lsum_app in HS. cbn in HS.
      rewrite lsum_seq_shift.
      rewrite (map_ext_in _ (fun k => inner (P k (evalP r (e_pd e))) w)).
      + lra.
      + intros k' Hk'. apply in_seq in Hk'. rewrite Hc by lia. reflexivity.
    - rewrite nth_dblocks_leaf by lia. eapply veq_trans; [apply evalP_leaf|]. rewrite Hc by lia. apply veq_refl.
  Qed.

  Lemma consistent_holds st g r phi :
    Inv d st g -> consistent g r -> forall c, In c (partition_constraints st) -> holds r phi c.
  Proof.
    intros I Hc. apply (constraints_iff r phi d st g I). intros e1 e2 He1 He2 k l Hk Hl Hne.
    rewrite (veq_inner _ _ _ _ (consistent_blocks st g r e1 k I Hc He1 Hk)
                               (consistent_blocks st g r e2 l I Hc He2 Hl)).
    apply P_orth; assumption.
  Qed.
End Projections.
