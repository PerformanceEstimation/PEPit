(** C01, the certificate: under the solver assumption [Spec.KKT.stationary], for EVERY declared model
    (LMIs symmetric as written or not) the multipliers the objects show after assign o recover - lambda_c,
    the residual and, for each LMI, the multipliers u_k of its entry correspondences - satisfy the identity
    over all symmetric G and all F, and the reconstruction returns exactly its constant; the dual matrix of an
    LMI is the symmetric part of u_k; weak duality follows from dual feasibility.
    (Proof of the identity: the constant Lagrangian is instantiated at M_k := 0, always a legal symmetric
    value; the entry rows then contribute u_kij * e_kij, like scalar equality rows.)
    What the objects show for ANY dual vector of the right shapes ([fitting_duals], no solver assumption) is
    also where C01_reconstruction_unconditional of Props/C01.v starts. *)
From Coq Require Import List Reals Qreals Lra Lia.
From PV Require Import Base.IPS Model.Dict Model.Terms Model.Sent Model.Cvxpy Model.Cert
     Spec.Sem Spec.GramSem Spec.KKT Proofs.DictLemmas Proofs.SemLemmas Proofs.C01Layout Proofs.C01Gram
     Proofs.PSDLemmas Proofs.C02Factor Proofs.C01Tolerance.
Import ListNotations.
Local Open Scope R_scope.

Lemma F2_length {A B} (P : A -> B -> Prop) l1 l2 : Forall2 P l1 l2 -> length l1 = length l2.
Proof. induction 1; cbn; congruence. Qed.

(** what the objects show when every object is sent once, read off a dual vector aligned with [emit_from _ l] *)
Definition shown (l : sent) (ds : list dval) : list expo := combine (combine l (mains l ds)) (ents l ds).

Lemma map_snd_combine {A B} (l : list A) (l' : list B) : length l = length l' -> map snd (combine l l') = l'.
Proof.
  revert l'. induction l as [|a l IH]; intros [|b l'] H; cbn in *; try discriminate; [reflexivity|].
  f_equal. apply IH. lia.
Qed.

Lemma exposed_shown tracked ids d0 ds :
  NoDup ids -> length ids = length tracked -> exposed tracked ids (d0 :: ds) = (shown tracked ds, d0).
Proof.
  intros Hnd Hlen. unfold exposed, recover, assign. rewrite recover_loop_spec. cbn [nth skipn tl].
  rewrite map_snd_combine, !by_object_nodup by (rewrite ?length_mains, ?length_ents; trivial).
  reflexivity.
Qed.

(** ** The Lagrangian of the emitted problem, split into its (G,F) part and its M part *)
Section AtM.
  Variable G : nat -> nat -> R.
  Variable F : nat -> R.
  Variable M : nat -> nat -> nat -> R.

  Lemma rows_term_app r1 : forall r2 ds,
    rows_term G F M (r1 ++ r2) ds
    = rows_term G F M r1 (firstn (length r1) ds) + rows_term G F M r2 (skipn (length r1) ds).
  Proof.
    induction r1 as [|r r1 IH]; intros r2 ds; cbn [app length firstn skipn rows_term]; [lra|].
    destruct ds as [|d ds]; cbn [firstn skipn rows_term]; [destruct r2; cbn [rows_term]|rewrite IH]; lra.
  Qed.

  (** one row of entry equalities M[i][jb..] == e_i,jb.. *)
  Lemma entry_row_terms kk m i : forall dsr jb c0, length dsr = c0 ->
    rows_term G F M (map (fun j => REnt kk i j (entry m i j)) (seq jb c0)) dsr
    = rdot (map scalar_of dsr) (lmi_value G F m i) jb - rdot (map scalar_of dsr) (M kk i) jb.
  Proof.
    induction dsr as [|d dsr IH]; intros jb c0 <-; cbn [length seq map rows_term rdot]; [lra|].
    rewrite IH by reflexivity. destruct d as [u|Sm]; cbn [row_term scalar_of]; unfold lmi_value; [lra|].
    rewrite RMicromega.Q2R_0. lra.
  Qed.

  (** all the entry equalities of an LMI *)
  Lemma entry_rows_terms kk m : forall n0 base ds, length ds = (n0 * ncols m)%nat ->
    rows_term G F M
      (flat_map (fun i => map (fun j => REnt kk i j (entry m i j)) (seq 0 (ncols m))) (seq base n0)) ds
    = mdot_from (reshape (ncols m) (map scalar_of ds) n0) (lmi_value G F m) base
      - mdot_from (reshape (ncols m) (map scalar_of ds) n0) (M kk) base.
  Proof.
    induction n0 as [|n0 IH]; intros base ds Hlen; cbn [seq flat_map reshape mdot_from rows_term]; [lra|].
    cbn [Nat.mul] in Hlen.
    rewrite rows_term_app, map_length, seq_length, firstn_map, skipn_map.
    rewrite entry_row_terms, IH by (rewrite ?firstn_length, ?skipn_length; lia). lra.
  Qed.

  (** the part of the Lagrangian that depends on M: sum_k <S_k, M_k> - sum_k <u_k, M_k> *)
  Fixpoint mpart (kk : nat) (l : sent) (ds : list dval) : R :=
    match l with
    | [] => 0
    | SC e s :: r => mpart kk r (skipn (width (SC e s)) ds)
    | LMI m :: r =>
        match hd dnone ds with VM Sd => mdot Sd (M kk) | VS _ => 0 end
        - mdot (entries_at ds 1 m) (M kk)
        + mpart (S kk) r (skipn (width (LMI m)) ds)
    end.

  Lemma rows_term_emit l : forall kk ds,
    length ds = total_width l ->
    rows_term G F M (emit_from kk l) ds = - multiplier_sum G F (shown l ds) + mpart kk l ds.
  Proof.
    unfold shown. induction l as [|[e s|m] l IH]; intros kk ds Hlen.
    - (* no item *) cbn [emit_from rows_term multiplier_sum mpart combine]. lra.
    - (* a scalar constraint: one row, one dual *)
      destruct ds as [|d ds]; [discriminate|]. injection Hlen as Hlen.
      cbn [emit_from mains ents entries_of_item combine multiplier_sum rows_term mpart hd width skipn Nat.add].
      rewrite (IH kk ds Hlen). destruct s, d as [la|Sm]; cbn [scalar_row row_term]; lra.
    - (* an LMI: its main row, then its entry rows *)
      destruct ds as [|d ds]; [discriminate|]. injection Hlen as Hlen.
      cbn [emit_from mains ents entries_of_item combine multiplier_sum rows_term mpart hd width skipn Nat.add].
      unfold lmi_rows, entries_at. cbn [app rows_term skipn lmi_multiplier].
      rewrite rows_term_app, length_entry_rows. unfold entry_rows.
      rewrite (entry_rows_terms kk m (nrows m) 0%nat) by (rewrite firstn_length; lia).
      rewrite (IH (S kk)) by (rewrite skipn_length; lia).
      destruct d as [la|Sm]; cbn [row_term]; unfold mdot; lra.
  Qed.

  Lemma lagrangian_emit obj l d0 ds :
    length ds = total_width l ->
    lagrangian obj G F M (emit l) (d0 :: ds)
    = evalGF G F obj + mdot (res_matrix d0) G - multiplier_sum G F (shown l ds) + mpart 0 l ds.
  Proof.
    intro Hlen. unfold lagrangian, emit. cbn [rows_term]. rewrite (rows_term_emit l 0%nat ds Hlen).
    destruct d0; cbn [row_term res_matrix]; unfold mdot; cbn [mdot_from]; lra.
  Qed.
End AtM.

Lemma rdot_zero row j0 : rdot row (fun _ => 0) j0 = 0.
Proof. revert j0. induction row as [|q row IH]; intro j0; cbn [rdot]; [reflexivity|rewrite IH; lra]. Qed.
Lemma mdot_from_zero Sm i0 : mdot_from Sm (fun _ _ => 0) i0 = 0.
Proof. revert i0. induction Sm as [|row Sm IH]; intro i0; cbn [mdot_from]; [reflexivity|rewrite IH, rdot_zero; lra]. Qed.

Lemma mpart_zero l : forall kk ds, mpart (fun _ _ _ => 0) kk l ds = 0.
Proof.
  induction l as [|[e s|m] l IH]; intros kk ds; cbn [mpart]; [reflexivity|apply IH|].
  rewrite IH. unfold mdot. rewrite mdot_from_zero. destruct (hd dnone ds); [lra|rewrite mdot_from_zero; lra].
Qed.

(** [mpart _ kk] only looks at the matrix variables numbered from [kk] *)
Lemma mpart_agree M M' l : forall kk ds,
  (forall k, (kk <= k)%nat -> M k = M' k) -> mpart M kk l ds = mpart M' kk l ds.
Proof.
  induction l as [|[e s|m] l IH]; intros kk ds H; cbn [mpart]; [reflexivity|apply IH, H|].
  rewrite (H kk (le_n kk)), (IH (S kk)) by (intros; apply H; lia). reflexivity.
Qed.

(** the identity: the constant Lagrangian at M := 0 *)
Lemma stationary_identity obj l d0 ds tau :
  length ds = total_width l -> stationary obj (emit l) (d0 :: ds) tau ->
  certificate_identity obj (shown l ds) (res_matrix d0) tau.
Proof.
  intros Hlen Hstat G F HG.
  pose proof (Hstat G F (fun _ _ _ => 0) HG (fun _ _ _ => eq_refl)) as HL.
  rewrite lagrangian_emit, mpart_zero in HL by exact Hlen. lra.
Qed.

(** the Lagrangian does not depend on M *)
Lemma stationary_mpart obj l d0 ds tau :
  length ds = total_width l -> stationary obj (emit l) (d0 :: ds) tau ->
  forall M, (forall k, symG (M k)) -> mpart M 0 l ds = 0.
Proof.
  intros Hlen Hstat M HM.
  pose proof (Hstat (fun _ _ => 0) (fun _ => 0) M (fun _ _ => eq_refl) HM) as H1.
  pose proof (Hstat (fun _ _ => 0) (fun _ => 0) (fun _ _ _ => 0) (fun _ _ => eq_refl) (fun _ _ _ => eq_refl)) as H0.
  rewrite lagrangian_emit in H1, H0 by exact Hlen. rewrite mpart_zero in H0. lra.
Qed.

Lemma same_shape_of Sm m : shape Sm (nrows m) (ncols m) -> wf_item (LMI m) -> same_shape Sm m.
Proof.
  intros [Hn Hf] Hwf. cbn [wf_item] in Hwf. unfold same_shape, nrows in *.
  set (c := ncols m) in *. clearbody c. revert m Hn Hwf.
  induction Hf as [|s Sm Hs _ IH]; intros [|e m] Hn Hwf; try discriminate; constructor.
  - inversion Hwf as [|? ? [He _] _]. congruence.
  - apply IH; [injection Hn as Hn; exact Hn|inversion Hwf; assumption].
Qed.

Lemma shape_reshape c l : forall n, length l = (n * c)%nat -> shape (reshape c l n) n c.
Proof.
  intros n. revert l. induction n as [|n IH]; intros l Hl; cbn [reshape]; [split; [reflexivity|constructor]|].
  cbn [Nat.mul] in Hl. destruct (IH (skipn c l)) as [H1 H2]; [rewrite skipn_length; lia|].
  split; [cbn [length]; rewrite H1; reflexivity|]. constructor; [|exact H2].
  rewrite firstn_length. lia.
Qed.

Lemma shown_ok l : forall kk ds,
  wf_sent l -> Forall2 dual_fits (emit_from kk l) ds ->
  Forall ok_expo (shown l ds).
Proof.
  unfold shown. induction l as [|[e s|m] l IH]; intros kk ds Hwf Hfit.
  - constructor.
  - (* a scalar constraint *)
    inversion Hwf as [|? ? Hm Hwf']; subst. cbn [emit_from] in Hfit.
    inversion Hfit as [|r d rs ds' Hd Hfit']; subst.
    cbn [mains ents entries_of_item combine width skipn].
    constructor; [exact Hm|apply (IH kk); assumption].
  - (* an LMI: [ds] is its main dual, the duals [d1] of its entry rows, the duals [d2] of the other items *)
    inversion Hwf as [|? ? Hm Hwf']; subst. cbn [emit_from] in Hfit.
    inversion Hfit as [|r d rs ds' Hd Hfit']; subst.
    cbn [mains ents entries_of_item combine hd width skipn Nat.add].
    apply Forall2_app_inv_l in Hfit' as [d1 [d2 [H1 [H2 ->]]]].
    assert (Hl : length d1 = (nrows m * ncols m)%nat)
      by (rewrite <- (F2_length _ _ _ H1); apply length_entry_rows).
    unfold entries_at. cbn [skipn].
    rewrite <- Hl, skipn_app, skipn_all, Nat.sub_diag, firstn_app, firstn_all, Nat.sub_diag. cbn [app skipn firstn].
    rewrite app_nil_r.
    constructor; [|apply (IH (S kk)); assumption].
    cbn [ok_expo lmi_multiplier]. split; [|split].
    + apply same_shape_of; [|exact Hm]. apply shape_reshape. rewrite map_length. exact Hl.
    + destruct d as [la|Sm]; [exact I|]. apply same_shape_of; assumption.
    + revert Hm. apply Forall_impl. intros row [_ H]. exact H.
Qed.

(** a dual vector with the kinds and shapes of the emitted rows: a residual followed by a vector aligned with the
    tracked list; with every object sent once the objects show [shown], which [combination] can read *)
Lemma fitting_duals tracked ids temp :
  wf_sent tracked -> NoDup ids -> length ids = length tracked ->
  Forall2 dual_fits (emit tracked) temp ->
  exists d0 ds, temp = d0 :: ds /\ length ds = total_width tracked
                /\ exposed tracked ids temp = (shown tracked ds, d0) /\ Forall ok_expo (shown tracked ds).
Proof.
  intros Hwf Hnd Hids Hfit. unfold emit in Hfit. inversion Hfit as [|r0 d0 rs ds _ Hfit']; subst.
  exists d0, ds. split; [reflexivity|]. split; [|split].
  - rewrite <- (F2_length _ _ _ Hfit'). apply length_emit_from.
  - apply exposed_shown; assumption.
  - apply (shown_ok tracked 0%nat ds Hwf Hfit').
Qed.

(** ** A dictionary whose value is the same at every (G,F) is a constant dictionary *)
Section Ident.
  Definition ind (k : ekey) : ekey -> R := fun k' => if ekey_eqb k' k then 1 else 0.

  Lemma dsum_ind_absent k d : ~ In k (keys d) -> dsum ekey (ind k) d = 0.
  Proof.
    induction d as [|[k' v] d IH]; intro H; cbn [dsum]; [reflexivity|].
    rewrite IH by (intro; apply H; right; assumption). unfold ind.
    destruct (ekey_eqb_spec k' k) as [->|]; [exfalso; apply H; left; reflexivity|lra].
  Qed.

  Lemma dsum_ind k d : eND d -> dsum ekey (ind k) d = get ekey ekey_eqb k d.
  Proof.
    unfold NoDupKeys, get. induction d as [|[k' v] d IH]; intro H; cbn [dsum lookup]; [reflexivity|].
    inversion H as [|? ? Hn H']; subst. unfold ind at 1.
    destruct (ekey_eqb_spec k' k) as [->|Hne].
    - destruct (ekey_eqb_spec k k) as [_|]; [|congruence]. rewrite dsum_ind_absent by exact Hn. lra.
    - destruct (ekey_eqb_spec k k') as [->|_]; [congruence|]. rewrite IH by exact H'. lra.
  Qed.

  Lemma dsum_val_plus (v1 v2 : ekey -> R) d :
    dsum ekey (fun k => v1 k + v2 k) d = dsum ekey v1 d + dsum ekey v2 d.
  Proof. induction d as [|[k q] d IH]; cbn [dsum]; [lra|rewrite IH; lra]. Qed.

  Lemma dsum_val_ext (v1 v2 : ekey -> R) d : (forall k, v1 k = v2 k) -> dsum ekey v1 d = dsum ekey v2 d.
  Proof. intro H. induction d as [|[k q] d IH]; cbn [dsum]; [reflexivity|rewrite IH, H; reflexivity]. Qed.

  Lemma Q2R_nonzero v : ~ (v == 0)%Q -> Q2R v <> 0.
  Proof. intros H H0. apply H. apply eqR_Qeq. rewrite H0, RMicromega.Q2R_0. reflexivity. Qed.

  (** the point where every key has value 0, except K1 (always 1) and [k] *)
  Definition unitG (k : ekey) : nat -> nat -> R :=
    fun i j => match k with KG i' j' => if (Nat.eqb i i' && Nat.eqb j j')%bool then 1 else 0 | _ => 0 end.
  Definition unitF (k : ekey) : nat -> R :=
    fun e => match k with KF e' => if Nat.eqb e e' then 1 else 0 | _ => 0 end.

  Lemma evalKGF_unit k k' : k <> K1 -> evalKGF (unitG k) (unitF k) k' = ind K1 k' + ind k k'.
  Proof. intro Hk. destruct k, k'; try congruence; unfold ind; cbn [evalKGF unitG unitF ekey_eqb]; lra. Qed.

  Theorem constant_dict d tau :
    eND d -> (forall k v, In (k, v) d -> ~ (v == 0)%Q) ->
    (forall G F, evalGF G F d = tau) ->
    Q2R (constant_of d) = tau /\ forall k v, In (k, v) d -> k = K1.
  Proof.
    intros Hd Hnz Hc.
    assert (H1 : get ekey ekey_eqb K1 d = tau).
    { rewrite <- (Hc (fun _ _ => 0) (fun _ => 0)), C05Lemmas.evalGF_dsum, <- dsum_ind by exact Hd.
      apply dsum_val_ext. intros [e|i j|]; reflexivity. }
    split.
    - rewrite <- H1. unfold constant_of, get. destruct (lookup ekey_eqb K1 d); [reflexivity|apply RMicromega.Q2R_0].
    - intros k v Hin. destruct (ekey_eqb_spec k K1) as [Hk|Hk]; [exact Hk|exfalso].
      apply (Q2R_nonzero v (Hnz k v Hin)).
      pose proof (Hc (unitG k) (unitF k)) as H.
      rewrite C05Lemmas.evalGF_dsum, (dsum_val_ext _ _ d (fun k' => evalKGF_unit k k' Hk)), dsum_val_plus, !dsum_ind in H by exact Hd.
      unfold get in H at 2. rewrite (In_lookup ekey ekey_eqb ekey_eqb_spec k v d Hd Hin) in H. lra.
  Qed.
End Ident.

(** ** Stationarity in M_k: the dual matrix of an LMI is the symmetric part of its entry multipliers *)
(** the symmetric matrix unit E_ij + E_ji *)
Definition sym_unit (i j : nat) : nat -> nat -> R := fun a b => delta i a * delta j b + delta j a * delta i b.

Lemma mdot_sym_unit X n i j : shape X n n -> (i < n)%nat -> (j < n)%nat ->
  mdot X (sym_unit i j) = matR X i j + matR X j i.
Proof.
  intros Hs Hi Hj. rewrite (mdot_sumn X _ n n Hs). unfold sym_unit.
  rewrite (sumn_ext n _ (fun a => delta i a * matR X a j + delta j a * matR X a i)).
  - rewrite sumn_plus, !sumn_delta_l by assumption. reflexivity.
  - intros a _.
    rewrite (sumn_ext n _ (fun b => delta j b * (delta i a * matR X a b) + delta i b * (delta j a * matR X a b)))
      by (intros; lra).
    rewrite sumn_plus, !sumn_delta_l by assumption. reflexivity.
Qed.

Definition sym_ok (p : expo) : Prop :=
  match p with
  | (LMI m, VM Sd, Some u) =>
      shape Sd (nrows m) (nrows m) -> shape u (nrows m) (nrows m) -> same_sym_part u Sd (nrows m)
  | _ => True
  end.

(** if the M part vanishes at all symmetric M and the first item is an LMI, its own term plus the M part of the
    other items vanishes at every symmetric X put for M_kk and every symmetric M ([mpart _ (S kk)] does not look at
    M_kk): X := 0 leaves the M part of the other items, X := E_ij + E_ji with M := 0 gives the claim for the LMI *)
Lemma mpart_sym l : forall kk ds,
  (forall M, (forall k, symG (M k)) -> mpart M kk l ds = 0) -> Forall sym_ok (shown l ds).
Proof.
  unfold shown.
  induction l as [|[e s|m] l IH]; intros kk ds H; cbn [mains ents entries_of_item combine]; [constructor| |].
  - constructor; [exact I|apply (IH kk), H].
  - assert (Hs : forall X M, symG X -> (forall k, symG (M k)) ->
                match hd dnone ds with VM Sd => mdot Sd X | VS _ => 0 end - mdot (entries_at ds 1 m) X
                + mpart M (S kk) l (skipn (width (LMI m)) ds) = 0).
    { intros X M HX HM. specialize (H (fun k => if Nat.eqb k kk then X else M k)). cbn [mpart] in H.
      rewrite Nat.eqb_refl, (mpart_agree _ M) in H.
      - apply H. intro k. destruct (Nat.eqb k kk); [exact HX|apply HM].
      - intros k Hk. destruct (Nat.eqb_spec k kk); [lia|reflexivity]. }
    constructor.
    + cbn [sym_ok Nat.add]. destruct (hd dnone ds) as [q|Sd] eqn:Hd; [exact I|]. intros HS Hu i j Hi Hj.
      assert (HX : symG (sym_unit i j)) by (intros a b; unfold sym_unit; lra).
      specialize (Hs (sym_unit i j) (fun _ _ _ => 0) HX (fun _ _ _ => eq_refl)).
      rewrite mpart_zero, (mdot_sym_unit Sd _ i j HS Hi Hj), (mdot_sym_unit _ _ i j Hu Hi Hj) in Hs. lra.
    + apply (IH (S kk)). intros M HM. specialize (Hs (fun _ _ => 0) M (fun _ _ => eq_refl) HM).
      unfold mdot in Hs. rewrite !mdot_from_zero in Hs. destruct (hd dnone ds); rewrite ?mdot_from_zero in Hs; lra.
Qed.

(** The certificate of any declared model, under the solver assumption: the identity, the returned constant is
    tau, and the final dictionary has no other key *)
Theorem identity :
  forall (obj : edict) (tracked : sent) (ids : list nat) (temp : list dval) (tau : R),
    wf_edict obj -> wf_sent tracked ->
    NoDup ids -> length ids = length tracked ->
    kkt_dual obj (emit tracked) temp tau ->
    let '(a, res, fd, t) := certificate obj tracked ids temp in
    certificate_identity obj a (res_matrix res) tau
    /\ Q2R t = tau
    /\ (forall k v, In (k, v) fd -> k = K1).
Proof.
  intros obj tracked ids temp tau Hobj Hwf Hnd Hids [Hfit Hstat].
  destruct (fitting_duals tracked ids temp Hwf Hnd Hids Hfit) as [d0 [ds [-> [Hlen [Hexp Hok]]]]].
  unfold certificate. rewrite Hexp.
  pose proof (stationary_identity obj tracked d0 ds tau Hlen Hstat) as Hid.
  split; [exact Hid|].
  (* the reconstruction: the dictionary has the value tau at every (G,F), symmetric or not *)
  pose proof (fun G F => sub_combination_spec G F obj (res_matrix d0) (shown tracked ds) Hobj Hok) as Hd.
  apply constant_dict.
  - apply eND_symmetrized, (Hd (fun _ _ => 0) (fun _ => 0)).
  - intros k v. apply prune_nonzero.
  - intros G F. unfold final_dict, final_dict_of.
    rewrite ev_symmetrized, (proj2 (Hd _ _)) by apply (Hd G F).
    pose proof (Hid (symm G) F (symm_sym G)) as H. lra.
Qed.

(** Weak duality: the identity, and [dual_terms_tol] at eps = 0 (exact dual feasibility is dual feasibility up
    to 0: [dual_feasible_tol0], [rank1sum_near]) *)
Theorem weak_duality :
  forall (np : nat) (obj : edict) (tracked : sent) (duals : list dval) (entries : list (option (list (list Q))))
         (res : list (list Q)) (tau : R),
    length duals = length tracked -> length entries = length tracked ->
    certificate_identity obj (combine (combine tracked duals) entries) res tau ->
    dual_feasible (combine (combine tracked duals) entries) ->
    rank1sum res np ->
    forall G F, feasible np tracked G F -> evalGF G F obj <= tau.
Proof.
  intros np obj tracked duals entries res tau Hlen Hlen' Hid Hdf Hres G F Hfe.
  pose proof (Hid G F (proj1 Hfe)) as H.
  pose proof (dual_terms_tol 0 np tracked duals entries res G F Hlen Hlen' (dual_feasible_tol0 _ Hdf)
                (rank1sum_near 0 res np (Rle_refl 0) Hres) Hfe) as H1.
  lra.
Qed.
