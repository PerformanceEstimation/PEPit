(** Non-vacuity of the C14 theorems: complete runs of the generated program, and programs the check rejects. *)
From Coq Require Import List String ZArith.
From PV Require Import Gen.PostSolve Proofs.C14Run Proofs.C14PostSolve.
Import ListNotations.
Open Scope string_scope.
Open Scope list_scope.

Definition int2 (s : string) : option Z := if String.eqb s "2" then Some 2%Z else None.

Lemma run_trace :
  let s := exec (cfg_of (Some "trace") "dual" int2) post_solve init in
  out s = Returned (VDualObjective (Some (Some 1))) /\ n_solves s = 2
  /\ trace s = [EvSolve 1; EvAssign 1; EvGetPrimal 1; EvEig; EvPrepare 1; EvHeuristic WIdentity; EvSolve 2;
                EvGetPrimal 2; EvEig; EvStore; EvStore; EvEval 2; EvCheck (Some 1) 2].
Proof. vm_compute. repeat split. Qed.

Lemma run_logdet2 :
  let s := exec (cfg_of (Some "logdet2") "dual" int2) post_solve init in
  out s = Returned (VDualObjective (Some (Some 1))) /\ n_solves s = 3
  /\ filter is_heur (trace s) = [EvPrepare 1; EvHeuristic WVar; EvHeuristic WVar].
Proof. vm_compute. repeat split. Qed.

Lemma run_primal_mode :
  out (exec (cfg_of (Some "trace") "primal" int2) post_solve init) = Returned (VWc 2).
Proof. vm_compute. reflexivity. Qed.

Lemma run_bad_option :
  out (exec (cfg_of (Some "tracee") "dual" int2) post_solve init) = RaisedValueError
  /\ out (exec (cfg_of (Some "logdetx") "dual" int2) post_solve init) = RaisedValueError.
Proof. vm_compute. split; reflexivity. Qed.

Lemma run_unbounded :
  let s := exec {| c_h := Some "trace"; c_mode := "dual"; c_int := int2; c_none := fun _ => true |} post_solve init in
  out s = Returned VNone /\ trace s = [EvSolve 1].
Proof. vm_compute. split; reflexivity. Qed.

(** programs the check rejects: duals assigned after the heuristic block; wc_value returned in dual mode *)
Definition moved_assign : list top :=
  [ T ASolve; T AReturnIfNone; T AGetPrimal;
    TIfHeuristic [L2 AEig; L2 APrepare;
                  L2Dispatch [(TEqStr "trace", [L1 (AHeuristic WIdentity); L1 ASolve; L1 AGetPrimal; L1 AEig])]
                             [L1 ARaiseValueError]];
    T AAssignDuals; T AStoreGF; T AEvalPoints; T ACheckFeasibility;
    T (AReturnSwitch [("dual", RetDualObjective); ("primal", RetWcValue)]) ].

Definition returns_wc : list top :=
  [ T ASolve; T AReturnIfNone; T AAssignDuals; T AGetPrimal; T AEvalPoints; T ACheckFeasibility;
    T (AReturnSwitch [("dual", RetWcValue); ("primal", RetWcValue)]) ].

Lemma check_rejects : well_ordered moved_assign = false /\ well_ordered returns_wc = false
                      /\ well_ordered post_solve = true.
Proof. vm_compute. repeat split. Qed.

(** ... and the rejected program indeed reads the duals of the second solve *)
Lemma moved_assign_reads_second_solve :
  out (exec (cfg_of (Some "trace") "dual" int2) moved_assign init) = Returned (VDualObjective (Some (Some 2))).
Proof. vm_compute. reflexivity. Qed.
