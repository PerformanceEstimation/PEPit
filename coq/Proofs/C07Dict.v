(** Dictionaries and sample lists as the bookkeeping of PEPit/function.py uses them.
    - Python's [dict ==] ([dict_eqb]) is an equivalence on dictionaries with unique keys
      ("two points with the same decomposition are the same point");
    - pruning is idempotent, is the identity on dictionaries without zero entry, preserves meaning;
      [peq] / [eeq]: two point / expression dictionaries mean the same under every valuation;
    - [find_pt] ([_is_already_evaluated_on_point]) returns the first sample whose point is [==];
    - [upd] on the list of functions. *)
From Coq Require Import List Reals Qreals Lra Lia Permutation.
From PV Require Import Base.IPS Model.Dict Model.Terms Model.Func Spec.Sem Proofs.DictLemmas Proofs.SemLemmas.
Import ListNotations.
Local Open Scope R_scope.

Section DictEq.
  Variable K : Type.
  Variable keqb : K -> K -> bool.
  Hypothesis keqb_spec : forall a b, reflect (a = b) (keqb a b).

  Notation ND := (NoDupKeys K).
  Notation lk := (lookup keqb).

  Definition oeq (a b : option Q) : Prop :=
    match a, b with
    | None, None => True
    | Some x, Some y => (x == y)%Q
    | _, _ => False
    end.

  Lemma oeq_refl a : oeq a a.
  Proof. destruct a; cbn; [reflexivity|exact I]. Qed.
  Lemma oeq_sym a b : oeq a b -> oeq b a.
  Proof. destruct a, b; cbn; auto. apply Qeq_sym. Qed.
  Lemma oeq_trans a b c : oeq a b -> oeq b c -> oeq a c.
  Proof. destruct a, b; cbn; try contradiction; destruct c; cbn; try contradiction; [apply Qeq_trans|auto]. Qed.

  Lemma key_lookup k d : In k (keys d) -> exists v, lk k d = Some v.
  Proof.
    intros H. destruct (lk k d) eqn:Hl; [eauto|].
    apply (lookup_None K keqb keqb_spec) in Hl. contradiction.
  Qed.

  Lemma lookup_Some_key k v d : lk k d = Some v -> In k (keys d).
  Proof. intros H. apply (In_keys K k v), (lookup_Some_In K keqb keqb_spec), H. Qed.

  Lemma sub_eqb_spec d1 d2 :
    sub_eqb keqb d1 d2 = true <->
    forall k v, In (k, v) d1 -> exists v2, lk k d2 = Some v2 /\ (v == v2)%Q.
  Proof.
    unfold sub_eqb. rewrite forallb_forall. split.
    - intros H k v Hin. specialize (H (k, v) Hin). cbn in H.
      destruct (lk k d2) as [v2|]; [|discriminate]. exists v2. split; [reflexivity|].
      apply Qeq_bool_iff. exact H.
    - intros H [k v] Hin. destruct (H k v Hin) as [v2 [Hl Hq]]. rewrite Hl. apply Qeq_bool_iff. exact Hq.
  Qed.

  Lemma keys_incl d1 d2 : (forall k v, lk k d1 = Some v -> lk k d2 <> None) -> incl (keys d1) (keys d2).
  Proof.
    intros H k Hk. destruct (key_lookup k d1 Hk) as [v Hv].
    destruct (lk k d2) as [v2|] eqn:H2; [exact (lookup_Some_key k v2 d2 H2)|]. destruct (H k v Hv H2).
  Qed.

  (** Python's [==]: same length and every entry of the first is in the second; with unique keys the
      lengths force the key sets to coincide *)
  Lemma dict_eqb_char d1 d2 :
    ND d1 -> ND d2 ->
    (dict_eqb keqb d1 d2 = true <-> forall k, oeq (lk k d1) (lk k d2)).
  Proof.
    intros N1 N2. unfold dict_eqb. rewrite andb_true_iff, Nat.eqb_eq, sub_eqb_spec.
    rewrite <- (map_length fst d1), <- (map_length fst d2). fold (keys d1) (keys d2). split.
    - intros [Hlen Hsub] k.
      assert (I21 : incl (keys d2) (keys d1)).
      { apply NoDup_length_incl; [exact N1|lia|]. apply keys_incl. intros a v Hv.
        apply (lookup_Some_In K keqb keqb_spec) in Hv. destruct (Hsub a v Hv) as [v2 [-> _]]. discriminate. }
      destruct (lk k d1) as [v|] eqn:H1.
      + apply (lookup_Some_In K keqb keqb_spec) in H1. destruct (Hsub k v H1) as [v2 [-> Hq]]. exact Hq.
      + destruct (lk k d2) as [v2|] eqn:H2; [|exact I].
        apply lookup_Some_key, I21 in H2. apply (lookup_None K keqb keqb_spec) in H1. contradiction.
    - intros H.
      assert (I12 : forall a b, (forall k, oeq (lk k a) (lk k b)) -> incl (keys a) (keys b)).
      { intros a b Hab. apply keys_incl. intros k v Hv Hn. specialize (Hab k). rewrite Hv, Hn in Hab. exact Hab. }
      split.
      + pose proof (NoDup_incl_length N1 (I12 d1 d2 H)).
        pose proof (NoDup_incl_length N2 (I12 d2 d1 (fun k => oeq_sym _ _ (H k)))). lia.
      + intros k v Hin. apply (In_lookup K keqb keqb_spec k v d1 N1) in Hin.
        specialize (H k). rewrite Hin in H. destruct (lk k d2) as [v2|]; [|contradiction].
        exists v2. split; [reflexivity|exact H].
  Qed.

  Definition allnz (d : dict K) : bool := forallb (fun '(_, v) => nonzero v) d.

  Lemma allnz_prune (d : dict K) : allnz (prune d) = true.
  Proof.
    unfold allnz, prune. apply forallb_forall. intros [k v] H. apply filter_In in H. tauto.
  Qed.

  Lemma prune_id (d : dict K) : allnz d = true -> prune d = d.
  Proof.
    unfold allnz, prune. induction d as [|[k v] d IH]; cbn; [reflexivity|].
    intros H. apply andb_true_iff in H as [H1 H2]. rewrite H1. f_equal. auto.
  Qed.

  Lemma prune_idem (d : dict K) : prune (prune d) = prune d.
  Proof. apply prune_id, allnz_prune. Qed.

  Lemma allnz_In (d : dict K) k v : allnz d = true -> In (k, v) d -> ~ (v == 0)%Q.
  Proof.
    unfold allnz. rewrite forallb_forall. intros H Hin Hz. specialize (H (k, v) Hin). cbn in H.
    unfold nonzero in H. apply negb_true_iff in H. apply Qeq_bool_iff in Hz. congruence.
  Qed.

  Lemma dsum_perm (val : K -> R) d1 d2 : Permutation d1 d2 -> dsum K val d1 = dsum K val d2.
  Proof.
    induction 1 as [|[k v] l l' _ IH|[k v] [k' v'] l|l l' l'' _ IH1 _ IH2]; cbn [dsum]; lra.
  Qed.

  Lemma dsum_ext (val val' : K -> R) d :
    (forall k q, In (k, q) d -> val k = val' k) -> dsum K val d = dsum K val' d.
  Proof.
    induction d as [|[k v] d IH]; cbn [dsum]; intros H; [reflexivity|].
    rewrite (H k v), IH; [reflexivity| |left; reflexivity].
    intros k' q' Hk'. apply (H k' q'). right. exact Hk'.
  Qed.
End DictEq.

Arguments oeq a b : simpl never.

Lemma peqb_refl d : pND d -> dict_eqb Nat.eqb d d = true.
Proof. intros N. apply (dict_eqb_char nat Nat.eqb nat_eqb_spec); auto. intros k. apply oeq_refl. Qed.

Lemma peqb_sym a b : pND a -> pND b -> dict_eqb Nat.eqb a b = true -> dict_eqb Nat.eqb b a = true.
Proof.
  intros Na Nb H. apply (dict_eqb_char nat Nat.eqb nat_eqb_spec); auto. intros k. apply oeq_sym.
  revert k. apply (dict_eqb_char nat Nat.eqb nat_eqb_spec); auto.
Qed.

Lemma peqb_trans a b c :
  pND a -> pND b -> pND c ->
  dict_eqb Nat.eqb a b = true -> dict_eqb Nat.eqb b c = true -> dict_eqb Nat.eqb a c = true.
Proof.
  intros Na Nb Nc Hab Hbc. apply (dict_eqb_char nat Nat.eqb nat_eqb_spec); auto. intros k.
  apply (oeq_trans _ (lookup Nat.eqb k b)); revert k; apply (dict_eqb_char nat Nat.eqb nat_eqb_spec); assumption.
Qed.

(** [Spec.StepsSpec.peq] says the same with [veq] ([peq_veq]) *)
Definition peq (a b : pdict) : Prop :=
  forall (E : ips) (rho : nat -> E) (w : E), inner (evalP rho a) w = inner (evalP rho b) w.
Definition eeq (a b : edict) : Prop :=
  forall (E : ips) (rho : nat -> E) (phi : nat -> R), evalE rho phi a = evalE rho phi b.

Lemma peq_refl a : peq a a. Proof. intros E rho w; reflexivity. Qed.
Lemma peq_sym a b : peq a b -> peq b a. Proof. intros H E rho w; symmetry; apply H. Qed.
Lemma peq_trans a b c : peq a b -> peq b c -> peq a c.
Proof. intros H1 H2 E rho w. exact (eq_trans (H1 E rho w) (H2 E rho w)). Qed.
Lemma eeq_refl a : eeq a a. Proof. intros E rho phi; reflexivity. Qed.
Lemma eeq_sym a b : eeq a b -> eeq b a. Proof. intros H E rho phi; symmetry; apply H. Qed.
Lemma eeq_trans a b c : eeq a b -> eeq b c -> eeq a c.
Proof. intros H1 H2 E rho phi. exact (eq_trans (H1 E rho phi) (H2 E rho phi)). Qed.

Lemma peq_veq a b : peq a b <-> forall (E : ips) (rho : nat -> E), veq (evalP rho a) (evalP rho b).
Proof. split; intros H E rho w; apply H. Qed.

Section Obs.
  Context {E : ips}.
  Variable rho : nat -> E.
  Variable phi : nat -> R.
  Variable w : E.

  Definition ip (d : pdict) : R := inner (evalP rho d) w.

  Lemma ip_prune d : ip (prune d) = ip d.
  Proof. unfold ip. rewrite !inner_evalP. apply dsum_prune. Qed.
  Lemma ip_nil : ip [] = 0.
  Proof. apply inner_zero_l. Qed.
  Lemma ip_single k q : ip [(k, q)] = Q2R q * inner (rho k) w.
  Proof. unfold ip. rewrite inner_evalP. cbn. lra. Qed.
  Lemma ip_add a b : pND a -> pND b -> ip (p_add a b) = ip a + ip b.
  Proof. intros Ha Hb. unfold ip. rewrite (evalP_add rho a b Ha Hb w), inner_add_l. reflexivity. Qed.
  Lemma ip_scal c a : ip (p_scal c a) = Q2R c * ip a.
  Proof. unfold ip. rewrite (evalP_scal rho c a w), inner_scal_l. reflexivity. Qed.
  Lemma ip_sub a b : pND a -> pND b -> ip (p_sub a b) = ip a - ip b.
  Proof. intros Ha Hb. unfold ip. rewrite (evalP_sub rho a b Ha Hb w), inner_sub_l. reflexivity. Qed.
  Lemma ip_div a c : ~ (c == 0)%Q -> ip (p_div a c) = ip a / Q2R c.
  Proof. intros H. unfold ip. rewrite (evalP_div rho a c H w), inner_scal_l. lra. Qed.
End Obs.

Lemma peq_prune d : peq (prune d) d.
Proof. intros E rho w. apply (ip_prune rho w). Qed.
Lemma eeq_prune d : eeq (prune d) d.
Proof. intros E rho phi. apply evalE_prune. Qed.

Lemma Q2R_nonzero q : ~ (q == 0)%Q -> Q2R q <> 0.
Proof.
  intros H Hz. apply H. apply eqR_Qeq. rewrite Hz. symmetry. apply RMicromega.Q2R_0.
Qed.

Lemma pND_prune (d : pdict) : pND d -> pND (prune d).
Proof. apply NoDupKeys_prune. Qed.
Lemma eND_prune (d : edict) : eND d -> eND (prune d).
Proof. apply NoDupKeys_prune. Qed.

Lemma keys_merge_in (a b : wdict) k :
  In k (keys (merge Nat.eqb a b)) <-> In k (keys a) \/ In k (keys b).
Proof.
  unfold merge, keys. rewrite map_app, in_app_iff, map_map.
  assert (Hk : map (fun x => fst (let '(k0, v) := x in
                 match lookup Nat.eqb k0 b with Some v2 => (k0, (v + v2)%Q) | None => (k0, v) end)) a = map fst a).
  { apply map_ext. intros [k0 v]. destruct (lookup Nat.eqb k0 b); reflexivity. }
  rewrite Hk. split.
  - intros [H|H]; [left; exact H|]. right. apply in_map_iff in H as [[k0 v] [<- H]].
    apply filter_In in H as [H _]. apply in_map_iff. exists (k0, v); auto.
  - intros [H|H]; [left; exact H|].
    destruct (mem Nat.eqb k a) eqn:Hm.
    + left. apply (mem_true nat Nat.eqb nat_eqb_spec) in Hm. exact Hm.
    + right. apply in_map_iff in H as [[k0 v] [<- H]]. apply in_map_iff. exists (k0, v). split; [reflexivity|].
      apply filter_In. split; [exact H|]. cbn in Hm. rewrite Hm. reflexivity.
Qed.

Definition xof (t : sample) : pdict := fst (fst t).
Definition gof (t : sample) : pdict := snd (fst t).
Definition vof (t : sample) : edict := snd t.

Lemma find_pt_Some pts x g v :
  find_pt pts x = Some (g, v) ->
  exists x0, In (x0, g, v) pts /\ dict_eqb Nat.eqb x0 x = true.
Proof.
  induction pts as [|[[x0 g0] v0] pts IH]; cbn; [discriminate|].
  destruct (dict_eqb Nat.eqb x0 x) eqn:He.
  - intros [= <- <-]. exists x0. split; [left; reflexivity|exact He].
  - intros H. destruct (IH H) as [x1 [H1 H2]]. exists x1. split; [right; exact H1|exact H2].
Qed.

Lemma find_pt_None pts x :
  find_pt pts x = None <-> forall t, In t pts -> dict_eqb Nat.eqb (xof t) x = false.
Proof.
  induction pts as [|[[x0 g0] v0] pts IH]; cbn.
  - split; [intros _ t []|reflexivity].
  - destruct (dict_eqb Nat.eqb x0 x) eqn:He.
    + split; [discriminate|]. intros H. specialize (H (x0, g0, v0) (or_introl eq_refl)). cbn in H. congruence.
    + rewrite IH. split.
      * intros H t [<-|Ht]; [exact He|apply H; exact Ht].
      * intros H t Ht. apply H. right. exact Ht.
Qed.

Lemma find_pt_app_Some pts l x r : find_pt pts x = Some r -> find_pt (pts ++ l) x = Some r.
Proof.
  induction pts as [|[[x0 g0] v0] pts IH]; cbn; [discriminate|].
  destruct (dict_eqb Nat.eqb x0 x); auto.
Qed.

Lemma find_pt_app_None pts l x : find_pt pts x = None -> find_pt (pts ++ l) x = find_pt l x.
Proof.
  induction pts as [|[[x0 g0] v0] pts IH]; cbn; [reflexivity|].
  destruct (dict_eqb Nat.eqb x0 x); [discriminate|auto].
Qed.

(** lookup does not distinguish equal decompositions (I5) *)
Lemma find_pt_congr pts x x' :
  (forall t, In t pts -> pND (xof t)) -> pND x -> pND x' ->
  dict_eqb Nat.eqb x x' = true -> find_pt pts x = find_pt pts x'.
Proof.
  intros Hnd Hx Hx' He. induction pts as [|[[x0 g0] v0] pts IH]; cbn; [reflexivity|].
  assert (N0 : pND x0) by (apply (Hnd (x0, g0, v0)); left; reflexivity).
  rewrite IH by (intros t Ht; apply Hnd; right; exact Ht).
  destruct (dict_eqb Nat.eqb x0 x) eqn:H1.
  - rewrite (peqb_trans x0 x x' N0 Hx Hx' H1 He). reflexivity.
  - destruct (dict_eqb Nat.eqb x0 x') eqn:H2; [|reflexivity].
    rewrite (peqb_trans x0 x' x N0 Hx' Hx H2 (peqb_sym x x' Hx Hx' He)) in H1. discriminate.
Qed.

Lemma upd_length {A} i (f : A -> A) l : length (upd i f l) = length l.
Proof. revert i. induction l as [|a l IH]; intros [|i]; cbn; auto. Qed.

Lemma nth_upd_eq {A} i (f : A -> A) l d : (i < length l)%nat -> nth i (upd i f l) d = f (nth i l d).
Proof. revert i. induction l as [|a l IH]; intros [|i] H; cbn in *; try lia; auto. apply IH. lia. Qed.

Lemma nth_upd_neq {A} i j (f : A -> A) l d : i <> j -> nth j (upd i f l) d = nth j l d.
Proof.
  revert i j. induction l as [|a l IH]; intros [|i] [|j] H; cbn; try reflexivity; try congruence.
  apply IH. congruence.
Qed.

Lemma upd_unchanged {A} i (f : A -> A) l d : f (nth i l d) = nth i l d -> upd i f l = l.
Proof.
  revert i. induction l as [|a l IH]; intros [|i] H; cbn in *; try reflexivity; f_equal; auto.
Qed.

Lemma upd_out {A} i (f : A -> A) l : (length l <= i)%nat -> upd i f l = l.
Proof. revert i. induction l as [|a l IH]; intros [|i] H; cbn in *; try reflexivity; try lia. f_equal. apply IH. lia. Qed.
