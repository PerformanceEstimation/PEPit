(** C03 — class constraints never exclude a real member of the class: the 24 class theorems.

    [stmt_<Class> plan], proved for [plan := plan_<Class>] of Gen/Classes.v (the plan and formulas the
    translator reads from /repo on every run): for every real inner-product space E, every valuation
    (rho, phi) of the leaf points / leaf expressions, every real member of the class with parameters
    in the documented range, every generator state [st] whose parameter table agrees with the member's
    parameters, whose dictionaries have unique keys ([wf_state]) and whose recorded samples are all
    valued at genuine samples of the member, [all_satisfied rho phi (run_plan plan st)]: every
    generated scalar constraint holds and every generated LMI evaluates to a symmetric positive
    semidefinite matrix.  Samples are arbitrary lists: any number, any order, repetitions, stationary
    points, fixed points.

    Each proof replaces the member's parameters by the entries of the parameter table they equal, so
    that formula and member speak about the same numbers, and gives for every item of the plan its
    reference condition, its [feq_*] lemma (where a changed coefficient in the Python source breaks
    the build) and its [mem_*] lemma. *)
From Coq Require Import List Reals String.
From PV Require Import Base.IPS Model.Dict Model.Terms Model.ClassGen Spec.Sem Spec.Reference Spec.Classes.
From PV Require Import Proofs.DictLemmas Proofs.SemLemmas Proofs.ClassGenLemmas Proofs.FormulaEq Proofs.C04Lemmas.
From PV Require Import Proofs.MembersA Proofs.MembersB Proofs.MembersC Proofs.C03Core.
From PV Require Import Gen.Classes.
Import ListNotations.
Local Open Scope R_scope.

(** [plan_sound] on a shipped plan: [auto_head_only] by computation, then one goal [item_ok _ _ (start_state plan st) it]
    per item [it] of the plan, in order *)
Ltac items := first [apply Forall_nil | apply Forall_cons; [|items]].
Ltac c03_plan := apply plan_sound; [reflexivity|]; items.

Section C03.
  Context {E : ips}.
  Variable rho : nat -> E.
  Variable phi : nat -> R.

  Notation sval := (sval rho phi).
  Notation px := (px rho).
  Notation pg := (pg rho).
  Notation pf := (pf rho phi).
  Notation ok := (all_satisfied rho phi).

  Definition stmt_ConvexFunction (plan : list plan_item) : Prop :=
    forall (F : fn) st, wf_state st ->
      (forall s, In s (f_points st) -> genuine_sub F (sval s)) ->
      ok (run_plan plan st).

  Lemma c03_ConvexFunction : stmt_ConvexFunction plan_ConvexFunction.
  Proof.
    intros F st Hwf Hpts. c03_plan.
    exact (pairs_ok (fun xi _ fi xj gj fj => ref_convex xi xj gj fi fj) Hwf Hpts Hpts
                    (fun _ _ => feq_convex _ _ _) (mem_convex F)).
  Qed.

  Definition stmt_StronglyConvexFunction (plan : list plan_item) : Prop :=
    forall (mu : R) (F : fn) st, 0 <= mu -> strongly_convex_member mu F ->
      par_is st 1 mu -> wf_state st ->
      (forall s, In s (f_points st) -> genuine_sub F (sval s)) ->
      ok (run_plan plan st).

  Lemma c03_StronglyConvexFunction : stmt_StronglyConvexFunction plan_StronglyConvexFunction.
  Proof.
    intros mu F st Hmu HF Hp Hwf Hpts. destruct Hp. c03_plan.
    exact (pairs_ok (fun xi _ fi xj gj fj => ref_strongly_convex _ xi xj gj fi fj) Hwf Hpts Hpts
                    (fun _ _ => feq_strongly_convex _ _ _) (mem_strongly_convex _ F Hmu HF)).
  Qed.

  Definition stmt_ConvexLipschitzFunction (plan : list plan_item) : Prop :=
    forall (M : R) (F : fn) st, 0 <= M -> lipschitz_fn M F ->
      par_is st 2 M -> wf_state st ->
      (forall s, In s (f_points st) -> genuine_sub F (sval s)) ->
      ok (run_plan plan st).

  Lemma c03_ConvexLipschitzFunction : stmt_ConvexLipschitzFunction plan_ConvexLipschitzFunction.
  Proof.
    intros M F st HM HF Hp Hwf Hpts. destruct Hp. c03_plan.
    - exact (singles_ok (fun _ gi _ => ref_bounded_g _ gi) Hwf Hpts
                        (fun _ => feq_clip_bound _ _ _) (mem_lipschitz_bound _ F HF)).
    - exact (pairs_ok (fun xi _ fi xj gj fj => ref_convex xi xj gj fi fj) Hwf Hpts Hpts
                      (fun _ _ => feq_clip_convex _ _ _) (mem_convex F)).
  Qed.

  (** ConvexIndicatorFunction(D): [D = None] is [D = np.inf] (the plan's guard then removes the
      diameter conditions) *)
  Definition stmt_ConvexIndicatorFunction (plan : list plan_item) : Prop :=
    forall (D : option R) (F : fn) st, indicator_member D F ->
      opt_par_is st 3 D -> wf_state st ->
      (forall s, In s (f_points st) -> genuine_sub F (sval s)) ->
      ok (run_plan plan st).

  Lemma c03_ConvexIndicatorFunction : stmt_ConvexIndicatorFunction plan_ConvexIndicatorFunction.
  Proof.
    intros D F st HF HpD Hwf Hpts. c03_plan.
    - exact (singles_ok (fun _ _ fi => ref_ind_value fi) Hwf Hpts
                        (fun _ => feq_ind_value _ _ _) (mem_ind_value D F HF)).
    - exact (pairs_ok (fun xi _ _ xj gj _ => ref_ind_normal xi xj gj) Hwf Hpts Hpts
                      (fun _ _ => feq_ind_normal _ _ _) (mem_ind_normal D F HF)).
    - intros Hg. destruct (guard_finite_Some st 3 D HpD Hg) as (d & -> & <-).
      exact (pairs_ok (fun xi _ _ xj _ _ => ref_diameter _ xi xj) Hwf Hpts Hpts
                      (fun _ _ => feq_ind_diameter _ _ _) (mem_ind_diameter _ F HF)).
  Qed.

  (** ConvexSupportFunction(M): the support function sigma of a set C inside the ball of radius M
      ([M = None]: no bound); a sample is (x, g, sigma x) with g a maximiser of <., x> over C *)
  Definition stmt_ConvexSupportFunction (plan : list plan_item) : Prop :=
    forall (M : option R) (C : E -> Prop) (sigma : E -> R) st, support_member M C sigma ->
      opt_par_is st 2 M -> wf_state st ->
      (forall s, In s (f_points st) -> genuine_support C sigma (sval s)) ->
      ok (run_plan plan st).

  Lemma c03_ConvexSupportFunction : stmt_ConvexSupportFunction plan_ConvexSupportFunction.
  Proof.
    intros M C sigma st HF HpM Hwf Hpts. c03_plan.
    - exact (singles_ok ref_sup_fenchel Hwf Hpts (fun _ => feq_sup_fenchel _ _ _) (mem_sup_fenchel C sigma)).
    - intros Hg. destruct (guard_finite_Some st 2 M HpM Hg) as (m & -> & <-).
      exact (singles_ok (fun _ gi _ => ref_bounded_g _ gi) Hwf Hpts
                        (fun _ => feq_sup_bound _ _ _) (mem_sup_bound _ C sigma HF)).
    - exact (pairs_ok (fun _ gi _ xj gj _ => ref_sup_convex xj gi gj) Hwf Hpts Hpts
                      (fun _ _ => feq_sup_convex _ _ _) (mem_sup_convex M C sigma HF)).
  Qed.

  (** ConvexQGFunction(L).  The plan starts with [AutoStationary]: when no stationary point was
      recorded PEPit declares one itself.  The hypotheses therefore speak about the state the
      generator really works on, [start_state plan st]: it is [st] when a stationary sample was
      recorded, and [st] plus [fresh_stationary st] (fresh leaf point, empty gradient, fresh leaf
      value) otherwise -- so in the automatic case the valuation of the two fresh leaves is
      quantified too, under the hypothesis that the fresh point is valued at a minimiser and the
      fresh expression at its value.  A stationary sample is a minimiser: 0 is a subgradient there. *)
  Definition stmt_ConvexQGFunction (plan : list plan_item) : Prop :=
    forall (L : R) (F : fn) st, 0 < L -> qg_member L F ->
      par_is st 0 L -> wf_state st ->
      (forall s, In s (f_points (start_state plan st)) -> genuine_sub F (sval s)) ->
      (forall s, In s (f_stat (start_state plan st)) -> genuine_sub F (px s, vzero, pf s)) ->
      ok (run_plan plan st).

  Lemma c03_ConvexQGFunction : stmt_ConvexQGFunction plan_ConvexQGFunction.
  Proof.
    intros L F st HL HF HpL Hwf Hpts Hstat.
    apply wf_start_state with (plan := plan_ConvexQGFunction) in Hwf.
    apply start_state_par with (plan := plan_ConvexQGFunction) in HpL. destruct HpL.
    c03_plan.
    - exact I.
    - exact (pairs_ok (G1 := fun t => genuine_sub F (fst (fst t), vzero, snd t))
                      (fun xi _ fi xj gj fj => ref_qg _ xi xj gj fi fj) Hwf Hstat Hpts
                      (fun _ _ => feq_qg_qg _ _ _ (Rgt_not_eq _ _ HL)) (mem_qg _ F HL HF)).
    - exact (pairs_ok (fun xi _ fi xj gj fj => ref_convex xi xj gj fi fj) Hwf Hpts Hpts
                      (fun _ _ => feq_qg_convex _ _ _) (mem_convex F)).
  Qed.

  (** ... a stationary point was recorded (PEPit creates nothing): hypotheses about [st] itself *)
  Corollary c03_ConvexQGFunction_recorded (L : R) (F : fn) st :
    0 < L -> qg_member L F -> par_is st 0 L -> wf_state st -> f_stat st <> [] ->
    (forall s, In s (f_points st) -> genuine_sub F (sval s)) ->
    (forall s, In s (f_stat st) -> genuine_sub F (px s, vzero, pf s)) ->
    ok (run_plan plan_ConvexQGFunction st).
  Proof.
    intros HL HF HpL Hwf Hne Hpts Hstat. apply (c03_ConvexQGFunction L F st HL HF HpL Hwf);
      rewrite (start_state_recorded _ st Hne); assumption.
  Qed.

  (** ... none was recorded: PEPit declares [fresh_stationary st]; the fresh leaf point must be valued
      at a minimiser of F and the fresh leaf expression at its value *)
  Corollary c03_ConvexQGFunction_auto (L : R) (F : fn) st :
    0 < L -> qg_member L F -> par_is st 0 L -> wf_state st -> f_stat st = [] ->
    (forall s, In s (f_points st) -> genuine_sub F (sval s)) ->
    genuine_sub F (px (fresh_stationary st), vzero, pf (fresh_stationary st)) ->
    ok (run_plan plan_ConvexQGFunction st).
  Proof.
    intros HL HF HpL Hwf He Hpts Hfresh. apply (c03_ConvexQGFunction L F st HL HF HpL Hwf).
    - exact (start_state_list _ st LPoints (fun s => genuine_sub F (sval s)) Hpts Hfresh).
    - exact (start_state_auto_stat _ st (fun s => genuine_sub F (px s, vzero, pf s)) He Hfresh).
  Qed.

  Definition stmt_SmoothConvexFunction (plan : list plan_item) : Prop :=
    forall (L : R) (F : dfn) st, 0 < L -> smooth_convex_member L F ->
      par_is st 0 L -> wf_state st ->
      (forall s, In s (f_points st) -> genuine_grad F (sval s)) ->
      ok (run_plan plan st).

  Lemma c03_SmoothConvexFunction : stmt_SmoothConvexFunction plan_SmoothConvexFunction.
  Proof.
    intros L F st HL HF Hp Hwf Hpts. destruct Hp. c03_plan.
    exact (pairs_ok (fun xi gi fi xj gj fj => ref_smooth_convex _ xi gi xj gj fi fj) Hwf Hpts Hpts
                    (fun _ _ => feq_smooth_convex _ _ _ (Rgt_not_eq _ _ HL)) (mem_smooth_convex _ F HL HF)).
  Qed.

  Definition stmt_SmoothFunction (plan : list plan_item) : Prop :=
    forall (L : R) (F : dfn) st, 0 < L -> smooth_member L F ->
      par_is st 0 L -> wf_state st ->
      (forall s, In s (f_points st) -> genuine_grad F (sval s)) ->
      ok (run_plan plan st).

  Lemma c03_SmoothFunction : stmt_SmoothFunction plan_SmoothFunction.
  Proof.
    intros L F st HL HF Hp Hwf Hpts. destruct Hp. c03_plan.
    exact (pairs_ok (fun xi gi fi xj gj fj => ref_smooth _ xi gi xj gj fi fj) Hwf Hpts Hpts
                    (fun _ _ => feq_smooth _ _ _ (Rgt_not_eq _ _ HL)) (mem_smooth _ F HL HF)).
  Qed.

  Definition stmt_SmoothStronglyConvexFunction (plan : list plan_item) : Prop :=
    forall (mu L : R) (F : dfn) st, 0 <= mu < L -> smooth_strongly_convex_member mu L F ->
      par_is st 0 L -> par_is st 1 mu -> wf_state st ->
      (forall s, In s (f_points st) -> genuine_grad F (sval s)) ->
      ok (run_plan plan st).

  Lemma c03_SmoothStronglyConvexFunction : stmt_SmoothStronglyConvexFunction plan_SmoothStronglyConvexFunction.
  Proof.
    intros mu L F st HmuL HF Hp Hq Hwf Hpts. destruct Hp, Hq. c03_plan.
    exact (pairs_ok (fun xi gi fi xj gj fj => ref_smooth_strongly_convex _ _ xi gi xj gj fi fj) Hwf Hpts Hpts
                    (fun _ _ => feq_ssc _ _ _ (Rgt_not_eq _ _ (Rle_lt_trans _ _ _ (proj1 HmuL) (proj2 HmuL)))
                                        (Rlt_not_eq _ _ (proj2 HmuL)))
                    (mem_smooth_strongly_convex _ _ F HmuL HF)).
  Qed.

  Definition stmt_SmoothConvexLipschitzFunction (plan : list plan_item) : Prop :=
    forall (L M : R) (F : dfn) st, 0 < L -> 0 <= M -> smooth_convex_lipschitz_member L M F ->
      par_is st 0 L -> par_is st 2 M -> wf_state st ->
      (forall s, In s (f_points st) -> genuine_grad F (sval s)) ->
      ok (run_plan plan st).

  Lemma c03_SmoothConvexLipschitzFunction : stmt_SmoothConvexLipschitzFunction plan_SmoothConvexLipschitzFunction.
  Proof.
    intros L M F st HL HM HF Hp Hq Hwf Hpts. destruct Hp, Hq. c03_plan.
    - exact (pairs_ok (fun xi gi fi xj gj fj => ref_smooth_convex _ xi gi xj gj fi fj) Hwf Hpts Hpts
                      (fun _ _ => feq_scl_smooth_convex _ _ _ (Rgt_not_eq _ _ HL))
                      (mem_smooth_convex _ F HL (proj1 HF))).
    - exact (singles_ok (fun _ gi _ => ref_bounded_g _ gi) Hwf Hpts
                        (fun _ => feq_scl_bound _ _ _) (mem_scl_bound _ _ F HF)).
  Qed.

  (** RsiEbFunction(mu, L).  [rsi_eb_member mu L F xs] is relative to ONE stationary point xs
      (restricted secant inequality and error bound around xs).  PEPit instantiates both conditions on
      every pair (stationary sample, sample), so the theorem is stated under the guard that F is a
      member relative to the value of EVERY recorded stationary sample -- in particular when all
      stationary samples are valued at the member's xs ([c03_RsiEbFunction_one_xs]).  (With two
      stationary samples valued at different minimisers of a function satisfying RSI/EB around only
      one of them the generated constraints do exclude the function; whether that use is admissible
      is not settled by the documentation, see DESIGN.md 5.3.)
      As for ConvexQGFunction the hypotheses speak about [start_state plan st] (automatic stationary
      point); no range restriction on mu, L is needed. *)
  Definition stmt_RsiEbFunction (plan : list plan_item) : Prop :=
    forall (mu L : R) (F : dfn) st,
      par_is st 0 L -> par_is st 1 mu -> wf_state st ->
      (forall s, In s (f_stat (start_state plan st)) -> rsi_eb_member mu L F (px s)) ->
      (forall s, In s (f_points (start_state plan st)) -> genuine_grad F (sval s)) ->
      (forall s, In s (f_stat (start_state plan st)) -> genuine_grad F (sval s)) ->
      ok (run_plan plan st).

  Lemma c03_RsiEbFunction : stmt_RsiEbFunction plan_RsiEbFunction.
  Proof.
    intros mu L F st HpL Hpmu Hwf Hmem Hpts Hstat.
    apply wf_start_state with (plan := plan_RsiEbFunction) in Hwf.
    apply start_state_par with (plan := plan_RsiEbFunction) in HpL, Hpmu. destruct HpL, Hpmu.
    pose proof (fun s Hs => conj (Hmem s Hs) (Hstat s Hs)) as Hstat'.
    c03_plan.
    - exact I.
    - exact (pairs_xg_ok (G1 := fun t => rsi_eb_member _ _ F (fst (fst t)) /\ genuine_grad F t)
                         (ref_strong_monotone _) Hwf Hstat' Hpts
                         (fun _ _ => feq_rsi _ _ _) (mem_rsi_strong_monotone _ _ F)).
    - exact (pairs_xg_ok (G1 := fun t => rsi_eb_member _ _ F (fst (fst t)) /\ genuine_grad F t)
                         (ref_lipschitz _) Hwf Hstat' Hpts
                         (fun _ _ => feq_eb _ _ _) (mem_rsi_lipschitz _ _ F)).
  Qed.

  Corollary c03_RsiEbFunction_one_xs (mu L : R) (F : dfn) (xs : E) st :
    rsi_eb_member mu L F xs ->
    par_is st 0 L -> par_is st 1 mu -> wf_state st -> f_stat st <> [] ->
    (forall s, In s (f_stat st) -> px s = xs) ->
    (forall s, In s (f_points st) -> genuine_grad F (sval s)) ->
    (forall s, In s (f_stat st) -> genuine_grad F (sval s)) ->
    ok (run_plan plan_RsiEbFunction st).
  Proof.
    intros HF HpL Hpmu Hwf Hne Hxs Hpts Hstat. apply (c03_RsiEbFunction mu L F st HpL Hpmu Hwf);
      rewrite (start_state_recorded _ st Hne); try assumption.
    intros s Hs. rewrite (Hxs s Hs). exact HF.
  Qed.

  Corollary c03_RsiEbFunction_auto (mu L : R) (F : dfn) st :
    rsi_eb_member mu L F (px (fresh_stationary st)) ->
    par_is st 0 L -> par_is st 1 mu -> wf_state st -> f_stat st = [] ->
    (forall s, In s (f_points st) -> genuine_grad F (sval s)) ->
    genuine_grad F (sval (fresh_stationary st)) ->
    ok (run_plan plan_RsiEbFunction st).
  Proof.
    intros HF HpL Hpmu Hwf He Hpts Hfresh. apply (c03_RsiEbFunction mu L F st HpL Hpmu Hwf).
    - exact (start_state_auto_stat _ st (fun s => rsi_eb_member mu L F (px s)) He HF).
    - exact (start_state_list _ st LPoints (fun s => genuine_grad F (sval s)) Hpts Hfresh).
    - exact (start_state_auto_stat _ st (fun s => genuine_grad F (sval s)) He Hfresh).
  Qed.

  (** SmoothStronglyConvexQuadraticFunction(mu, L): F x = fs + 1/2 <x - xs, Q (x - xs)> with Q linear
      self-adjoint, mu |u|^2 <= <Q u, u> <= L |u|^2; xs, fs are the values of the first stationary
      sample ([self.list_of_stationary_points[0]], created by the constructor), which the formulas
      refer to.  No range restriction on mu, L beyond the member's own. *)
  Definition stmt_SmoothStronglyConvexQuadraticFunction (plan : list plan_item) : Prop :=
    forall (mu L : R) (Q : E -> E) st, sa_bounded mu L Q ->
      par_is st 0 L -> par_is st 1 mu -> wf_state st ->
      (forall s, In s (f_points st) -> genuine_quad Q (stat_x rho st) (stat_f rho phi st) (sval s)) ->
      ok (run_plan plan st).

  Lemma c03_SmoothStronglyConvexQuadraticFunction :
    stmt_SmoothStronglyConvexQuadraticFunction plan_SmoothStronglyConvexQuadraticFunction.
  Proof.
    intros mu L Q st HQ Hp Hq Hwf Hpts. destruct Hp, Hq. c03_plan.
    - exact (singles_ok (fun xi gi fi => ref_quad_value xi gi (stat_x rho st) fi (stat_f rho phi st)) Hwf Hpts
                        (fun _ => feq_quad_value _ _ _) (mem_quad_value Q _ _)).
    - exact (pairs_xg_ok (fun xi gi xj gj => ref_quad_sym xi gi xj gj (stat_x rho st)) Hwf Hpts Hpts
                      (fun _ _ => feq_quad_sym _ _ _) (mem_quad_sym _ _ Q _ _ HQ)).
    - exact (lmi_item_ok (fun xi gi xj gj => ref_quad_lmi _ _ xi gi xj gj (stat_x rho st)) Hwf Hpts
                         (fun _ _ => feq_quad_lmi _ _ _) (mem_quad_lmi _ _ Q _ _ HQ)).
  Qed.

  Definition stmt_MonotoneOperator (plan : list plan_item) : Prop :=
    forall (A : graph) st, monotone_op A -> wf_state st ->
      (forall s, In s (f_points st) -> genuine_op A (sval s)) ->
      ok (run_plan plan st).

  Lemma c03_MonotoneOperator : stmt_MonotoneOperator plan_MonotoneOperator.
  Proof.
    intros A st HA Hwf Hpts. c03_plan.
    exact (pairs_xg_ok ref_monotone Hwf Hpts Hpts
                    (fun _ _ => feq_monotone _ _ _) (mem_monotone A HA)).
  Qed.

  Definition stmt_StronglyMonotoneOperator (plan : list plan_item) : Prop :=
    forall (mu : R) (A : graph) st, strongly_monotone_op mu A -> par_is st 1 mu -> wf_state st ->
      (forall s, In s (f_points st) -> genuine_op A (sval s)) ->
      ok (run_plan plan st).

  Lemma c03_StronglyMonotoneOperator : stmt_StronglyMonotoneOperator plan_StronglyMonotoneOperator.
  Proof.
    intros mu A st HA Hp Hwf Hpts. destruct Hp. c03_plan.
    exact (pairs_xg_ok (ref_strong_monotone _) Hwf Hpts Hpts
                    (fun _ _ => feq_strongly_monotone _ _ _) (mem_strong_monotone _ A HA)).
  Qed.

  Definition stmt_CocoerciveOperator (plan : list plan_item) : Prop :=
    forall (beta : R) (A : graph) st, cocoercive_op beta A -> par_is st 4 beta -> wf_state st ->
      (forall s, In s (f_points st) -> genuine_op A (sval s)) ->
      ok (run_plan plan st).

  Lemma c03_CocoerciveOperator : stmt_CocoerciveOperator plan_CocoerciveOperator.
  Proof.
    intros beta A st HA Hp Hwf Hpts. destruct Hp. c03_plan.
    exact (pairs_xg_ok (ref_cocoercive _) Hwf Hpts Hpts
                    (fun _ _ => feq_cocoercive _ _ _) (mem_cocoercive _ A HA)).
  Qed.

  Definition stmt_NegativelyComonotoneOperator (plan : list plan_item) : Prop :=
    forall (rh : R) (A : graph) st, neg_comonotone_op rh A -> par_is st 5 rh -> wf_state st ->
      (forall s, In s (f_points st) -> genuine_op A (sval s)) ->
      ok (run_plan plan st).

  Lemma c03_NegativelyComonotoneOperator : stmt_NegativelyComonotoneOperator plan_NegativelyComonotoneOperator.
  Proof.
    intros rh A st HA Hp Hwf Hpts. destruct Hp. c03_plan.
    exact (pairs_xg_ok (ref_neg_comonotone _) Hwf Hpts Hpts
                    (fun _ _ => feq_neg_comonotone _ _ _) (mem_neg_comonotone _ A HA)).
  Qed.

  Definition stmt_LipschitzOperator (plan : list plan_item) : Prop :=
    forall (L : R) (A : graph) st, lipschitz_op L A -> par_is st 0 L -> wf_state st ->
      (forall s, In s (f_points st) -> genuine_op A (sval s)) ->
      ok (run_plan plan st).

  Lemma c03_LipschitzOperator : stmt_LipschitzOperator plan_LipschitzOperator.
  Proof.
    intros L A st HA Hp Hwf Hpts. destruct Hp. c03_plan.
    exact (pairs_xg_ok (ref_lipschitz _) Hwf Hpts Hpts
                    (fun _ _ => feq_lipschitz _ _ _) (mem_lipschitz _ A HA)).
  Qed.

  Definition stmt_LipschitzStronglyMonotoneOperator (plan : list plan_item) : Prop :=
    forall (mu L : R) (A : graph) st, lipschitz_strongly_monotone_op mu L A ->
      par_is st 0 L -> par_is st 1 mu -> wf_state st ->
      (forall s, In s (f_points st) -> genuine_op A (sval s)) ->
      ok (run_plan plan st).

  Lemma c03_LipschitzStronglyMonotoneOperator :
    stmt_LipschitzStronglyMonotoneOperator plan_LipschitzStronglyMonotoneOperator.
  Proof.
    intros mu L A st HA Hp Hq Hwf Hpts. destruct Hp, Hq. c03_plan.
    - exact (pairs_xg_ok (ref_strong_monotone _) Hwf Hpts Hpts
                      (fun _ _ => feq_lsm_strong _ _ _) (mem_strong_monotone _ A (proj1 HA))).
    - exact (pairs_xg_ok (ref_lipschitz _) Hwf Hpts Hpts
                      (fun _ _ => feq_lsm_lipschitz _ _ _) (mem_lipschitz _ A (proj2 HA))).
  Qed.

  Definition stmt_CocoerciveStronglyMonotoneOperator (plan : list plan_item) : Prop :=
    forall (mu beta : R) (A : graph) st, cocoercive_strongly_monotone_op mu beta A ->
      par_is st 1 mu -> par_is st 4 beta -> wf_state st ->
      (forall s, In s (f_points st) -> genuine_op A (sval s)) ->
      ok (run_plan plan st).

  Lemma c03_CocoerciveStronglyMonotoneOperator :
    stmt_CocoerciveStronglyMonotoneOperator plan_CocoerciveStronglyMonotoneOperator.
  Proof.
    intros mu beta A st HA Hp Hq Hwf Hpts. destruct Hp, Hq. c03_plan.
    - exact (pairs_xg_ok (ref_cocoercive _) Hwf Hpts Hpts
                      (fun _ _ => feq_csm_cocoercive _ _ _) (mem_cocoercive _ A (proj2 HA))).
    - exact (pairs_xg_ok (ref_strong_monotone _) Hwf Hpts Hpts
                      (fun _ _ => feq_csm_strong _ _ _) (mem_strong_monotone _ A (proj1 HA))).
  Qed.

  (** NonexpansiveOperator, with or without a declared infimal displacement vector: when
      [self.v] is set ([f_v st = Some d]) its value must be the infimal displacement vector of A *)
  Definition stmt_NonexpansiveOperator (plan : list plan_item) : Prop :=
    forall (A : graph) st, nonexpansive_op A ->
      (forall d, f_v st = Some d -> inf_displacement A (evalP rho d)) ->
      wf_state st ->
      (forall s, In s (f_points st) -> genuine_op A (sval s)) ->
      ok (run_plan plan st).

  Lemma c03_NonexpansiveOperator : stmt_NonexpansiveOperator plan_NonexpansiveOperator.
  Proof.
    intros A st HA Hv Hwf Hpts. c03_plan.
    - exact (pairs_xg_ok ref_nonexpansive Hwf Hpts Hpts
                      (fun _ _ => feq_nonexpansive _ _ _) (mem_nonexpansive A HA)).
    - intros Hg. destruct (guard_v_Some st Hg) as [d Ed].
      assert (HAv : nonexpansive_with_displacement A (v_val rho st)).
      { split; [exact HA|]. unfold v_val. rewrite Ed. exact (Hv d Ed). }
      exact (singles_ok (fun xi gi _ => ref_inf_displacement (v_val rho st) xi gi) Hwf Hpts
                        (fun _ => feq_inf_displacement _ _ _) (mem_inf_displacement A _ HAv)).
  Qed.

  (** LinearOperator(L): samples of M on the operator, samples of its transpose Mt on [self.T] *)
  Definition stmt_LinearOperator (plan : list plan_item) : Prop :=
    forall (L : R) (M Mt : E -> E) st, bounded_pair L M Mt -> par_is st 0 L -> wf_state st ->
      (forall s, In s (f_points st) -> genuine_lin M (sval s)) ->
      (forall s, In s (f_tpoints st) -> genuine_lin Mt (sval s)) ->
      ok (run_plan plan st).

  Lemma c03_LinearOperator : stmt_LinearOperator plan_LinearOperator.
  Proof.
    intros L M Mt st HB Hp Hwf Hpts Htpts. destruct Hp. c03_plan.
    - exact (pairs_xg_ok ref_lin_adjoint Hwf Hpts Htpts
                      (fun _ _ => feq_lin_adjoint _ _ _) (mem_lin_adjoint _ M Mt HB)).
    - exact (fun _ => lmi_item_ok (ref_lin_lmi _) Hwf Hpts
                                  (fun _ _ => feq_lin_lmi1 _ _ _) (mem_lin_lmi _ M (bp_lin _ _ _ HB) (bp_bound _ _ _ HB))).
    - exact (fun _ => lmi_item_ok (ref_lin_lmi _) Hwf Htpts
                                  (fun _ _ => feq_lin_lmi2 _ _ _) (mem_lin_lmi _ Mt (bp_lint _ _ _ HB) (bp_boundt _ _ _ HB))).
  Qed.

  Definition stmt_SkewSymmetricLinearOperator (plan : list plan_item) : Prop :=
    forall (L : R) (A : E -> E) st, skew_bounded L A -> par_is st 0 L -> wf_state st ->
      (forall s, In s (f_points st) -> genuine_lin A (sval s)) ->
      ok (run_plan plan st).

  Lemma c03_SkewSymmetricLinearOperator : stmt_SkewSymmetricLinearOperator plan_SkewSymmetricLinearOperator.
  Proof.
    intros L A st HA Hp Hwf Hpts. destruct Hp. c03_plan.
    - exact (pairs_xg_ok ref_skew Hwf Hpts Hpts
                      (fun _ _ => feq_skew _ _ _) (mem_skew _ A HA)).
    - exact (fun _ => lmi_item_ok (ref_lin_lmi _) Hwf Hpts
                                  (fun _ _ => feq_skew_lmi _ _ _) (mem_lin_lmi _ A (sk_lin _ _ HA) (sk_bound _ _ HA))).
  Qed.

  Definition stmt_SymmetricLinearOperator (plan : list plan_item) : Prop :=
    forall (mu L : R) (Q : E -> E) st, sa_bounded mu L Q -> par_is st 0 L -> par_is st 1 mu -> wf_state st ->
      (forall s, In s (f_points st) -> genuine_lin Q (sval s)) ->
      ok (run_plan plan st).

  Lemma c03_SymmetricLinearOperator : stmt_SymmetricLinearOperator plan_SymmetricLinearOperator.
  Proof.
    intros mu L Q st HQ Hp Hq Hwf Hpts. destruct Hp, Hq. c03_plan.
    - exact (pairs_xg_ok ref_sym Hwf Hpts Hpts
                      (fun _ _ => feq_sym _ _ _) (mem_sym _ _ Q HQ)).
    - exact (fun _ => lmi_item_ok (ref_sym_lmi _ _) Hwf Hpts
                                  (fun _ _ => feq_sym_lmi _ _ _) (mem_sym_lmi _ _ Q HQ)).
  Qed.

  (** BlockSmoothConvexFunction(partition, [L_0 .. L_{K-1}]):
      K = [f_nblocks st] blocks; the partition is a family of block projections P_0 .. P_{K-1}
      ([block_projections], Spec/Classes.v: on R^d the coordinate-block projections); each recorded
      sample carries the K blocks of its gradient ([s_gblocks], what [partition.get_block(g, k)]
      returned) and block k is valued at [P k (value of g)]; [self.L[k]] ([f_Lk st k], variable
      [SPar 6] of the formula) is the smoothness constant L_k along block k.  The generator emits the
      formula once per ordered pair of samples and per block k: the theorem covers every block. *)
  Definition stmt_BlockSmoothConvexFunction (plan : list plan_item) : Prop :=
    forall (P : nat -> E -> E) (Ls : nat -> R) (F : dfn) st,
      block_smooth_convex_member (f_nblocks st) P Ls F ->
      (forall k, (k < f_nblocks st)%nat -> 0 < Ls k /\ Q2R (f_Lk st k) = Ls k) ->
      wf_state st -> wf_blocks st ->
      (forall s, In s (f_points st) -> genuine_grad F (sval s)) ->
      (forall s k, In s (f_points st) -> (k < f_nblocks st)%nat -> veq (pgk rho k s) (P k (pg s))) ->
      ok (run_plan plan st).

  Lemma c03_BlockSmoothConvexFunction : stmt_BlockSmoothConvexFunction plan_BlockSmoothConvexFunction.
  Proof.
    intros P Ls F st HF HLs Hwf Hblk Hpts Hproj. c03_plan.
    intros si sj k Hi Hj Hk. destruct (HLs k Hk) as [HLpos HLeq].
    refine (instB_holds_ref rho phi st _ k si sj _ _ Hwf (proj1 Hwf si Hi) (proj1 Hwf sj Hj)
                            (Hblk si k Hi) (Hblk sj k Hj) (feq_block_smooth _ _ _ _) _).
    - change (Q2R (f_Lk st k) <> 0). rewrite HLeq. exact (Rgt_not_eq _ _ HLpos).
    - change (ref_block_smooth (Q2R (f_Lk st k)) (px si) (px sj) (pg sj) (pgk rho k si) (pgk rho k sj) (pf si) (pf sj) <= 0).
      rewrite HLeq, (ref_block_smooth_veq (Ls k) _ _ _ _ _ _ _ _ _ (Hproj si k Hi Hk) (Hproj sj k Hj Hk)).
      exact (mem_block_smooth _ P Ls F k _ _ _ _ _ _ Hk HLpos HF (Hpts si Hi) (Hpts sj Hj)).
  Qed.
End C03.

Section Table.
  Context {E : ips}.
  Variable rho : nat -> E.
  Variable phi : nat -> R.

  Definition c03_table : list (string * (list plan_item -> Prop)) :=
    [("BlockSmoothConvexFunction", stmt_BlockSmoothConvexFunction rho phi);
     ("ConvexFunction", stmt_ConvexFunction rho phi);
     ("ConvexIndicatorFunction", stmt_ConvexIndicatorFunction rho phi);
     ("ConvexLipschitzFunction", stmt_ConvexLipschitzFunction rho phi);
     ("ConvexQGFunction", stmt_ConvexQGFunction rho phi);
     ("ConvexSupportFunction", stmt_ConvexSupportFunction rho phi);
     ("RsiEbFunction", stmt_RsiEbFunction rho phi);
     ("SmoothConvexFunction", stmt_SmoothConvexFunction rho phi);
     ("SmoothConvexLipschitzFunction", stmt_SmoothConvexLipschitzFunction rho phi);
     ("SmoothFunction", stmt_SmoothFunction rho phi);
     ("SmoothStronglyConvexFunction", stmt_SmoothStronglyConvexFunction rho phi);
     ("SmoothStronglyConvexQuadraticFunction", stmt_SmoothStronglyConvexQuadraticFunction rho phi);
     ("StronglyConvexFunction", stmt_StronglyConvexFunction rho phi);
     ("CocoerciveOperator", stmt_CocoerciveOperator rho phi);
     ("CocoerciveStronglyMonotoneOperator", stmt_CocoerciveStronglyMonotoneOperator rho phi);
     ("LinearOperator", stmt_LinearOperator rho phi);
     ("LipschitzOperator", stmt_LipschitzOperator rho phi);
     ("LipschitzStronglyMonotoneOperator", stmt_LipschitzStronglyMonotoneOperator rho phi);
     ("MonotoneOperator", stmt_MonotoneOperator rho phi);
     ("NegativelyComonotoneOperator", stmt_NegativelyComonotoneOperator rho phi);
     ("NonexpansiveOperator", stmt_NonexpansiveOperator rho phi);
     ("SkewSymmetricLinearOperator", stmt_SkewSymmetricLinearOperator rho phi);
     ("StronglyMonotoneOperator", stmt_StronglyMonotoneOperator rho phi);
     ("SymmetricLinearOperator", stmt_SymmetricLinearOperator rho phi)]%string.

  (** the statement proved for class [name]; [False] for a class without a theorem *)
  Fixpoint c03_lookup (name : string) (tbl : list (string * (list plan_item -> Prop))) : list plan_item -> Prop :=
    match tbl with
    | [] => fun _ => False
    | (n, stmt) :: tbl' => if String.eqb n name then stmt else c03_lookup name tbl'
    end.

  Definition c03_statement (name : string) (plan : list plan_item) : Prop := c03_lookup name c03_table plan.
End Table.

(** the classes covered are exactly the classes the translator found in /repo *)
Lemma c03_covered_classes {E : ips} (rho : nat -> E) phi :
  map fst (c03_table rho phi) = translated_classes /\ map fst all_plans = translated_classes.
Proof. split; reflexivity. Qed.

(** [nth i l] is [x] when [i = 0]: close that case by [H], go on with the tail *)
Ltac nth_case i H := destruct i as [|i]; [exact H|].

(** every translated class has its theorem, about the plan generated for it *)
Theorem c03_all_classes {E : ips} (rho : nat -> E) phi name plan :
  In (name, plan) all_plans -> c03_statement rho phi name plan.
Proof.
  intros Hin. destruct (In_nth _ _ (EmptyString, []) Hin) as (i & Hi & Hnth).
  change (c03_statement rho phi (fst (name, plan)) (snd (name, plan))). rewrite <- Hnth. clear Hin Hnth.
  (* by position: the i-th plan is the plan of the i-th theorem, and looking its name up in the table
     computes to that theorem's statement.  (Taking the literal list apart entry by entry instead
     makes every step carry all remaining names, which is slow to check.) *)
  nth_case i (c03_BlockSmoothConvexFunction rho phi).
  nth_case i (c03_ConvexFunction rho phi).
  nth_case i (c03_ConvexIndicatorFunction rho phi).
  nth_case i (c03_ConvexLipschitzFunction rho phi).
  nth_case i (c03_ConvexQGFunction rho phi).
  nth_case i (c03_ConvexSupportFunction rho phi).
  nth_case i (c03_RsiEbFunction rho phi).
  nth_case i (c03_SmoothConvexFunction rho phi).
  nth_case i (c03_SmoothConvexLipschitzFunction rho phi).
  nth_case i (c03_SmoothFunction rho phi).
  nth_case i (c03_SmoothStronglyConvexFunction rho phi).
  nth_case i (c03_SmoothStronglyConvexQuadraticFunction rho phi).
  nth_case i (c03_StronglyConvexFunction rho phi).
  nth_case i (c03_CocoerciveOperator rho phi).
  nth_case i (c03_CocoerciveStronglyMonotoneOperator rho phi).
  nth_case i (c03_LinearOperator rho phi).
  nth_case i (c03_LipschitzOperator rho phi).
  nth_case i (c03_LipschitzStronglyMonotoneOperator rho phi).
  nth_case i (c03_MonotoneOperator rho phi).
  nth_case i (c03_NegativelyComonotoneOperator rho phi).
  nth_case i (c03_NonexpansiveOperator rho phi).
  nth_case i (c03_SkewSymmetricLinearOperator rho phi).
  nth_case i (c03_StronglyMonotoneOperator rho phi).
  nth_case i (c03_SymmetricLinearOperator rho phi).
  exfalso. do 24 apply Nat.succ_lt_mono in Hi. exact (Nat.nlt_0_r _ Hi).
Qed.
