(** Running a recorded method in a world.  Two invariants, each kept by every step of a
    well-formed program: every recorded sample is a genuine sample of its function ([Inv]) and every constraint a
    step added holds ([CInv]), at the values the run gives the leaves.  Both rest on the same two facts: a fresh
    leaf is valued by the world's output at the value of the evaluated point, and a later step never changes the
    value of an earlier leaf. *)
From Coq Require Import List Reals Qreals Lra Lia.
From PV Require Import Base.IPS Model.Dict Model.Terms Model.Method Spec.Sem Spec.World Proofs.DictLemmas Proofs.SemLemmas.
Import ListNotations.
Local Open Scope R_scope.

(** ** the checks of [op_wf] *)
Lemma qpos_pos q : qpos q = true -> 0 < Q2R q.
Proof.
  unfold qpos. intros H. apply Z.ltb_lt in H.
  assert (HQ : (0 < q)%Q) by (unfold Qlt; cbn; lia).
  apply Qlt_Rlt in HQ. rewrite Q2R_0 in HQ. exact HQ.
Qed.

Lemma qpos_nz gamma : 0 < Q2R gamma -> ~ (gamma == 0)%Q.
Proof. intros Hg Hz. apply Qeq_eqR in Hz. rewrite Q2R_0 in Hz. lra. Qed.

Lemma nodupb_NoDup l : nodupb l = true -> NoDup l.
Proof.
  induction l as [|k l IH]; cbn [nodupb]; intros H; [constructor|].
  apply andb_prop in H as [H1 H2]. constructor; [|exact (IH H2)].
  intros Hin. apply negb_true_iff in H1. assert (Hex : existsb (Nat.eqb k) l = true).
  { apply existsb_exists. exists k. split; [exact Hin|apply Nat.eqb_refl]. }
  congruence.
Qed.

Lemma keys_below_iff n (p : pdict) : keys_below n p = true <-> forall k, In k (keys p) -> (k < n)%nat.
Proof.
  unfold keys_below, keys. rewrite forallb_forall. split.
  - intros H k Hk. apply in_map_iff in Hk as [[k' q] [<- Hin]]. specialize (H _ Hin). cbn in H.
    apply Nat.ltb_lt. exact H.
  - intros H [k q] Hin. apply Nat.ltb_lt. apply H. apply in_map_iff. exists (k, q). split; [reflexivity|exact Hin].
Qed.

(** ** the leaves a dictionary mentions *)
Lemma keys_pmerge_incl (a b : pdict) k : In k (keys (pmerge a b)) -> In k (keys a) \/ In k (keys b).
Proof.
  unfold keys, pmerge, merge. rewrite map_app. intros H. apply in_app_or in H as [H|H].
  - left. rewrite map_map in H. apply in_map_iff in H as [[k' q] [<- Hin]].
    apply in_map_iff. exists (k', q). split; [|exact Hin]. destruct (lookup Nat.eqb k' b); reflexivity.
  - right. apply in_map_iff in H as [[k' q] [<- Hin]]. apply filter_In in Hin as [Hin _].
    apply in_map_iff. exists (k', q). split; [reflexivity|exact Hin].
Qed.

Lemma keys_below_mono n m p : (n <= m)%nat -> keys_below n p = true -> keys_below m p = true.
Proof. intros Hle. rewrite !keys_below_iff. intros H k Hk. exact (Nat.lt_le_trans _ _ _ (H k Hk) Hle). Qed.
Lemma keys_below_S n p : keys_below n p = true -> keys_below (S n) p = true.
Proof. exact (keys_below_mono n (S n) p (Nat.le_succ_diag_r n)). Qed.
Lemma keys_below_leaf k n : (k < n)%nat -> keys_below n [(k, 1%Q)] = true.
Proof. intros H. unfold keys_below. cbn [forallb]. rewrite (proj2 (Nat.ltb_lt k n) H). reflexivity. Qed.
Lemma keys_below_prune n d : keys_below n d = true -> keys_below n (prune d) = true.
Proof. rewrite !keys_below_iff. intros H k Hk. exact (H k (keys_prune_incl nat d k Hk)). Qed.
Lemma keys_below_scal n c d : keys_below n d = true -> keys_below n (p_scal c d) = true.
Proof. rewrite !keys_below_iff. unfold p_scal. rewrite keys_scale. exact (fun H => H). Qed.
Lemma keys_below_neg n d : keys_below n d = true -> keys_below n (p_neg d) = true.
Proof. exact (keys_below_scal n _ d). Qed.
Lemma keys_below_div n c d : keys_below n d = true -> keys_below n (p_div d c) = true.
Proof. exact (keys_below_scal n _ d). Qed.
Lemma keys_below_add n a b : keys_below n a = true -> keys_below n b = true -> keys_below n (p_add a b) = true.
Proof.
  rewrite !keys_below_iff. intros Ha Hb k Hk. apply (keys_prune_incl nat), keys_pmerge_incl in Hk as [Hk|Hk]; auto.
Qed.
Lemma keys_below_sub n a b : keys_below n a = true -> keys_below n b = true -> keys_below n (p_sub a b) = true.
Proof. intros Ha Hb. apply keys_below_add; [exact Ha|apply keys_below_scal, Hb]. Qed.
Lemma keys_below_breg n (sx0 g : pdict) gamma :
  keys_below n sx0 = true -> keys_below n g = true -> keys_below n (breg_dual sx0 g gamma) = true.
Proof. intros Hs Hg. apply keys_below_prune, keys_below_sub; [exact Hs|apply keys_below_scal, Hg]. Qed.

(** likewise for the keys of an expression dictionary, and for a recorded triple *)
Definition ekey_below (np ne : nat) (k : ekey) : bool :=
  match k with
  | KF e => Nat.ltb e ne
  | KG i j => Nat.ltb i np && Nat.ltb j np
  | K1 => true
  end.
Definition ekeys_below (np ne : nat) (d : edict) : bool := forallb (fun '(k, _) => ekey_below np ne k) d.

Lemma ekeys_below_mono np ne np' ne' d :
  (np <= np')%nat -> (ne <= ne')%nat -> ekeys_below np ne d = true -> ekeys_below np' ne' d = true.
Proof.
  intros H1 H2. unfold ekeys_below. rewrite !forallb_forall. intros H [k q] Hin.
  specialize (H (k, q) Hin). cbn in *. destruct k as [e|i j|]; cbn [ekey_below] in *.
  - apply Nat.ltb_lt in H. apply Nat.ltb_lt. lia.
  - apply andb_prop in H as [Hi Hj]. apply Nat.ltb_lt in Hi. apply Nat.ltb_lt in Hj.
    apply andb_true_intro. split; apply Nat.ltb_lt; lia.
  - reflexivity.
Qed.

Definition sample_below (np ne : nat) (t : msample) : bool :=
  let '(x, g, fx) := t in keys_below np x && keys_below np g && ekeys_below np ne fx.

Lemma sample_below_mono np ne np' ne' t :
  (np <= np')%nat -> (ne <= ne')%nat -> sample_below np ne t = true -> sample_below np' ne' t = true.
Proof.
  destruct t as [[x g] fx]. cbn [sample_below]. intros H1 H2 Hb.
  apply andb_prop in Hb as [Hb Hf]. apply andb_prop in Hb as [Hx Hg].
  rewrite (keys_below_mono _ _ _ H1 Hx), (keys_below_mono _ _ _ H1 Hg),
    (ekeys_below_mono _ _ _ _ _ H1 H2 Hf). reflexivity.
Qed.

(** ** fresh leaves: [upd] at and below the leaf it sets *)
Lemma upd_same {A} (h : nat -> A) k a : upd h k a k = a.
Proof. unfold upd. rewrite Nat.eqb_refl. reflexivity. Qed.
Lemma upd_other {A} (h : nat -> A) k a i : (i < k)%nat -> upd h k a i = h i.
Proof. intros H. unfold upd. rewrite (proj2 (Nat.eqb_neq i k) (Nat.lt_neq i k H)). reflexivity. Qed.
Lemma upd_below {A} (h : nat -> A) k a i x : (i < k)%nat -> h i = x -> upd h k a i = x.
Proof. intros H <-. exact (upd_other h k a i H). Qed.

(** The database [leaves] is for the two kinds of side goals every step leaves behind.  Leaf bounds: a leaf index is
    below a counter ([k < S n]), a dictionary only mentions leaves below a counter ([keys_below n d = true]).  Leaf
    values: what a valuation updated by [upd] gives a leaf ([upd h k a i = x]: the leaf just set, or an earlier one). *)
Create HintDb leaves discriminated.
#[export] Hint Resolve Nat.lt_succ_diag_r Nat.lt_lt_succ_r keys_below_S keys_below_leaf keys_below_prune keys_below_sub
  keys_below_scal keys_below_neg keys_below_div keys_below_add keys_below_breg upd_same upd_below : leaves.

Lemma keys_below_ip2 np n (x0 : pdict) gamma :
  keys_below np x0 = true -> (S n < np)%nat -> keys_below np (ip2_point n x0 gamma) = true.
Proof. intros Hk Hn. unfold ip2_point. auto 8 with leaves arith. Qed.
Lemma keys_below_ip3 np n (x0 : pdict) gamma :
  keys_below np x0 = true -> (n < np)%nat -> keys_below np (ip3_grad n x0 gamma) = true.
Proof. intros Hk Hn. unfold ip3_grad. auto 8 with leaves. Qed.

#[export] Hint Resolve keys_below_ip2 keys_below_ip3 : leaves.

Section Method.
  Context {E : ips}.
  Variable W : @world E.

  (** ** valuations that agree on the leaves an object mentions give it the same value *)
  Lemma evalP_agree (rho rho' : nat -> E) n p :
    keys_below n p = true -> (forall i, (i < n)%nat -> rho' i = rho i) -> evalP rho' p = evalP rho p.
  Proof.
    intros Hk Hag. induction p as [|[k q] p IH]; cbn [evalP]; [reflexivity|].
    cbn [keys_below forallb] in Hk. apply andb_prop in Hk as [Hk1 Hk2].
    apply Nat.ltb_lt in Hk1. rewrite (Hag k Hk1), (IH Hk2). reflexivity.
  Qed.

  Lemma evalE_agree (rho rho' : nat -> E) (phi phi' : nat -> R) np ne d :
    ekeys_below np ne d = true ->
    (forall i, (i < np)%nat -> rho' i = rho i) -> (forall i, (i < ne)%nat -> phi' i = phi i) ->
    evalE rho' phi' d = evalE rho phi d.
  Proof.
    intros Hk Hr Hp. induction d as [|[k q] d IH]; cbn [evalE]; [reflexivity|].
    cbn [ekeys_below forallb] in Hk. apply andb_prop in Hk as [Hk1 Hk2].
    rewrite (IH Hk2). f_equal. f_equal. destruct k as [e|i j|]; cbn [evalK ekey_below] in *.
    - apply Nat.ltb_lt in Hk1. apply Hp, Hk1.
    - apply andb_prop in Hk1 as [Hi Hj]. apply Nat.ltb_lt in Hi. apply Nat.ltb_lt in Hj.
      rewrite (Hr i Hi), (Hr j Hj). reflexivity.
    - reflexivity.
  Qed.

  Lemma sample_at_agree (rho rho' : nat -> E) (phi phi' : nat -> R) np ne t :
    sample_below np ne t = true ->
    (forall i, (i < np)%nat -> rho' i = rho i) -> (forall i, (i < ne)%nat -> phi' i = phi i) ->
    sample_at rho' phi' t = sample_at rho phi t.
  Proof.
    destruct t as [[x g] fx]. cbn [sample_below sample_at]. intros Hb Hr Hp.
    apply andb_prop in Hb as [Hb Hf]. apply andb_prop in Hb as [Hx Hg].
    rewrite (evalP_agree rho rho' np x Hx Hr), (evalP_agree rho rho' np g Hg Hr),
      (evalE_agree rho rho' phi phi' np ne fx Hf Hr Hp). reflexivity.
  Qed.

  (** ** one step: the counters grow, the leaves that exist keep their values *)
  Lemma mstep_counters s o : (m_np s <= m_np (mstep s o))%nat /\ (m_ne s <= m_ne (mstep s o))%nat.
  Proof. destruct o as [| | | | | | | | | |? ? ? []]; cbn [mstep m_np m_ne]; auto 6 with arith. Qed.

  Lemma wstep_agree vs s o :
    (forall i, (i < m_np s)%nat -> fst (wstep W vs s o) i = fst vs i) /\
    (forall i, (i < m_ne s)%nat -> snd (wstep W vs s o) i = snd vs i).
  Proof. destruct o as [| | | | | | | | | |? ? ? []]; cbn [wstep fst snd]; auto 9 with leaves. Qed.

  (** ** the run.  Leaves that exist before it (and free leaves in general) keep the value the initial valuation
      gives them: the starting point and the optimum are whatever the user's initial condition allows. *)
  Theorem wrun_keeps ops : forall s vs,
    (forall i, (i < m_np s)%nat -> fst (wrun W ops s vs) i = fst vs i) /\
    (forall i, (i < m_ne s)%nat -> snd (wrun W ops s vs) i = snd vs i).
  Proof.
    induction ops as [|o ops IH]; intros s vs; cbn [wrun]; [split; reflexivity|].
    destruct (IH (mstep s o) (wstep W vs s o)) as [H1 H2].
    destruct (wstep_agree vs s o) as [Hr Hp]. destruct (mstep_counters s o) as [Hc1 Hc2].
    split; intros i Hi.
    - rewrite H1 by lia. apply Hr, Hi.
    - rewrite H2 by lia. apply Hp, Hi.
  Qed.

  (** a free leaf allocated during the run keeps its initial value too *)
  Theorem wrun_free_leaf ops1 ops2 s vs :
    let s1 := mrun ops1 s in
    fst (wrun W (ops1 ++ MFresh :: ops2) s vs) (m_np s1) = fst (wrun W ops1 s vs) (m_np s1).
  Proof.
    cbn zeta. revert s vs. induction ops1 as [|o ops1 IH]; intros s vs.
    - cbn [app wrun mrun fold_left]. destruct (wrun_keeps ops2 (mstep s MFresh) (wstep W vs s MFresh)) as [H _].
      rewrite H by (cbn; lia). reflexivity.
    - cbn [app wrun mrun fold_left]. apply IH.
  Qed.

  (** a property of state and valuation that every step of a well-formed program keeps is kept by its run *)
  Lemma wrun_inv (P : mstate -> (nat -> E) * (nat -> R) -> Prop) (ok : mop -> bool) :
    (forall s vs o, P s vs -> op_wf s o = true -> ok o = true -> P (mstep s o) (wstep W vs s o)) ->
    forall ops s vs, mwf ops s = true -> forallb ok ops = true -> P s vs -> P (mrun ops s) (wrun W ops s vs).
  Proof.
    intros Hstep. induction ops as [|o ops IH]; intros s vs Hwf Hok HP; cbn [mrun fold_left wrun]; [exact HP|].
    cbn [mwf forallb] in Hwf, Hok. apply andb_prop in Hwf as [Ho Hwf]. apply andb_prop in Hok as [Hoo Hok].
    exact (IH _ _ Hwf Hok (Hstep s vs o HP Ho Hoo)).
  Qed.

  (** ** the values of the recorded dictionaries *)
  (** the value of a leaf dictionary ([leaf_veq], [leaf_val] are the facts [evalP_leaf], [evalE_leaf] of
      Proofs/C08Lemmas.v, which this file does not import) *)
  Lemma leaf_veq (rho : nat -> E) k : veq (evalP rho [(k, 1%Q)]) (rho k).
  Proof. intros w. cbn [evalP]. rewrite inner_add_l, inner_scal_l, inner_zero_l, Q2R_1. lra. Qed.
  Lemma leaf_at (rho : nat -> E) k x : rho k = x -> veq x (evalP rho [(k, 1%Q)]).
  Proof. intros <-. apply veq_sym, leaf_veq. Qed.
  Lemma leaf_val (rho : nat -> E) (phi : nat -> R) k : evalE rho phi [(KF k, 1%Q)] = phi k.
  Proof. cbn [evalE evalK]. rewrite Q2R_1. lra. Qed.

  (** a dictionary of existing leaves keeps its value *)
  Lemma old_at (rho rho' : nat -> E) n p :
    keys_below n p = true -> (forall i, (i < n)%nat -> rho' i = rho i) -> veq (evalP rho p) (evalP rho' p).
  Proof. intros Hk Hag. rewrite (evalP_agree rho rho' n p Hk Hag). apply veq_refl. Qed.

  (** the value of the point recorded by a proximal step is the proximal point, once the fresh subgradient leaf n
      is valued (x0 - xr) / gamma *)
  Lemma prox_point_at (rho rho' : nat -> E) n (p : pdict) gamma (xr : E) :
    keys_below n p = true -> NoDupKeys nat p -> 0 < Q2R gamma ->
    (forall i, (i < n)%nat -> rho' i = rho i) -> rho' n = vscal (1 / Q2R gamma) (vsub (evalP rho p) xr) ->
    veq xr (evalP rho' (prune (p_sub p (p_scal gamma [(n, 1%Q)])))).
  Proof.
    intros Hk Hnd Hg Hag Hn. apply veq_sym. eapply veq_trans; [apply evalP_prune|].
    eapply veq_trans; [apply evalP_sub; [exact Hnd|apply pND_scal, NoDupKeys_single]|]. intros w.
    rewrite inner_sub_l, (evalP_scal rho' gamma [(n, 1%Q)] w), inner_scal_l, (leaf_veq rho' n w), Hn,
      (evalP_agree rho rho' n p Hk Hag), inner_scal_l, inner_sub_l. field. lra.
  Qed.

  (** the value of the dual point recorded by a Bregman step *)
  Lemma breg_dual_value (rho : nat -> E) (sx0 g : pdict) gamma :
    NoDupKeys nat sx0 -> NoDupKeys nat g ->
    veq (evalP rho (breg_dual sx0 g gamma)) (vsub (evalP rho sx0) (vscal (Q2R gamma) (evalP rho g))).
  Proof.
    intros Hs Hg. eapply veq_trans; [apply evalP_prune|].
    eapply veq_trans; [apply evalP_sub; [exact Hs|apply pND_scal, Hg]|].
    apply veq_sub; [apply veq_refl|apply evalP_scal].
  Qed.
  Lemma breg_dual_at (rho : nat -> E) (sx0 g : pdict) gamma (a b : E) :
    NoDupKeys nat sx0 -> NoDupKeys nat g -> veq a (evalP rho sx0) -> veq b (evalP rho g) ->
    veq (vsub a (vscal (Q2R gamma) b)) (evalP rho (breg_dual sx0 g gamma)).
  Proof.
    intros Hs Hg Ha Hb. eapply veq_trans; [|apply veq_sym, breg_dual_value; assumption].
    apply veq_sub; [exact Ha|apply veq_scal, Hb].
  Qed.

  Lemma ip2_point_value (rho : nat -> E) n (x0 : pdict) gamma :
    NoDupKeys nat x0 ->
    veq (evalP rho (ip2_point n x0 gamma)) (vadd (vsub (evalP rho x0) (vscal (Q2R gamma) (rho (S n)))) (rho n)).
  Proof.
    intros Hnd. eapply veq_trans; [apply evalP_prune|].
    eapply veq_trans; [apply evalP_add; [apply pND_sub; [exact Hnd|apply pND_scal]|]; apply NoDupKeys_single|].
    apply veq_add; [|apply leaf_veq].
    eapply veq_trans; [apply evalP_sub; [exact Hnd|apply pND_scal, NoDupKeys_single]|].
    apply veq_sub; [apply veq_refl|]. eapply veq_trans; [apply evalP_scal|]. apply veq_scal, leaf_veq.
  Qed.

  Lemma ip3_grad_value (rho : nat -> E) n (x0 : pdict) gamma :
    NoDupKeys nat x0 -> 0 < Q2R gamma ->
    veq (evalP rho (ip3_grad n x0 gamma)) (vscal (1 / Q2R gamma) (vsub (evalP rho x0) (rho n))).
  Proof.
    intros Hnd Hg. eapply veq_trans; [apply evalP_prune|].
    eapply veq_trans; [apply evalP_div, qpos_nz, Hg|]. apply veq_scal.
    eapply veq_trans; [apply evalP_sub; [exact Hnd|apply NoDupKeys_single]|].
    apply veq_sub; [apply veq_refl|apply leaf_veq].
  Qed.

  (** ... as the steps value the fresh leaves: the error leaf n of 'PD_gapII' is x - x0 + gamma gx, the point leaf n
      of 'PD_gapIII' is x *)
  Lemma ip2_point_at (rho rho' : nat -> E) n (x0 : pdict) gamma (x gx : E) :
    keys_below n x0 = true -> NoDupKeys nat x0 -> (forall i, (i < n)%nat -> rho' i = rho i) ->
    rho' n = vadd (vsub x (evalP rho x0)) (vscal (Q2R gamma) gx) -> rho' (S n) = gx ->
    veq x (evalP rho' (ip2_point n x0 gamma)).
  Proof.
    intros Hk Hnd Hag Hn HS. apply veq_sym. eapply veq_trans; [apply ip2_point_value, Hnd|].
    rewrite Hn, HS, (evalP_agree rho rho' n x0 Hk Hag). intros u.
    rewrite !inner_add_l, !inner_sub_l, !inner_scal_l. lra.
  Qed.

  Lemma ip3_grad_at (rho rho' : nat -> E) n (x0 : pdict) gamma (x : E) :
    keys_below n x0 = true -> NoDupKeys nat x0 -> 0 < Q2R gamma -> (forall i, (i < n)%nat -> rho' i = rho i) ->
    rho' n = x -> veq (vscal (1 / Q2R gamma) (vsub (evalP rho x0) x)) (evalP rho' (ip3_grad n x0 gamma)).
  Proof.
    intros Hk Hnd Hg Hag <-. rewrite <- (evalP_agree rho rho' n x0 Hk Hag). apply veq_sym, ip3_grad_value; assumption.
  Qed.

  #[local] Hint Resolve leaf_at veq_refl : leaves.

  (** ** first invariant: the recorded samples are genuine *)
  Definition Inv (s : mstate) (vs : (nat -> E) * (nat -> R)) : Prop :=
    forall f t, In (f, t) (m_samples s) ->
      sample_below (m_np s) (m_ne s) t = true /\ Gen W f (sample_at (E:=E) (fst vs) (snd vs) t).

  (** a recorded triple: its dictionaries only mention existing leaves and, read at the valuation, it is a genuine
      sample (x, g, v) of the world up to [veq] *)
  Lemma genuine_sample f (rho : nat -> E) phi np ne dx dg k x g v :
    Gen W f (x, g, v) -> (k < ne)%nat -> phi k = v ->
    keys_below np dx = true -> veq x (evalP rho dx) ->
    keys_below np dg = true -> veq g (evalP rho dg) ->
    sample_below np ne (dx, dg, [(KF k, 1%Q)]) = true /\ Gen W f (sample_at rho phi (dx, dg, [(KF k, 1%Q)])).
  Proof.
    intros HG Hk <- Hx Vx Hg Vg. split.
    - unfold sample_below, ekeys_below. cbn [forallb ekey_below].
      rewrite Hx, Hg, (proj2 (Nat.ltb_lt k ne) Hk). reflexivity.
    - cbn [sample_at]. rewrite leaf_val. exact (Gen_xveq W f x _ _ _ (Gen_veq W f x g _ _ HG Vg) Vx).
  Qed.

  (** ... whose point and (sub)gradient are leaves themselves *)
  Lemma genuine_leaves f (rho : nat -> E) phi np ne i j k x g v :
    Gen W f (x, g, v) -> (i < np)%nat -> rho i = x -> (j < np)%nat -> rho j = g -> (k < ne)%nat -> phi k = v ->
    sample_below np ne ([(i, 1%Q)], [(j, 1%Q)], [(KF k, 1%Q)]) = true /\
    Gen W f (sample_at rho phi ([(i, 1%Q)], [(j, 1%Q)], [(KF k, 1%Q)])).
  Proof. intros HG Hi Hx Hj Hg Hk Hv. apply (genuine_sample f rho phi np ne _ _ k x g v HG Hk Hv); auto with leaves. Qed.

  (** the invariant survives when counters grow, existing leaves keep their values and the new samples are good *)
  Lemma Inv_grow s vs s' vs' new :
    Inv s vs -> (m_np s <= m_np s')%nat /\ (m_ne s <= m_ne s')%nat ->
    (forall i, (i < m_np s)%nat -> fst vs' i = fst vs i) /\ (forall i, (i < m_ne s)%nat -> snd vs' i = snd vs i) ->
    m_samples s' = m_samples s ++ new ->
    Forall (fun ft => sample_below (m_np s') (m_ne s') (snd ft) = true /\
                      Gen W (fst ft) (sample_at (E:=E) (fst vs') (snd vs') (snd ft))) new ->
    Inv s' vs'.
  Proof.
    intros HI [Hc1 Hc2] [Hr Hp] Hs Hnew f t Hin. rewrite Hs in Hin. apply in_app_or in Hin as [Hin|Hin].
    - destruct (HI f t Hin) as [Hb Hg]. split.
      + exact (sample_below_mono _ _ _ _ t Hc1 Hc2 Hb).
      + rewrite (sample_at_agree (fst vs) _ (snd vs) _ _ _ t Hb Hr Hp). exact Hg.
    - exact (proj1 (Forall_forall _ _) Hnew (f, t) Hin).
  Qed.

  Lemma Inv_step s vs o :
    Inv s vs -> op_wf s o = true -> step_ok W o = true ->
    Inv (mstep s o) (wstep W vs s o).
  Proof.
    intros HI Hwf Hok. pose proof (proj1 (wstep_agree vs s o)) as Hr.
    destruct o as [|g p|g|g p gamma|g dir|g p rel eps|g x0 dirs|g p|h gx0 sx0 gamma|h g sx0 gamma|g x0 gamma [| |]].
    (* MFresh records no sample *)
    1: exact (Inv_grow s vs _ _ [] HI (mstep_counters s MFresh) (wstep_agree vs s MFresh) (eq_sym (app_nil_r _)) (Forall_nil _)).
    (* every other step appends one or two samples: the old ones stay genuine ([Inv_grow]); each new one is the world's
       specification of the step, at the values the step gives the fresh leaves *)
    all: eapply (Inv_grow s vs _ _ _ HI (mstep_counters s _) (wstep_agree vs s _)); [reflexivity|].
    all: cbn [op_wf step_ok] in Hwf, Hok.
    all: cbn [wstep fst snd mstep m_np m_ne].
    - (* MEval *)
      apply Forall_cons; [|apply Forall_nil].
      eapply genuine_sample; [exact (orc_genuine W g (evalP (fst vs) p))|..]; auto 6 with leaves.
      exact (old_at _ _ _ p Hwf Hr).
    - (* MStat *)
      apply Forall_cons; [|apply Forall_nil].
      eapply genuine_sample; [exact (stat_genuine W g)|..]; auto 6 with leaves.
    - (* MProx *)
      apply andb_prop in Hwf as [Hwf Hg%qpos_pos]. apply andb_prop in Hwf as [Hk Hnd%nodupb_NoDup].
      apply Forall_cons; [|apply Forall_nil].
      change [(m_np s, (1 * gamma)%Q)] with (p_scal gamma [(m_np s, 1%Q)]).
      eapply genuine_sample; [exact (prox_genuine W g _ (evalP (fst vs) p) Hok Hg)|..]; auto 6 with leaves.
      apply (prox_point_at (fst vs) _ (m_np s) p gamma _ Hk Hnd Hg Hr), upd_same.
    - (* MLinOpt *)
      apply Forall_cons; [|apply Forall_nil].
      eapply genuine_sample; [exact (lmo_genuine W g (evalP (fst vs) dir) Hok)|..]; auto 6 with leaves.
      apply veq_sym. eapply veq_trans; [apply evalP_prune|]. eapply veq_trans; [apply evalP_neg|].
      apply veq_neg, veq_sym, (old_at _ _ _ dir Hwf Hr).
    - (* MInexact *)
      apply Forall_cons; [|apply Forall_nil].
      eapply genuine_sample; [exact (orc_genuine W g (evalP (fst vs) p))|..]; auto 6 with leaves.
      exact (old_at _ _ _ p Hwf Hr).
    - (* MLineSearch *)
      apply Forall_cons; [|apply Forall_nil].
      eapply genuine_leaves; [exact (orc_genuine W g (linesearch W g (evalP (fst vs) x0) (map (evalP (fst vs)) dirs)))|..];
        auto 6 with leaves.
    - (* MEpsSub *)
      apply andb_prop in Hwf as [Hk _].
      apply Forall_cons; [|apply Forall_cons; [|apply Forall_nil]].
      + (* the oracle call at p *)
        eapply genuine_sample; [exact (orc_genuine W g (evalP (fst vs) p))|..]; auto 7 with leaves.
        exact (old_at _ _ _ p Hk Hr).
      + (* (y, g0, fy) *)
        eapply genuine_leaves; [exact (proj1 (epssub_spec W g (evalP (fst vs) p)))|..]; auto 7 with leaves.
    - (* MBregGrad *)
      apply andb_prop in Hwf as [Hwf Hns%nodupb_NoDup]. apply andb_prop in Hwf as [Hwf Hks].
      apply andb_prop in Hwf as [Hkg Hng%nodupb_NoDup].
      apply Forall_cons; [|apply Forall_nil].
      eapply genuine_sample; [exact (mirror_genuine W h _ Hok)|..]; auto 6 with leaves.
      apply breg_dual_at; [exact Hns|exact Hng|exact (old_at _ _ _ sx0 Hks Hr)|exact (old_at _ _ _ gx0 Hkg Hr)].
    - (* MBregProx *)
      apply andb_prop in Hwf as [Hwf Hg%qpos_pos]. apply andb_prop in Hwf as [Hk Hnd%nodupb_NoDup].
      apply Forall_cons; [|apply Forall_cons; [|apply Forall_nil]].
      + (* (x, gx, fx) on f *)
        eapply genuine_leaves; [exact (proj1 (bprox_genuine W h g _ (evalP (fst vs) sx0) Hok Hg))|..]; auto 7 with leaves.
      + (* (x, sx0 - gamma gx, hx) on h *)
        eapply genuine_sample; [exact (proj2 (bprox_genuine W h g _ (evalP (fst vs) sx0) Hok Hg))|..]; auto 7 with leaves.
        apply breg_dual_at; [exact Hnd|apply NoDupKeys_single|exact (old_at _ _ _ sx0 Hk Hr)|auto with leaves].
    - (* MInexactProx, PD_gapI *)
      apply andb_prop in Hwf as [Hwf Hg%qpos_pos].
      pose proof (iprox_spec W g PDgapI _ (evalP (fst vs) x0) Hg) as [Hgx [Hgw _]].
      apply Forall_cons; [|apply Forall_cons; [|apply Forall_nil]].
      + (* (w, v, fw) *) eapply genuine_leaves; [exact Hgw|..]; auto 8 with leaves.
      + (* (x, gx, fx) *) eapply genuine_leaves; [exact Hgx|..]; auto 8 with leaves.
    - (* MInexactProx, PD_gapII *)
      apply andb_prop in Hwf as [Hwf Hg%qpos_pos]. apply andb_prop in Hwf as [Hk Hnd%nodupb_NoDup].
      apply Forall_cons; [|apply Forall_nil].
      eapply genuine_sample; [exact (proj1 (iprox_spec W g PDgapII _ (evalP (fst vs) x0) Hg))|..]; auto 6 with leaves.
      eapply (ip2_point_at (fst vs) _ (m_np s) x0 gamma _ _ Hk Hnd); [exact Hr|..]; eauto with leaves.
    - (* MInexactProx, PD_gapIII *)
      apply andb_prop in Hwf as [Hwf Hg%qpos_pos]. apply andb_prop in Hwf as [Hk Hnd%nodupb_NoDup].
      pose proof (iprox_spec W g PDgapIII _ (evalP (fst vs) x0) Hg) as [Hgx [Hgw _]].
      apply Forall_cons; [|apply Forall_cons; [|apply Forall_nil]].
      + (* (x, gx, fx) *) eapply genuine_leaves; [exact Hgx|..]; auto 7 with leaves.
      + (* (w, (x0 - x) / gamma, fw) *)
        eapply genuine_sample; [exact Hgw|..]; auto 7 with leaves.
        apply (ip3_grad_at (fst vs) _ (m_np s) x0 gamma _ Hk Hnd Hg); [exact Hr|auto with leaves].
  Qed.

  (** Every recorded sample of a well-formed program is a genuine sample of its function in the
      world, at the values the real run gives to the leaves — for every program length. *)
  Theorem world_samples_genuine ops : forall s vs,
    mwf ops s = true -> steps_ok W ops = true -> Inv s vs -> Inv (mrun ops s) (wrun W ops s vs).
  Proof. exact (wrun_inv Inv (step_ok W) Inv_step ops). Qed.

  Corollary world_samples_genuine_init ops vs :
    mwf ops minit = true -> steps_ok W ops = true -> Inv (mrun ops minit) (wrun W ops minit vs).
  Proof. intros Hwf Hpx. apply world_samples_genuine; [exact Hwf|exact Hpx|]. intros f t []. Qed.

  (** ** the constraints the steps add to the functions hold at the values of the run *)

  (** what the accuracy constraint of an inexact gradient step means, whatever the valuation: the recorded
      object holds iff the direction (leaf S n) is within the accuracy of the gradient (leaf n) *)
  Lemma inexact_cons_holds (rho : nat -> E) (phi : nat -> R) n rel eps :
    holds rho phi (inexact_cons n rel eps) <->
    nrm2 (vsub (rho n) (rho (S n))) <= Q2R eps ^ 2 * (if rel then nrm2 (rho n) else 1).
  Proof.
    unfold inexact_cons.
    rewrite (compileC_holds rho phi (fun _ => eps) (inexact_vp n) (fun _ => []));
      [|intros [|v]; apply NoDupKeys_single|intros v; constructor|destruct rel; cbn; tauto].
    rewrite <- (nrm2_veq _ _ (veq_sub _ _ _ _ (leaf_veq rho n) (leaf_veq rho (S n)))), <- (nrm2_veq _ _ (leaf_veq rho n)).
    unfold nrm2. destruct rel; cbn [inexact_formula denoteC denoteX denoteP sdenote inexact_vp];
      rewrite Q2R_0; lra.
  Qed.

  (** the orthogonality constraints of a line search, whatever the valuation: x is leaf n, gx leaf S n *)
  Lemma ls_cons0_holds (rho : nat -> E) (phi : nat -> R) n (x0 : pdict) :
    NoDupKeys nat x0 ->
    (holds rho phi (ls_cons0 n x0) <-> inner (vsub (rho n) (evalP rho x0)) (rho (S n)) = 0).
  Proof.
    intros Hnd. unfold ls_cons0.
    rewrite (compileC_holds rho phi (fun _ => 0%Q) (ls_vp0 n x0) (fun _ => []));
      [|intros [|[|v]]; [|exact Hnd|]; apply NoDupKeys_single|intros v; constructor|cbn; tauto].
    cbn [denoteC denoteX denoteP sdenote ls_vp0].
    rewrite (veq_inner _ _ _ _ (veq_sub _ _ _ _ (leaf_veq rho n) (veq_refl (evalP rho x0))) (leaf_veq rho (S n))),
      Q2R_0.
    tauto.
  Qed.

  Lemma ls_cons_holds (rho : nat -> E) (phi : nat -> R) n (d : pdict) :
    NoDupKeys nat d ->
    (holds rho phi (ls_cons n d) <-> inner (evalP rho d) (rho (S n)) = 0).
  Proof.
    intros Hnd. unfold ls_cons.
    rewrite (compileC_holds rho phi (fun _ => 0%Q) (ls_vp n d) (fun _ => []));
      [|intros [|v]; [exact Hnd|apply NoDupKeys_single]|intros v; constructor|cbn; tauto].
    cbn [denoteC denoteX denoteP sdenote ls_vp].
    rewrite (veq_inner_r _ _ (evalP rho d) (leaf_veq rho (S n))), Q2R_0. tauto.
  Qed.

  (** the epsilon-subgradient constraint, whatever the valuation: g0 is leaf n, y leaf S (S n); f0, epsilon, fy are
      the value leaves e, S e, S (S e) *)
  Lemma epssub_cons_holds (rho : nat -> E) (phi : nat -> R) n e (p : pdict) :
    NoDupKeys nat p ->
    (holds rho phi (epssub_cons n e p) <->
     phi e + (inner (rho n) (rho (S (S n))) - phi (S (S e))) - inner (rho n) (evalP rho p) <= phi (S e)).
  Proof.
    intros Hnd. unfold epssub_cons.
    rewrite (compileC_holds rho phi (fun _ => 0%Q) (epssub_vp n p) (epssub_vx e));
      [|intros [|[|v]]; [exact Hnd| |]; apply NoDupKeys_single|intros [|[|v]]; apply NoDupKeys_single|cbn; tauto].
    cbn [denoteC denoteX denoteP sdenote epssub_formula epssub_vp epssub_vx].
    rewrite !leaf_val, (veq_inner _ _ _ _ (leaf_veq rho n) (leaf_veq rho (S (S n)))),
      (veq_inner_l _ _ (evalP rho p) (leaf_veq rho n)).
    tauto.
  Qed.

  (** the accuracy constraints of an inexact proximal step, whatever the valuation.  'PD_gapI': v, w, x are the leaves
      n, S n, S (S n); fw, fx, eps_var the value leaves e, S e, S (S e).  'PD_gapII': the error e is leaf n, eps_var the
      value leaf S e.  'PD_gapIII': x, w are the leaves n, S (S n), v is (x0 - x) / gamma; value leaves as in I. *)
  Definition ip_meaning (opt : ipopt) (rho : nat -> E) (phi : nat -> R) (n e : nat) (x0 : pdict) (gamma : Q) : Prop :=
    match opt with
    | PDgapI =>
        nrm2 (vadd (vsub (rho (S (S n))) (evalP rho x0)) (vscal (Q2R gamma) (rho n))) / 2
        + Q2R gamma * (phi (S e) - phi e - inner (rho n) (vsub (rho (S (S n))) (rho (S n)))) <= phi (S (S e))
    | PDgapII => nrm2 (rho n) / 2 <= phi (S e)
    | PDgapIII =>
        Q2R gamma * (phi (S e) - phi e
                     - inner (vscal (1 / Q2R gamma) (vsub (evalP rho x0) (rho n))) (vsub (rho n) (rho (S (S n)))))
        <= phi (S (S e))
    end.

  Lemma ip_cons_holds opt (rho : nat -> E) (phi : nat -> R) n e (x0 : pdict) gamma :
    NoDupKeys nat x0 -> 0 < Q2R gamma ->
    (holds rho phi (ip_cons opt n e x0 gamma) <-> ip_meaning opt rho phi n e x0 gamma).
  Proof.
    intros Hnd Hg. unfold ip_cons.
    assert (Hvp : forall v, NoDupKeys nat (ip_vp opt n x0 gamma v)).
    { intros v. destruct opt; cbn [ip_vp].
      - destruct v as [|[|[|[|v]]]]; [exact Hnd|apply NoDupKeys_single..].
      - apply NoDupKeys_single.
      - destruct v as [|[|[|v]]]; [exact Hnd| |apply NoDupKeys_single..].
        unfold ip3_grad. apply NoDupKeys_prune. apply pND_div. apply pND_sub; [exact Hnd|apply NoDupKeys_single]. }
    assert (Hvx : forall v, NoDupKeys ekey (ip_vx opt e v)).
    { intros v. destruct opt; cbn [ip_vx]; [destruct v as [|[|v]]| |destruct v as [|[|v]]]; apply NoDupKeys_single. }
    assert (H2 : Q2R 2 <> 0) by (rewrite Q2R_2; lra).
    assert (Hn1 : forall a a' : E, veq a a' -> inner a a = nrm2 a') by exact nrm2_veq.
    destruct opt; cbn [ip_formula ip_meaning].
    - rewrite (compileC_holds rho phi (fun _ => gamma) (ip_vp PDgapI n x0 gamma) (ip_vx PDgapI e) Hvp Hvx)
        by (cbn; tauto).
      cbn [denoteC denoteX denoteP sdenote ip_eps_sub ip_vp ip_vx]. rewrite !leaf_val, Q2R_2.
      rewrite (Hn1 _ (vadd (vsub (rho (S (S n))) (evalP rho x0)) (vscal (Q2R gamma) (rho n))))
        by (apply veq_add; [apply veq_sub; [apply leaf_veq|apply veq_refl]|apply veq_scal, leaf_veq]).
      rewrite (veq_inner _ _ _ _ (leaf_veq rho n) (veq_sub _ _ _ _ (leaf_veq rho (S (S n))) (leaf_veq rho (S n)))).
      tauto.
    - rewrite (compileC_holds rho phi (fun _ => gamma) (ip_vp PDgapII n x0 gamma) (ip_vx PDgapII e) Hvp Hvx)
        by (cbn; tauto).
      cbn [denoteC denoteX denoteP sdenote ip_vp ip_vx]. rewrite !leaf_val, Q2R_2.
      rewrite (Hn1 _ (rho n)) by apply leaf_veq.
      tauto.
    - rewrite (compileC_holds rho phi (fun _ => gamma) (ip_vp PDgapIII n x0 gamma) (ip_vx PDgapIII e) Hvp Hvx)
        by (cbn; tauto).
      cbn [denoteC denoteX denoteP sdenote ip_eps_sub ip_vp ip_vx]. rewrite !leaf_val.
      rewrite (veq_inner _ _ _ _ (ip3_grad_value rho n x0 gamma Hnd Hg)
                 (veq_sub _ _ _ _ (leaf_veq rho n) (leaf_veq rho (S (S n))))).
      tauto.
  Qed.

  Definition ip_np (opt : ipopt) : nat := match opt with PDgapI => 4 | PDgapII => 2 | PDgapIII => 3 end.
  Definition ip_ne (opt : ipopt) : nat := match opt with PDgapII => 2 | _ => 3 end.

  (** where a recorded constraint comes from, and why it holds: it is the constraint of an inexact gradient step, a
      line search (two kinds), an epsilon-subgradient step or an inexact proximal step; the leaves it mentions exist,
      its dictionaries are those of earlier points, and what it means (the [*_cons_holds] lemmas) is true *)
  Definition cons_src (np ne : nat) (rho : nat -> E) (phi : nat -> R) (c : edict * sense) : Prop :=
    (exists n rel eps, (S n < np)%nat /\ c = inexact_cons n rel eps /\
       nrm2 (vsub (rho n) (rho (S n))) <= Q2R eps ^ 2 * (if rel then nrm2 (rho n) else 1))
    \/ (exists n x0, (S n < np)%nat /\ c = ls_cons0 n x0 /\ keys_below n x0 = true /\ NoDupKeys nat x0 /\
           inner (vsub (rho n) (evalP rho x0)) (rho (S n)) = 0)
    \/ (exists n d, (S n < np)%nat /\ c = ls_cons n d /\ keys_below n d = true /\ NoDupKeys nat d /\
           inner (evalP rho d) (rho (S n)) = 0)
    \/ (exists n e p, (S (S n) < np)%nat /\ (S (S e) < ne)%nat /\ c = epssub_cons n e p /\ keys_below n p = true /\
           NoDupKeys nat p /\
           phi e + (inner (rho n) (rho (S (S n))) - phi (S (S e))) - inner (rho n) (evalP rho p) <= phi (S e))
    \/ (exists opt n e x0 gamma, (n + ip_np opt <= np)%nat /\ (e + ip_ne opt <= ne)%nat /\ c = ip_cons opt n e x0 gamma /\
           keys_below n x0 = true /\ NoDupKeys nat x0 /\ 0 < Q2R gamma /\ ip_meaning opt rho phi n e x0 gamma).

  (** a constraint of each origin, from the values of the leaves it mentions *)
  Lemma src_inexact np ne (rho : nat -> E) phi n (rel : bool) eps g d :
    (S n < np)%nat -> nrm2 (vsub g d) <= Q2R eps ^ 2 * (if rel then nrm2 g else 1) ->
    rho n = g -> rho (S n) = d -> cons_src np ne rho phi (inexact_cons n rel eps).
  Proof. intros Hn H <- <-. left. exists n, rel, eps. auto. Qed.
  Lemma src_ls0 np ne (rho : nat -> E) phi n (x0 : pdict) x g xv :
    (S n < np)%nat -> keys_below n x0 = true -> NoDupKeys nat x0 -> inner (vsub x xv) g = 0 ->
    rho n = x -> rho (S n) = g -> evalP rho x0 = xv -> cons_src np ne rho phi (ls_cons0 n x0).
  Proof. intros Hn Hk Hnd H <- <- <-. right. left. exists n, x0. auto. Qed.
  Lemma src_ls np ne (rho : nat -> E) phi n (d : pdict) g dv :
    (S n < np)%nat -> keys_below n d = true -> NoDupKeys nat d -> inner dv g = 0 ->
    rho (S n) = g -> evalP rho d = dv -> cons_src np ne rho phi (ls_cons n d).
  Proof. intros Hn Hk Hnd H <- <-. right. right. left. exists n, d. auto. Qed.
  Lemma src_epssub np ne (rho : nat -> E) (phi : nat -> R) n e (p : pdict) g0 y xv f0 eps fy :
    (S (S n) < np)%nat -> (S (S e) < ne)%nat -> keys_below n p = true -> NoDupKeys nat p ->
    f0 + (inner g0 y - fy) - inner g0 xv <= eps ->
    rho n = g0 -> rho (S (S n)) = y -> evalP rho p = xv -> phi e = f0 -> phi (S e) = eps -> phi (S (S e)) = fy ->
    cons_src np ne rho phi (epssub_cons n e p).
  Proof. intros Hn He Hk Hnd H <- <- <- <- <- <-. right. right. right. left. exists n, e, p. auto 6. Qed.
  Lemma src_ip np ne (rho : nat -> E) phi opt n e (x0 : pdict) gamma :
    (ip_np opt + n <= np)%nat -> (ip_ne opt + e <= ne)%nat -> keys_below n x0 = true -> NoDupKeys nat x0 ->
    0 < Q2R gamma -> ip_meaning opt rho phi n e x0 gamma -> cons_src np ne rho phi (ip_cons opt n e x0 gamma).
  Proof.
    intros Hn He Hk Hnd Hg H. rewrite Nat.add_comm in Hn, He.
    right. right. right. right. exists opt, n, e, x0, gamma. auto 7.
  Qed.
  Lemma ip_meaning_I (rho : nat -> E) (phi : nat -> R) n e (x0 : pdict) gamma xv v w x fw fx eps :
    nrm2 (vadd (vsub x xv) (vscal (Q2R gamma) v)) / 2 + Q2R gamma * (fx - fw - inner v (vsub x w)) <= eps ->
    evalP rho x0 = xv -> rho n = v -> rho (S n) = w -> rho (S (S n)) = x ->
    phi e = fw -> phi (S e) = fx -> phi (S (S e)) = eps -> ip_meaning PDgapI rho phi n e x0 gamma.
  Proof. intros H <- <- <- <- <- <- <-. exact H. Qed.
  Lemma ip_meaning_II (rho : nat -> E) (phi : nat -> R) n e (x0 : pdict) gamma err eps :
    nrm2 err / 2 <= eps -> rho n = err -> phi (S e) = eps -> ip_meaning PDgapII rho phi n e x0 gamma.
  Proof. intros H <- <-. exact H. Qed.
  Lemma ip_meaning_III (rho : nat -> E) (phi : nat -> R) n e (x0 : pdict) gamma xv x w fw fx eps :
    Q2R gamma * (fx - fw - inner (vscal (1 / Q2R gamma) (vsub xv x)) (vsub x w)) <= eps ->
    evalP rho x0 = xv -> rho n = x -> rho (S (S n)) = w ->
    phi e = fw -> phi (S e) = fx -> phi (S (S e)) = eps -> ip_meaning PDgapIII rho phi n e x0 gamma.
  Proof. intros H <- <- <- <- <- <-. exact H. Qed.

  Lemma cons_src_holds np ne rho phi c : cons_src np ne rho phi c -> holds rho phi c.
  Proof.
    intros [(n & rel & eps & _ & -> & Hb)|[(n & x0 & _ & -> & _ & Hnd & H)|[(n & d & _ & -> & _ & Hnd & H)
           |[(n & e & p & _ & _ & -> & _ & Hnd & H)|(opt & n & e & x0 & gamma & _ & _ & -> & _ & Hnd & Hg & H)]]]].
    - apply inexact_cons_holds. exact Hb.
    - apply (ls_cons0_holds rho phi n x0 Hnd). exact H.
    - apply (ls_cons_holds rho phi n d Hnd). exact H.
    - apply (epssub_cons_holds rho phi n e p Hnd). exact H.
    - apply (ip_cons_holds opt rho phi n e x0 gamma Hnd Hg). exact H.
  Qed.

  Lemma cons_src_agree np np' ne ne' rho rho' phi phi' c :
    (np <= np')%nat -> (ne <= ne')%nat -> (forall i, (i < np)%nat -> rho' i = rho i) ->
    (forall i, (i < ne)%nat -> phi' i = phi i) -> cons_src np ne rho phi c -> cons_src np' ne' rho' phi' c.
  Proof.
    intros Hle Hle' Hag Hagp Hc.
    assert (Hev : forall n q, (n <= np)%nat -> keys_below n q = true -> evalP rho' q = evalP rho q).
    { intros n q Hn Hq. apply (evalP_agree rho rho' n q Hq). intros i Hi. apply Hag. lia. }
    (* the leaves a constraint mentions exist, so they keep their values *)
    destruct Hc as [(n & rel & eps & Hn & -> & H)|[(n & x0 & Hn & -> & Hk & Hnd & H)|[(n & d & Hn & -> & Hk & Hnd & H)
           |[(n & e & p & Hn & He & -> & Hk & Hnd & H)
            |(opt & n & e & x0 & gamma & Hn & He & -> & Hk & Hnd & Hg & H)]]]].
    - apply (src_inexact _ _ _ _ n rel eps _ _ (Nat.lt_le_trans _ _ _ Hn Hle) H); apply Hag; lia.
    - apply (src_ls0 _ _ _ _ n x0 _ _ _ (Nat.lt_le_trans _ _ _ Hn Hle) Hk Hnd H); [(apply Hag; lia) .. |apply (Hev n); [lia|exact Hk]].
    - apply (src_ls _ _ _ _ n d _ _ (Nat.lt_le_trans _ _ _ Hn Hle) Hk Hnd H); [apply Hag; lia|apply (Hev n); [lia|exact Hk]].
    - apply (src_epssub _ _ _ _ n e p _ _ _ _ _ _ (Nat.lt_le_trans _ _ _ Hn Hle) (Nat.lt_le_trans _ _ _ He Hle') Hk Hnd H);
        first [apply Hag; lia|apply Hagp; lia|apply (Hev n); [lia|exact Hk]].
    - apply src_ip; [lia|lia|exact Hk|exact Hnd|exact Hg|].
      destruct opt; cbn [ip_np ip_ne] in Hn, He;
        [eapply ip_meaning_I|eapply ip_meaning_II|eapply ip_meaning_III]; try exact H;
        first [apply Hag; lia|apply Hagp; lia|apply (Hev n); [lia|exact Hk]].
  Qed.

  Definition CInv (s : mstate) (vs : (nat -> E) * (nat -> R)) : Prop :=
    forall f c, In (f, c) (m_cons s) -> cons_src (m_np s) (m_ne s) (fst vs) (snd vs) c.

  Lemma CInv_grow s vs s' vs' new :
    CInv s vs -> (m_np s <= m_np s')%nat /\ (m_ne s <= m_ne s')%nat ->
    (forall i, (i < m_np s)%nat -> fst vs' i = fst vs i) /\ (forall i, (i < m_ne s)%nat -> snd vs' i = snd vs i) ->
    m_cons s' = m_cons s ++ new ->
    Forall (fun fc => cons_src (m_np s') (m_ne s') (fst vs') (snd vs') (snd fc)) new -> CInv s' vs'.
  Proof.
    intros HI [Hc Hce] [Hr Hrp] Hs Hnew f c Hin. rewrite Hs in Hin. apply in_app_or in Hin as [Hin|Hin].
    - exact (cons_src_agree _ _ _ _ _ _ _ _ c Hc Hce Hr Hrp (HI f c Hin)).
    - exact (proj1 (Forall_forall _ _) Hnew (f, c) Hin).
  Qed.

  Lemma CInv_step s vs o :
    CInv s vs -> op_wf s o = true -> step_ok W o = true -> CInv (mstep s o) (wstep W vs s o).
  Proof.
    intros HI Hwf Hok. pose proof (proj1 (wstep_agree vs s o)) as Hr.
    destruct o as [|g p|g|g p gamma|g dir|g p rel eps|g x0 dirs|g p|h gx0 sx0 gamma|h g sx0 gamma|g x0 gamma [| |]].
    (* MFresh, MEval, MStat, MProx, MLinOpt, MBregGrad and MBregProx add no constraint *)
    all: try (apply (CInv_grow s vs _ _ [] HI (mstep_counters s _) (wstep_agree vs s _)); [symmetry; apply app_nil_r|apply Forall_nil]).
    (* the other steps append to the constraints: the old ones keep their origin ([CInv_grow]); the meaning of each new
       one is the world's specification of the step, at the values the step gives the fresh leaves *)
    all: eapply (CInv_grow s vs _ _ _ HI (mstep_counters s _) (wstep_agree vs s _)); [reflexivity|].
    all: cbn [op_wf step_ok] in Hwf, Hok.
    all: cbn [mstep m_np m_ne snd].
    - (* MInexact *)
      apply Forall_cons; [|apply Forall_nil].
      eapply src_inexact; [auto with arith|apply (inexact_bound W g rel (Q2R eps) (evalP (fst vs) p))|..];
        cbn [wstep fst]; auto with leaves.
    - (* MLineSearch *)
      apply Forall_cons.
      + (* (x - x0) * gx == 0 *)
        apply andb_prop in Hwf as [Hwf _]. apply andb_prop in Hwf as [Hk Hnd%nodupb_NoDup].
        eapply src_ls0; [auto with arith|exact Hk|exact Hnd|exact (proj1 (ls_orth W g (evalP (fst vs) x0) (map (evalP (fst vs)) dirs) Hok))|..|exact (evalP_agree _ _ _ x0 Hk Hr)];
          cbn [wstep fst]; auto with leaves.
      + (* d * gx == 0, for every direction d *)
        apply andb_prop in Hwf as [_ Hdirs]. apply Forall_map, Forall_forall. intros d Hd.
        destruct (andb_prop _ _ (proj1 (forallb_forall _ _) Hdirs d Hd)) as [Hk Hnd%nodupb_NoDup].
        eapply src_ls; [auto with arith|exact Hk|exact Hnd|exact (proj2 (ls_orth W g (evalP (fst vs) x0) (map (evalP (fst vs)) dirs) Hok) _ (in_map _ _ d Hd))|
                        |exact (evalP_agree _ _ _ d Hk Hr)]; cbn [wstep fst]; auto with leaves.
    - (* MEpsSub *)
      apply andb_prop in Hwf as [Hk Hnd%nodupb_NoDup].
      apply Forall_cons; [|apply Forall_nil].
      eapply src_epssub; [auto with arith|auto with arith|exact Hk|exact Hnd|exact (proj2 (epssub_spec W g (evalP (fst vs) p)))|..];
        cbn [wstep fst snd]; [| |exact (evalP_agree _ _ _ p Hk Hr)|..]; auto with leaves.
    - (* MInexactProx, PD_gapI *)
      apply andb_prop in Hwf as [Hwf Hg%qpos_pos]. apply andb_prop in Hwf as [Hk Hnd%nodupb_NoDup].
      apply Forall_cons; [|apply Forall_nil].
      apply src_ip; [apply le_n|apply le_n|exact Hk|exact Hnd|exact Hg|].
      eapply ip_meaning_I; [exact (proj2 (proj2 (iprox_spec W g PDgapI _ (evalP (fst vs) x0) Hg)))|exact (evalP_agree _ _ _ x0 Hk Hr)|..];
        cbn [wstep fst snd]; auto with leaves.
    - (* MInexactProx, PD_gapII *)
      apply andb_prop in Hwf as [Hwf Hg%qpos_pos]. apply andb_prop in Hwf as [Hk Hnd%nodupb_NoDup].
      apply Forall_cons; [|apply Forall_nil].
      apply src_ip; [apply le_n|apply le_n|exact Hk|exact Hnd|exact Hg|].
      eapply ip_meaning_II; [exact (proj2 (iprox_spec W g PDgapII _ (evalP (fst vs) x0) Hg))|..];
        cbn [wstep fst snd]; auto with leaves.
    - (* MInexactProx, PD_gapIII *)
      apply andb_prop in Hwf as [Hwf Hg%qpos_pos]. apply andb_prop in Hwf as [Hk Hnd%nodupb_NoDup].
      apply Forall_cons; [|apply Forall_nil].
      apply src_ip; [apply le_n|apply le_n|exact Hk|exact Hnd|exact Hg|].
      eapply ip_meaning_III; [exact (proj2 (proj2 (iprox_spec W g PDgapIII _ (evalP (fst vs) x0) Hg)))|exact (evalP_agree _ _ _ x0 Hk Hr)|..];
        cbn [wstep fst snd]; auto with leaves.
  Qed.

  Theorem world_constraints_inv ops : forall s vs,
    mwf ops s = true -> steps_ok W ops = true -> CInv s vs -> CInv (mrun ops s) (wrun W ops s vs).
  Proof. exact (wrun_inv CInv (step_ok W) CInv_step ops). Qed.

  (** Every constraint a step added to a function holds at the values the real run gives to the leaves -- for
      every program. *)
  Theorem world_constraints_hold ops vs f c :
    mwf ops minit = true -> steps_ok W ops = true ->
    In (f, c) (m_cons (mrun ops minit)) -> holds (fst (wrun W ops minit vs)) (snd (wrun W ops minit vs)) c.
  Proof.
    intros Hwf Hpx Hin. assert (H0 : CInv minit vs) by (intros ? ? []).
    exact (cons_src_holds _ _ _ _ c (world_constraints_inv ops minit vs Hwf Hpx H0 f c Hin)).
  Qed.

End Method.
