(** C13: how the store evolves ([le_st]), what the creators of the solve pipeline append to it
    ([grows]), and what a solve hands to the wrapper: a function of the DECLARED model (metric
    dictionaries, conditions, LMIs, what the classes / partitions generate) and of the index of the fresh
    objective leaf -- not of caches, values, duals, tracking lists or earlier solves. *)
From Coq Require Import List QArith Lia.
From PV Require Import Model.Dict Model.Terms Model.Dump Model.Sent Model.Eval Model.Resolve
  Proofs.C02Cache.
Import ListNotations.
Local Open Scope nat_scope.

Lemma get_obj_lt st r o : get_obj st r = Some o -> r < length (objs st).
Proof. unfold get_obj. intro H. apply nth_error_Some. congruence. Qed.
Lemma get_obj_new_obj_old st k r o : get_obj st r = Some o -> get_obj (new_obj st k) r = Some o.
Proof.
  intro H. unfold get_obj, new_obj; cbn [objs]. rewrite nth_error_app1 by (eapply get_obj_lt; eassumption). exact H.
Qed.
Lemma get_obj_new_obj_last st k : get_obj (new_obj st k) (length (objs st)) = Some (mkObj k None None).
Proof. unfold get_obj, new_obj; cbn [objs]. rewrite nth_error_app2, Nat.sub_diag by lia. reflexivity. Qed.
Lemma length_new_obj st k : length (objs (new_obj st k)) = S (length (objs st)).
Proof. unfold new_obj; cbn [objs]. rewrite app_length. cbn. lia. Qed.
Lemma get_obj_new_obj st k r o : get_obj (new_obj st k) r = Some o ->
  get_obj st r = Some o \/ r = length (objs st) /\ o = mkObj k None None.
Proof.
  unfold get_obj, new_obj; cbn [objs]. intro H. destruct (Nat.lt_ge_cases r (length (objs st))) as [L|L].
  - left. rewrite nth_error_app1 in H by exact L. exact H.
  - right. rewrite nth_error_app2 in H by exact L. destruct (r - length (objs st)) as [|j] eqn:E.
    + injection H as <-. split; [lia|reflexivity].
    + destruct j; discriminate.
Qed.

Definition eh_ok (st : est) (e : eh) : Prop :=
  match e with
  | ELeaf id => id < length (lev st)
  | ERef r => exists o d, get_obj st r = Some o /\ okind_of o = KExpr d
  end.
Definition item_ok (st : est) (r : nat) : Prop :=
  exists o, get_obj st r = Some o /\
    match okind_of o with
    | KCons e _ => eh_ok st e
    | KLmi m => forall row, In row m -> forall e, In e row -> eh_ok st e
    | _ => False
    end.

(** ** the order in which stores evolve: objects stay, kinds never change, the leaf tables only get
    longer, and whatever is new refers to existing expressions *)
Definition le_st (st st' : est) : Prop :=
  (forall r o, get_obj st r = Some o -> exists o', get_obj st' r = Some o' /\ okind_of o' = okind_of o)
  /\ length (lpv st) <= length (lpv st') /\ length (lev st) <= length (lev st')
  /\ forall r o e, get_obj st r = None -> get_obj st' r = Some o -> In e (refs_of (okind_of o)) -> eh_ok st' e.

Lemma le_st_get st st' r o : le_st st st' -> get_obj st r = Some o ->
  exists o', get_obj st' r = Some o' /\ okind_of o' = okind_of o.
Proof. intro L. exact (proj1 L r o). Qed.
Lemma le_st_leaves st st' : le_st st st' ->
  length (lpv st) <= length (lpv st') /\ length (lev st) <= length (lev st').
Proof. intros (_ & L1 & L2 & _). split; assumption. Qed.

Lemma eh_ok_mono st st' e : le_st st st' -> eh_ok st e -> eh_ok st' e.
Proof.
  intro L. destruct e as [id|r]; cbn [eh_ok]; [destruct (le_st_leaves _ _ L); lia|].
  intros (o & d & Ho & Hk). destruct (le_st_get _ _ r o L Ho) as (o' & Ho' & Hk').
  exists o', d. split; [exact Ho'|congruence].
Qed.

(** the references of an object of the later store are good there, once those of its earlier self (if it
    has one) were good in the earlier store *)
Lemma le_st_refs st st' r o' e : le_st st st' ->
  (forall o, get_obj st r = Some o -> In e (refs_of (okind_of o)) -> eh_ok st e) ->
  get_obj st' r = Some o' -> In e (refs_of (okind_of o')) -> eh_ok st' e.
Proof.
  intros L S Ho' Hin. destruct (get_obj st r) as [o|] eqn:Ho; [|exact (proj2 (proj2 (proj2 L)) r o' e Ho Ho' Hin)].
  destruct (le_st_get _ _ r o L Ho) as (o1 & H1 & K1). rewrite Ho' in H1. injection H1 as <-. rewrite K1 in Hin.
  apply (eh_ok_mono st st' e L), (S o eq_refl Hin).
Qed.

Lemma le_st_refl st : le_st st st.
Proof. split; [eauto|split; [lia|split; [lia|]]]. intros r o e Hn Ho. congruence. Qed.
Lemma le_st_trans a b c : le_st a b -> le_st b c -> le_st a c.
Proof.
  intros LA LB. destruct (le_st_leaves _ _ LA) as [A1 A2], (le_st_leaves _ _ LB) as [B1 B2]. split; [|split; [lia|split; [lia|]]].
  - intros r o Ho. destruct (le_st_get _ _ r o LA Ho) as (o1 & H1 & K1).
    destruct (le_st_get _ _ r o1 LB H1) as (o2 & H2 & K2). exists o2. split; [exact H2|congruence].
  - intros r o e Hn. apply (le_st_refs b c r o e LB). intros o1 H1. exact (proj2 (proj2 (proj2 LA)) r o1 e Hn H1).
Qed.

Lemma le_st_new_obj st k : (forall e, In e (refs_of k) -> eh_ok st e) -> le_st st (new_obj st k).
Proof.
  intro Hk. split; [|split; [cbn; lia|split; [cbn; lia|]]].
  - intros r o Ho. exists o. split; [apply get_obj_new_obj_old, Ho|reflexivity].
  - intros r o e Hn Ho Hin. apply get_obj_new_obj in Ho as [Ho|[_ ->]]; [congruence|].
    specialize (Hk e Hin). destruct e as [id|r']; [exact Hk|]. destruct Hk as (o' & d & Ho' & Hd).
    exists o', d. split; [apply get_obj_new_obj_old, Ho'|exact Hd].
Qed.

(** every step that creates no object: the evaluations, the writing of duals and of leaf values, a new leaf *)
Lemma le_st_same_objs st st' :
  (forall r, option_map okind_of (get_obj st' r) = option_map okind_of (get_obj st r)) ->
  length (lpv st) <= length (lpv st') -> length (lev st) <= length (lev st') -> le_st st st'.
Proof.
  intros K L1 L2. split; [|split; [exact L1|split; [exact L2|]]].
  - intros r o Ho. specialize (K r). rewrite Ho in K. destruct (get_obj st' r) as [o'|]; [|discriminate].
    injection K as K. eauto.
  - intros r o e Hn Ho. specialize (K r). rewrite Hn, Ho in K. discriminate.
Qed.
Lemma le_st_new_leafE st : le_st st (new_leafE st).
Proof. apply le_st_same_objs; [reflexivity|cbn; lia|cbn [new_leafE lev]; rewrite app_length; lia]. Qed.
Lemma le_st_new_leafP st : le_st st (new_leafP st).
Proof. apply le_st_same_objs; [reflexivity|cbn [new_leafP lpv]; rewrite app_length; lia|cbn; lia]. Qed.
Lemma le_st_frame st st' : frame st st' -> le_st st st'.
Proof.
  intro F. pose proof F as (H1 & H2 & _).
  apply le_st_same_objs; [apply frame_samek, F|rewrite H1; lia|rewrite H2; lia].
Qed.
Lemma le_st_assign_solution st P F : le_st st (assign_solution st P F).
Proof. apply le_st_same_objs; [reflexivity| |]; cbn [assign_solution lpv lev]; rewrite map_length, seq_length; lia. Qed.

Lemma dict_of_eh_mono st st' e : le_st st st' -> eh_ok st e -> dict_of_eh st' e = dict_of_eh st e.
Proof.
  intro L. destruct e as [id|r]; cbn [eh_ok dict_of_eh]; [reflexivity|].
  intros (o & d & Ho & Hk). destruct (le_st_get _ _ r o L Ho) as (o' & Ho' & Hk'). rewrite Ho, Ho', Hk'. reflexivity.
Qed.
Lemma dict_row_mono st st' es : le_st st st' -> Forall (eh_ok st) es ->
  map (dict_of_eh st') es = map (dict_of_eh st) es.
Proof. intros L H. apply map_ext_in. intros e He. rewrite Forall_forall in H. apply dict_of_eh_mono; auto. Qed.

Definition item_of (st : est) (r : nat) : item :=
  match get_obj st r with
  | Some o => match okind_of o with
              | KCons e s => SC (dict_of_eh st e) s
              | KLmi m => LMI (map (map (dict_of_eh st)) m)
              | _ => LMI []
              end
  | None => LMI []
  end.
Definition dump_item (it : item) : D :=
  match it with
  | SC e s => DL [DZ 0; dump_edict e; dump_sense s]
  | LMI m => DL [DZ 1; DL (map (fun row => DL (map dump_edict row)) m)]
  end.

Lemma item_mono st st' r : le_st st st' -> item_ok st r -> item_ok st' r /\ item_of st' r = item_of st r.
Proof.
  intros L (o & Ho & H). destruct (le_st_get _ _ r o L Ho) as (o' & Ho' & Hk'). unfold item_ok, item_of.
  rewrite Ho, Ho', Hk'. destruct (okind_of o) as [d|d|e s|m]; try contradiction.
  - rewrite (dict_of_eh_mono st st') by assumption. split; [exists o'; rewrite Hk'|reflexivity].
    split; [reflexivity|apply (eh_ok_mono st); assumption].
  - split.
    + exists o'. rewrite Hk'. split; [reflexivity|]. intros row Hr e He.
      apply (eh_ok_mono st); [exact L|exact (H row Hr e He)].
    + f_equal. apply map_ext_in. intros row Hr. apply dict_row_mono; [exact L|]. apply Forall_forall, H, Hr.
Qed.

(** the references [rs] exist and stand for the items [its] *)
Definition sends (st : est) (rs : list nat) (its : sent) : Prop :=
  map (item_of st) rs = its /\ Forall (item_ok st) rs.

Lemma sends_mono st st' rs its : le_st st st' -> sends st rs its -> sends st' rs its.
Proof.
  intros L [<- O]. split; [|eapply Forall_impl; [|exact O]; intro r; apply item_mono, L].
  apply map_ext_in. intros r Hr. rewrite Forall_forall in O. apply item_mono; auto.
Qed.
Lemma sends_old st st' rs : le_st st st' -> Forall (item_ok st) rs -> sends st' rs (map (item_of st) rs).
Proof. intros L O. apply (sends_mono st); [exact L|split; [reflexivity|exact O]]. Qed.
Lemma sends_app st rs rs' its its' : sends st rs its -> sends st rs' its' -> sends st (rs ++ rs') (its ++ its').
Proof. intros [<- O] [<- O']. split; [apply map_app|apply Forall_app; split; assumption]. Qed.

(** ** what the creators do to the store: they append objects that hold no cache and refer to
    expressions appended before them, nobody has evaluated *)
Definition fresh_expr (st : est) (e : eh) : Prop :=
  exists r d, e = ERef r /\ get_obj st r = Some (mkObj (KExpr d) None None).

Inductive grows (st : est) : est -> Prop :=
| grows_refl : grows st st
| grows_obj st' k : grows st st' -> Forall (fresh_expr st') (refs_of k) -> grows st (new_obj st' k).

Lemma grows_trans a b c : grows a b -> grows b c -> grows a c.
Proof. intro G. induction 1; [exact G|constructor; assumption]. Qed.
Lemma grows_get st st' r o : grows st st' -> get_obj st r = Some o -> get_obj st' r = Some o.
Proof. induction 1 as [|st' k G IH F]; intro Ho; [exact Ho|apply get_obj_new_obj_old, IH, Ho]. Qed.
Lemma grows_leaves st st' : grows st st' -> lpv st' = lpv st /\ lev st' = lev st.
Proof. induction 1; [split; reflexivity|assumption]. Qed.
Lemma fresh_expr_ok st e : fresh_expr st e -> eh_ok st e.
Proof. intros (r & d & -> & H). exists (mkObj (KExpr d) None None), d. split; [exact H|reflexivity]. Qed.
Lemma fresh_expr_cache st r o : fresh_expr st (ERef r) -> get_obj st r = Some o -> ocache o = None.
Proof. intros (r' & d & [= <-] & H) Ho. rewrite H in Ho. injection Ho as <-. reflexivity. Qed.
Lemma fresh_expr_grows st st' e : grows st st' -> fresh_expr st e -> fresh_expr st' e.
Proof. intros G (r & d & -> & H). exists r, d. split; [reflexivity|exact (grows_get _ _ _ _ G H)]. Qed.
Lemma grows_le st st' : grows st st' -> le_st st st'.
Proof.
  induction 1 as [|st' k G IH F]; [apply le_st_refl|]. eapply le_st_trans; [exact IH|]. apply le_st_new_obj.
  intros e He. rewrite Forall_forall in F. apply fresh_expr_ok, F, He.
Qed.
Lemma sends_grows st st' rs its : grows st st' -> sends st rs its -> sends st' rs its.
Proof. intro G. apply sends_mono, grows_le, G. Qed.

Lemma mk_cons_spec st c st' r : mk_cons st c = (st', r) -> grows st st' /\ sends st' [r] [SC (fst c) (snd c)].
Proof.
  unfold mk_cons, next_ref. intros [= <- <-]. set (st1 := new_obj st (KExpr (fst c))).
  pose proof (get_obj_new_obj_last st (KExpr (fst c))) as H1. fold st1 in H1.
  pose proof (get_obj_new_obj_last st1 (KCons (ERef (length (objs st))) (snd c))) as H2.
  unfold st1 at 2 in H2. rewrite length_new_obj in H2. split.
  - apply grows_obj; [apply grows_obj; [apply grows_refl|constructor]|].
    constructor; [exists (length (objs st)), (fst c); split; [reflexivity|exact H1]|constructor].
  - apply (get_obj_new_obj_old _ (KCons (ERef (length (objs st))) (snd c))) in H1. split.
    + cbn [map]. unfold item_of. rewrite H2. cbn [okind_of dict_of_eh]. rewrite H1. reflexivity.
    + constructor; [|constructor]. eexists. split; [exact H2|]. do 2 eexists. split; [exact H1|reflexivity].
Qed.

Lemma mk_conss_spec : forall cs st st' rs, mk_conss st cs = (st', rs) ->
  grows st st' /\ sends st' rs (map (fun c => SC (fst c) (snd c)) cs).
Proof.
  induction cs as [|c cs IH]; intros st st' rs; cbn [mk_conss map].
  - intros [= <- <-]. repeat constructor.
  - destruct (mk_cons st c) as [st1 r] eqn:H1. destruct (mk_conss st1 cs) as [st2 rs'] eqn:H2.
    intros [= <- <-]. apply mk_cons_spec in H1 as (G1 & I1). apply IH in H2 as (G2 & I2).
    split; [eapply grows_trans; eassumption|].
    exact (sends_app _ [r] _ [_] _ (sends_grows _ _ _ _ G2 I1) I2).
Qed.

Lemma mk_entries_spec : forall row st st' es, mk_entries st row = (st', es) ->
  grows st st' /\ map (dict_of_eh st') es = row /\ Forall (fresh_expr st') es.
Proof.
  induction row as [|d row IH]; intros st st' es; cbn [mk_entries].
  - intros [= <- <-]. repeat constructor.
  - destruct (mk_entries (new_obj st (KExpr d)) row) as [st1 es'] eqn:H1. intros [= <- <-].
    apply IH in H1 as (G1 & I1 & O1).
    pose proof (grows_get _ _ _ _ G1 (get_obj_new_obj_last st (KExpr d))) as H0.
    split; [apply (grows_trans _ (new_obj st (KExpr d))); [apply grows_obj; constructor|exact G1]|]. split.
    + cbn [map dict_of_eh]. unfold next_ref. rewrite H0, I1. reflexivity.
    + constructor; [exists (length (objs st)), d; split; [reflexivity|exact H0]|exact O1].
Qed.

Lemma mk_matrix_spec : forall m st st' ess, mk_matrix st m = (st', ess) ->
  grows st st' /\ map (map (dict_of_eh st')) ess = m /\ Forall (fresh_expr st') (concat ess).
Proof.
  induction m as [|row m IH]; intros st st' ess; cbn [mk_matrix].
  - intros [= <- <-]. repeat constructor.
  - destruct (mk_entries st row) as [st1 es] eqn:H1. destruct (mk_matrix st1 m) as [st2 ess'] eqn:H2.
    intros [= <- <-]. apply mk_entries_spec in H1 as (G1 & I1 & O1). apply IH in H2 as (G2 & I2 & O2).
    split; [eapply grows_trans; eassumption|]. cbn [map concat]. split.
    + rewrite I2, <- I1. f_equal. apply dict_row_mono; [apply grows_le, G2|].
      eapply Forall_impl; [|exact O1]. apply fresh_expr_ok.
    + apply Forall_app. split; [|exact O2]. eapply Forall_impl; [|exact O1]. intro e. apply fresh_expr_grows, G2.
Qed.

Lemma mk_lmi_spec st m st' r : mk_lmi st m = (st', r) -> grows st st' /\ sends st' [r] [LMI m].
Proof.
  unfold mk_lmi, next_ref. destruct (mk_matrix st m) as [st1 ess] eqn:H1. intros [= <- <-].
  apply mk_matrix_spec in H1 as (G1 & I1 & O1).
  assert (G2 : grows st1 (new_obj st1 (KLmi ess))) by (apply grows_obj; [apply grows_refl|exact O1]).
  pose proof (get_obj_new_obj_last st1 (KLmi ess)) as H2.
  assert (O : forall row, In row ess -> forall e, In e row -> eh_ok st1 e).
  { intros row Hr e He. rewrite Forall_forall in O1. apply fresh_expr_ok, O1, in_concat. eauto. }
  split; [eapply grows_trans; eassumption|]. split.
  - cbn [map]. unfold item_of. rewrite H2. cbn [okind_of]. rewrite <- I1. do 2 f_equal.
    apply map_ext_in. intros row Hr. apply dict_row_mono; [apply grows_le, G2|]. apply Forall_forall, O, Hr.
  - constructor; [|constructor]. eexists. split; [exact H2|]. cbn [okind_of]. intros row Hr e He.
    apply (eh_ok_mono st1); [apply grows_le, G2|exact (O row Hr e He)].
Qed.

Lemma mk_lmis_spec : forall ms st st' rs, mk_lmis st ms = (st', rs) ->
  grows st st' /\ sends st' rs (map LMI ms).
Proof.
  induction ms as [|m ms IH]; intros st st' rs; cbn [mk_lmis map].
  - intros [= <- <-]. repeat constructor.
  - destruct (mk_lmi st m) as [st1 r] eqn:H1. destruct (mk_lmis st1 ms) as [st2 rs'] eqn:H2.
    intros [= <- <-]. apply mk_lmi_spec in H1 as (G1 & I1). apply IH in H2 as (G2 & I2).
    split; [eapply grows_trans; eassumption|].
    exact (sends_app _ [r] _ [_] _ (sends_grows _ _ _ _ G2 I1) I2).
Qed.

Definition items_of_ftempl (t : ftempl) : sent :=
  map (fun c => SC (fst c) (snd c)) (t_cons t) ++ map LMI (t_lmis t).

Lemma gen_functions_spec : forall ts st st' fs, gen_functions st ts = (st', fs) ->
  grows st st' /\
  sends st' (flat_map (fun f => f_class_cons f ++ f_class_psd f) fs) (flat_map items_of_ftempl ts).
Proof.
  induction ts as [|t ts IH]; intros st st' fs; cbn [gen_functions flat_map].
  - intros [= <- <-]. repeat constructor.
  - unfold gen_function. destruct (mk_conss st (t_cons t)) as [sa cs] eqn:H1.
    destruct (mk_lmis sa (t_lmis t)) as [sb ls] eqn:H2. destruct (gen_functions sb ts) as [sc fs'] eqn:H3.
    intros [= <- <-]. apply mk_conss_spec in H1 as (G1 & I1). apply mk_lmis_spec in H2 as (G2 & I2).
    apply IH in H3 as (G3 & I3). pose proof (grows_trans _ _ _ G2 G3) as G23.
    split; [eapply grows_trans; eassumption|]. cbn [flat_map f_class_cons f_class_psd].
    repeat apply sends_app; [exact (sends_grows _ _ _ _ G23 I1)|exact (sends_grows _ _ _ _ G3 I2)|exact I3].
Qed.

Definition items_of_ptempl (p : list edict) : sent := map (fun d => SC d Equ) p.

Lemma gen_partitions_spec : forall ps st st' css, gen_partitions st ps = (st', css) ->
  grows st st' /\ sends st' (concat css) (flat_map items_of_ptempl ps).
Proof.
  induction ps as [|p ps IH]; intros st st' css; cbn [gen_partitions flat_map].
  - intros [= <- <-]. repeat constructor.
  - destruct (mk_conss st (map (fun d => (d, Equ)) p)) as [st1 cs] eqn:H1.
    destruct (gen_partitions st1 ps) as [st2 css'] eqn:H2.
    intros [= <- <-]. apply mk_conss_spec in H1 as (G1 & I1). apply IH in H2 as (G2 & I2).
    split; [eapply grows_trans; eassumption|]. rewrite map_map in I1.
    exact (sends_app _ _ _ _ _ (sends_grows _ _ _ _ G2 I1) I2).
Qed.

Record decl : Type := mkDecl {
  d_metrics : list edict;
  d_conds : sent;
  d_psds : sent;
  d_ftem : list ftempl;
  d_own : sent;                               (* own constraints / LMIs of the functions, in sending order *)
  d_ptem : list (list edict)
}.
Definition decl_of (s : pst) : decl :=
  mkDecl (map (dict_of_eh (es s)) (metrics s)) (map (item_of (es s)) (conds s))
         (map (item_of (es s)) (psds s)) (ftem s) (map (item_of (es s)) (own_refs s)) (ptem s).
Definition sent_of (d : decl) (o : nat) : sent :=
  map (fun m => SC (fst (c_le [(KF o, 1%Q)] m)) Ineq) (d_metrics d)
  ++ d_conds d ++ d_psds d ++ flat_map items_of_ftempl (d_ftem d) ++ d_own d
  ++ flat_map items_of_ptempl (d_ptem d).

(** the references held by the PEP point to existing objects (invariant of every run) *)
Definition closed (s : pst) : Prop :=
  Forall (eh_ok (es s)) (metrics s) /\ Forall (item_ok (es s)) (conds s) /\ Forall (item_ok (es s)) (psds s)
  /\ Forall (item_ok (es s)) (own_refs s).

(** [s'] holds the lists of the PEP that [closed] and [decl_of] read as [s] does *)
Definition same_lists (s s' : pst) : Prop :=
  metrics s' = metrics s /\ conds s' = conds s /\ psds s' = psds s /\ ftem s' = ftem s /\ ptem s' = ptem s
  /\ fown s' = fown s.

Lemma prepare_spec s :
  grows (new_leafE (es s)) (es (prepare s)) /\ same_lists s (prepare s)
  /\ (closed s -> sends (es (prepare s)) (wsent (prepare s)) (sent_of (decl_of s) (length (lev (es s))))).
Proof.
  unfold prepare. set (o := length (lev (es s))). set (st0 := new_leafE (es s)).
  destruct (gen_functions st0 (ftem s)) as [st1 fs] eqn:H1.
  destruct (gen_partitions st1 (ptem s)) as [st2 ps] eqn:H2.
  destruct (mk_conss st2 (map (metric_row st2 o) (metrics s))) as [st3 ms] eqn:H3. cbn [es wsent].
  apply gen_functions_spec in H1 as (G1 & I1). apply gen_partitions_spec in H2 as (G2 & I2).
  apply mk_conss_spec in H3 as (G3 & I3). pose proof (grows_trans _ _ _ G1 G2) as G02.
  split; [eapply grows_trans; eassumption|]. split; [repeat split|]. intros (Cm & Cc & Cp & Co).
  assert (L02 : le_st (es s) st2) by (eapply le_st_trans; [apply le_st_new_leafE|apply grows_le, G02]).
  assert (L03 : le_st (es s) st3) by (eapply le_st_trans; [exact L02|apply grows_le, G3]).
  unfold sent_of, decl_of. cbn [d_metrics d_conds d_psds d_ftem d_ptem d_own].
  repeat apply sends_app; try (apply (sends_old (es s)); assumption).
  - destruct I3 as [E3 O3]. split; [|exact O3]. rewrite E3, !map_map. apply map_ext_in. intros e He.
    unfold metric_row. rewrite Forall_forall in Cm. rewrite (dict_of_eh_mono (es s) st2) by auto. reflexivity.
  - exact (sends_grows _ _ _ _ (grows_trans _ _ _ G2 G3) I1).
  - exact (sends_grows _ _ _ _ G3 I2).
Qed.

Lemma prepare_leaves s : lpv (es (prepare s)) = lpv (es s) /\ lev (es (prepare s)) = lev (es s) ++ [None].
Proof. exact (grows_leaves _ _ (proj1 (prepare_spec s))). Qed.

Lemma eval_frame st r : frame st (fst (eval_obj st r)).
Proof. eapply eval_obj_frame, surjective_pairing. Qed.
Lemma eval_all_frame : forall rs st, frame st (eval_all st rs).
Proof.
  induction rs as [|r rs IH]; intro st; cbn [eval_all]; [apply frame_refl|].
  eapply frame_trans; [apply eval_frame|apply IH].
Qed.
Lemma eval_all_app : forall rs rs' st, eval_all st (rs ++ rs') = eval_all (eval_all st rs) rs'.
Proof. induction rs as [|r rs IH]; intros rs' st; cbn [eval_all app]; [reflexivity|apply IH]. Qed.

(** the three rounds of [check_feasibility] are one round of evaluations *)
Lemma finish_eq s sol : exists rs,
  es (finish s sol) = eval_all (assign_solution (assign_duals (es s) (wsent s) (sDual sol)) (sP sol) (sF sol)) rs.
Proof. eexists. unfold finish. cbn [es with_es]. rewrite <- !eval_all_app. reflexivity. Qed.

Lemma assign_duals_obj : forall rs ds st r,
  option_map (fun o => (okind_of o, ocache o)) (get_obj (assign_duals st rs ds) r)
  = option_map (fun o => (okind_of o, ocache o)) (get_obj st r).
Proof.
  induction rs as [|r0 rs IH]; intros [|d ds] st r; cbn [assign_duals]; try reflexivity.
  rewrite IH, get_obj_set_dual. destruct (Nat.eqb_spec r r0) as [->|]; [|reflexivity].
  destruct (get_obj st r0); reflexivity.
Qed.
Lemma assign_duals_leaves : forall rs ds st,
  lpv (assign_duals st rs ds) = lpv st /\ lev (assign_duals st rs ds) = lev st.
Proof.
  induction rs as [|r rs IH]; intros [|d ds] st; cbn [assign_duals]; try (split; reflexivity).
  exact (IH ds (set_dual st r d)).
Qed.
Lemma assign_duals_le rs ds st : le_st st (assign_duals st rs ds).
Proof.
  destruct (assign_duals_leaves rs ds st) as [H1 H2]. apply le_st_same_objs; [|rewrite H1; lia|rewrite H2; lia].
  intro r. pose proof (assign_duals_obj rs ds st r) as H.
  destruct (get_obj (assign_duals st rs ds) r), (get_obj st r); cbn in *; congruence.
Qed.

(** [finish] only writes caches, duals and leaf values *)
Lemma finish_le s sol : le_st (es s) (es (finish s sol)).
Proof.
  destruct (finish_eq s sol) as [rs ->].
  eapply le_st_trans; [apply assign_duals_le|]. eapply le_st_trans; [apply le_st_assign_solution|].
  apply le_st_frame, eval_all_frame.
Qed.

Lemma solve_le s a : le_st (es s) (es (solve s a)).
Proof.
  assert (L : le_st (es s) (es (prepare s))).
  { eapply le_st_trans; [apply le_st_new_leafE|apply grows_le, prepare_spec]. }
  unfold solve. destruct a as [sol|]; [|exact L]. eapply le_st_trans; [exact L|apply finish_le].
Qed.

Lemma solve_lists s a : same_lists s (solve s a).
Proof. destruct (prepare_spec s) as (_ & D & _). unfold solve. destruct a; exact D. Qed.

Definition nnz_item (it : item) : nat :=
  match it with SC e _ => length e | LMI m => list_sum (map (fun row => list_sum (map (@length _) row)) m) end.
Definition shape (it : item) : bool * nat := (match it with SC _ _ => true | LMI _ => false end, nnz_item it).
Definition n_scalars (l : sent) : nat := length (filter (fun x => fst x) (map shape l)).
Definition n_lmis (l : sent) : nat := length (filter (fun x => negb (fst x)) (map shape l)).
Definition nnz (l : sent) : nat := list_sum (map snd (map shape l)).

Lemma n_scalars_scalars l : n_scalars l = length (scalars l).
Proof.
  unfold n_scalars, scalars. induction l as [|[e s|m] l IH]; cbn [map filter shape fst flat_map app length];
    [reflexivity|f_equal; exact IH|exact IH].
Qed.
Lemma n_lmis_lmis l : n_lmis l = length (lmis l).
Proof.
  unfold n_lmis, lmis. induction l as [|[e s|m] l IH]; cbn [map filter shape fst negb flat_map app length];
    [reflexivity|exact IH|f_equal; exact IH].
Qed.

Definition nokey (o : nat) (d : edict) : Prop := ~ In (KF o) (keys d).
