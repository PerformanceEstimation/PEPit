(** C04, the SUFFICIENCY half, for the classes where it is elementary.

    "For interpolation classes a finite primal value is attained by a real member of the class":
    whenever a finite list of triples (x_i, g_i, f_i) of an inner-product space satisfies the
    reference conditions of the class (Spec/Reference.v) on ALL ordered pairs, there EXISTS a real
    member of the class (Spec/Classes.v) of which every triple is a genuine sample.

      StronglyConvexFunction   F = max_j ( f_j + <g_j, . - x_j> + mu/2 |. - x_j|^2 )
      ConvexFunction           the same F at mu = 0 (the max-affine interpolant)
      ConvexLipschitzFunction  the same F at mu = 0 (M-Lipschitz by Cauchy-Schwarz)
      ConvexIndicatorFunction  F = indicator of the convex hull of the x_i (any D, finite or not)
      ConvexSupportFunction    C = convex hull of the g_i, sigma = max_i <g_i, .> (any M)
      graph-defined operator classes (monotone, strongly monotone, cocoercive, negatively
      comonotone, Lipschitz, nonexpansive): the finite graph {(x_i, g_i)} itself (no extension)

    [convex_member] of Spec/Classes.v is [True]; to make the statements meaningful the convexity of
    the constructed F (segment inequality on a convex domain, [convex_seg]) is part of each
    conclusion.  Everything goes through [inner] and bilinearity (no Leibniz vector equation); the
    hull is closed under [veq].  The converse (necessity) is Proofs/MembersA.v, MembersB.v. *)
From Coq Require Import Reals Psatz List.
From PV Require Import Base.IPS Spec.Reference Spec.Classes.
Import ListNotations.
Local Open Scope R_scope.

#[local] Hint Rewrite @inner_sub_l @inner_sub_r @inner_add_l @inner_add_r @inner_scal_l @inner_scal_r
  @inner_neg_l @inner_neg_r @inner_zero_l @inner_zero_r : bilin.

Section Suff.
  Context {E : ips}.
  Local Notation tri := (@triple E).
  Local Notation fnE := (@fn E).

  (** Convexity of an extended-valued function, segment form: the domain is convex and the value at
      x + t (y - x) is below the chord. *)
  Definition convex_seg (F : fnE) : Prop :=
    forall x y t, dom F x -> dom F y -> 0 <= t <= 1 ->
      dom F (seg x y t) /\ val F (seg x y t) <= (1 - t) * val F x + t * val F y.

  Lemma nrm2_seg (x y : E) t :
    nrm2 (seg x y t) = (1 - t) * nrm2 x + t * nrm2 y - t * (1 - t) * nrm2 (vsub y x).
  Proof.
    unfold seg, nrm2 at 1. rewrite inner_add_l, !inner_add_r, !inner_scal_l, !inner_scal_r.
    fold (nrm2 (vsub y x)). rewrite nrm2_sub, (inner_sym E (vsub y x) x), inner_sub_r, (inner_sym E y x).
    unfold nrm2. ring.
  Qed.

  Lemma nrm2_sub_zero (u : E) : nrm2 (vsub u vzero) = nrm2 u.
  Proof. rewrite nrm2_sub. unfold nrm2. rewrite !inner_zero_r. lra. Qed.

  Lemma nrm2_seg_sub (x y z : E) t :
    nrm2 (vsub (seg x y t) z) = (1 - t) * nrm2 (vsub x z) + t * nrm2 (vsub y z) - t * (1 - t) * nrm2 (vsub y x).
  Proof. rewrite !(nrm2_sub _ z), nrm2_seg. unfold seg. autorewrite with bilin. ring. Qed.

  (** the pointwise maximum of the pieces [q s], [s] in the non-empty list [s0 :: l] *)
  Section MaxOf.
    Variable q : tri -> E -> R.

    Fixpoint maxof (s0 : tri) (l : list tri) (x : E) : R :=
      match l with
      | [] => q s0 x
      | s :: l' => Rmax (q s x) (maxof s0 l' x)
      end.

    Lemma maxof_ge s0 l x s : In s (s0 :: l) -> q s x <= maxof s0 l x.
    Proof.
      induction l as [|a l IH]; cbn [maxof]; intros [H|H].
      - subst. apply Rle_refl.
      - destruct H.
      - eapply Rle_trans; [apply IH; left; exact H|apply Rmax_r].
      - destruct H as [H|H].
        + subst. apply Rmax_l.
        + eapply Rle_trans; [apply IH; right; exact H|apply Rmax_r].
    Qed.

    Lemma maxof_attained s0 l x : exists s, In s (s0 :: l) /\ maxof s0 l x = q s x.
    Proof.
      induction l as [|a l [s [Hs Hv]]]; cbn [maxof].
      - exists s0. split; [left; reflexivity|reflexivity].
      - unfold Rmax. destruct (Rle_dec (q a x) (maxof s0 l x)) as [_|_].
        + exists s. split; [|exact Hv]. destruct Hs as [Hs|Hs]; [left; exact Hs|right; right; exact Hs].
        + exists a. split; [right; left; reflexivity|reflexivity].
    Qed.

    Lemma maxof_le s0 l x b : (forall s, In s (s0 :: l) -> q s x <= b) -> maxof s0 l x <= b.
    Proof. intro H. destruct (maxof_attained s0 l x) as [s [Hs Hv]]. rewrite Hv. apply H, Hs. Qed.
  End MaxOf.

  (** the minorant carried by a triple, q_j = f_j + <g_j, . - x_j> + mu/2 |. - x_j|^2 (affine at mu = 0);
      [ref_strongly_convex mu xi xj gj fi fj] is q_j x_i - f_i *)
  Definition piece (mu : R) (s : tri) (x : E) : R :=
    let '(xj, gj, fj) := s in fj + inner gj (vsub x xj) + mu / 2 * nrm2 (vsub x xj).

  Definition interp (mu : R) (s0 : tri) (l : list tri) : fnE := mkFn (fun _ => True) (maxof (piece mu) s0 l).

  Lemma piece_seg mu s x y t :
    piece mu s (seg x y t)
    = (1 - t) * piece mu s x + t * piece mu s y - mu / 2 * t * (1 - t) * nrm2 (vsub y x).
  Proof.
    destruct s as [[xj gj] fj]. cbn [piece]. rewrite nrm2_seg_sub. unfold seg. autorewrite with bilin. ring.
  Qed.

  (** every piece bends by the same mu/2 t (1 - t) |y - x|^2 below its chord, hence so does the maximum *)
  Lemma interp_seg mu s0 l x y t :
    0 <= t <= 1 ->
    val (interp mu s0 l) (seg x y t)
    <= (1 - t) * val (interp mu s0 l) x + t * val (interp mu s0 l) y - mu / 2 * t * (1 - t) * nrm2 (vsub y x).
  Proof.
    intros [Ht0 Ht1]. apply maxof_le. intros s Hs. rewrite piece_seg.
    pose proof (maxof_ge (piece mu) s0 l x s Hs) as Px. pose proof (maxof_ge (piece mu) s0 l y s Hs) as Py.
    apply (Rmult_le_compat_l (1 - t)) in Px; [|lra]. apply (Rmult_le_compat_l t) in Py; [|lra].
    cbn [val interp]. lra.
  Qed.

  Lemma interp_strongly_convex mu s0 l : strongly_convex_member mu (interp mu s0 l).
  Proof. intros x y t _ _ Ht. split; [exact I|]. apply interp_seg. lra. Qed.

  Lemma interp_convex mu s0 l : 0 <= mu -> convex_seg (interp mu s0 l).
  Proof.
    intros Hmu x y t _ _ Ht. split; [exact I|]. pose proof (interp_seg mu s0 l x y t Ht) as P.
    pose proof (nrm2_pos (vsub y x)) as Hn.
    assert (Hq : 0 <= mu / 2 * (t * (1 - t) * nrm2 (vsub y x))) by (repeat apply Rmult_le_pos; lra).
    lra.
  Qed.

  Definition strongly_convex_cond (mu : R) (l : list tri) : Prop :=
    forall xi gi fi xj gj fj, In (xi, gi, fi) l -> In (xj, gj, fj) l ->
                              ref_strongly_convex mu xi xj gj fi fj <= 0.

  (** the condition says q_j x_i <= f_i = q_i x_i: the maximum at x_i is f_i; and q_i, a piece, lies above its
      own affine part when mu >= 0 *)
  Lemma interp_genuine mu s0 l :
    0 <= mu -> strongly_convex_cond mu (s0 :: l) ->
    forall s, In s (s0 :: l) -> genuine_sub (interp mu s0 l) s.
  Proof.
    intros Hmu H [[xi gi] fi] Hs.
    assert (Hn : forall y, 0 <= mu / 2 * nrm2 (vsub y xi)) by (intro y; apply Rmult_le_pos; [lra|apply nrm2_pos]).
    pose proof (fun y => maxof_ge (piece mu) s0 l y _ Hs) as Hge. cbn [piece] in Hge.
    assert (Hv : maxof (piece mu) s0 l xi = fi).
    { apply Rle_antisym.
      - apply maxof_le. intros [[xj gj] fj] Hj.
        pose proof (H xi gi fi xj gj fj Hs Hj) as P. unfold ref_strongly_convex in P. cbn [piece]. lra.
      - pose proof (Hge xi) as P. rewrite inner_sub_r in P. pose proof (Hn xi). lra. }
    split; [split; [exact I|]|].
    - intros y _. cbn [val interp]. rewrite Hv. pose proof (Hge y). pose proof (Hn y). lra.
    - symmetry. exact Hv.
  Qed.

  Theorem suff_strongly_convex (mu : R) (l : list tri) :
    0 <= mu -> l <> [] -> strongly_convex_cond mu l ->
    exists F : fnE, strongly_convex_member mu F /\ convex_seg F /\ (forall x, dom F x) /\
                    forall s, In s l -> genuine_sub F s.
  Proof.
    intros Hmu Hne H. destruct l as [|s0 l]; [congruence|].
    exists (interp mu s0 l). split; [apply interp_strongly_convex|].
    split; [apply interp_convex, Hmu|]. split; [intro; exact I|].
    apply interp_genuine; assumption.
  Qed.

  Definition convex_cond (l : list tri) : Prop :=
    forall xi gi fi xj gj fj, In (xi, gi, fi) l -> In (xj, gj, fj) l -> ref_convex xi xj gj fi fj <= 0.

  Lemma convex_cond_0 l : convex_cond l -> strongly_convex_cond 0 l.
  Proof.
    intros H xi gi fi xj gj fj Hi Hj. pose proof (H xi gi fi xj gj fj Hi Hj) as P.
    unfold ref_convex in P. unfold ref_strongly_convex. lra.
  Qed.

  (** data satisfying f_i >= f_j + <g_j, x_i - x_j> on all ordered pairs are genuine samples (value and
      subgradient) of a finite-everywhere convex function *)
  Theorem suff_convex (l : list tri) :
    l <> [] -> convex_cond l ->
    exists F : fnE, convex_member F /\ convex_seg F /\ (forall x, dom F x) /\
                    forall s, In s l -> genuine_sub F s.
  Proof.
    intros Hne H.
    destruct (suff_strongly_convex 0 l (Rle_refl 0) Hne (convex_cond_0 l H)) as [F [_ HF]].
    exists F. split; [exact I|exact HF].
  Qed.

  (** a linear form <g, .> with |g|^2 <= M^2 is M-Lipschitz (Cauchy-Schwarz), squared form *)
  Lemma lin_form_lip M (g w : E) : ref_bounded_g M g <= 0 -> (inner g w) ^ 2 <= M ^ 2 * nrm2 w.
  Proof.
    unfold ref_bounded_g, nrm2. intro Hg.
    pose proof (cauchy_schwarz g w) as CS. pose proof (inner_pos E w) as Hw.
    assert (H : inner g g * inner w w <= M ^ 2 * inner w w) by (apply Rmult_le_compat_r; lra).
    replace (inner g w ^ 2) with (inner g w * inner g w) by ring. lra.
  Qed.

  Definition bounded_cond (M : R) (l : list tri) : Prop :=
    forall x g f, In (x, g, f) l -> ref_bounded_g M g <= 0.

  (** one-sided: F x - F y <= <g, x - y> for the slope g of a piece active at x *)
  Lemma interp_diff M s0 l x y :
    bounded_cond M (s0 :: l) ->
    exists g, ref_bounded_g M g <= 0 /\ val (interp 0 s0 l) x - val (interp 0 s0 l) y <= inner g (vsub x y).
  Proof.
    intro Hb. cbn [val interp]. destruct (maxof_attained (piece 0) s0 l x) as [[[xs gs] fs] [Hs Hv]].
    exists gs. split; [apply (Hb _ _ _ Hs)|].
    pose proof (maxof_ge (piece 0) s0 l y _ Hs) as P. rewrite Hv. cbn [piece] in P |- *.
    rewrite inner_sub_r in P. rewrite !inner_sub_r. lra.
  Qed.

  Lemma interp_lipschitz M s0 l : bounded_cond M (s0 :: l) -> lipschitz_fn M (interp 0 s0 l).
  Proof.
    intro Hb. split; [intro; exact I|]. intros x y.
    destruct (interp_diff M s0 l x y Hb) as [g [Hg P]].
    destruct (interp_diff M s0 l y x Hb) as [g' [Hg' P']].
    pose proof (lin_form_lip M g (vsub x y) Hg) as Q.
    pose proof (lin_form_lip M g' (vsub y x) Hg') as Q'.
    rewrite (nrm2_sub_sym y x) in Q'.
    set (K := M ^ 2 * nrm2 (vsub x y)) in *.
    set (a := inner g (vsub x y)) in *. set (b := inner g' (vsub y x)) in *.
    set (d := val (interp 0 s0 l) x - val (interp 0 s0 l) y) in *.
    assert (P'' : - d <= b) by (unfold d; lra). clearbody K a b d.
    destruct (Rle_dec 0 d) as [Hd|Hd]; nra.
  Qed.

  (** no sign condition on M is needed: only M^2 occurs *)
  Theorem suff_convex_lipschitz (M : R) (l : list tri) :
    l <> [] -> convex_cond l -> bounded_cond M l ->
    exists F : fnE, lipschitz_fn M F /\ convex_member F /\ convex_seg F /\
                    forall s, In s l -> genuine_sub F s.
  Proof.
    destruct l as [|s0 l]; [congruence|]. intros _ Hc Hb.
    exists (interp 0 s0 l). split; [apply interp_lipschitz, Hb|]. split; [exact I|].
    split; [apply interp_convex, Rle_refl|]. apply interp_genuine; [apply Rle_refl|apply convex_cond_0, Hc].
  Qed.

  (** weighted families (weight, point); total weight; weighted sum of a real function *)
  Definition wtot (l : list (R * E)) : R := fold_right (fun p acc => fst p + acc) 0 l.
  Definition fsum (phi : E -> R) (l : list (R * E)) : R :=
    fold_right (fun '(a, u) acc => a * phi u + acc) 0 l.

  (** convex hull of a set of points: finite convex combinations (non-negative weights summing to 1),
      up to [veq] *)
  Definition hull (P : E -> Prop) (y : E) : Prop :=
    exists l : list (R * E),
      (forall a u, In (a, u) l -> 0 <= a /\ P u) /\ wtot l = 1 /\ veq y (lincomb l).

  Lemma inner_lincomb_fsum l w : inner (lincomb l) w = fsum (fun u => inner u w) l.
  Proof. exact (inner_lincomb_l l w). Qed.

  (** a bound of [phi] on the points is a bound of its weighted sum *)
  Lemma fsum_le (P : E -> Prop) phi b l :
    (forall a u, In (a, u) l -> 0 <= a /\ P u) -> (forall u, P u -> phi u <= b) -> fsum phi l <= wtot l * b.
  Proof.
    unfold fsum, wtot. intros H Hb. induction l as [|[a u] l IH]; cbn [fold_right fst]; [lra|].
    destruct (H a u (or_introl eq_refl)) as [Ha Hu].
    pose proof (IH (fun a' u' Hin => H a' u' (or_intror Hin))) as IH'.
    pose proof (Rmult_le_compat_l a _ _ Ha (Hb u Hu)) as Q. lra.
  Qed.

  Lemma fsum_ge0 phi l :
    (forall a u, In (a, u) l -> 0 <= a /\ 0 <= phi u) -> 0 <= fsum phi l.
  Proof.
    unfold fsum. induction l as [|[a u] l IH]; intro H; cbn [fold_right]; [lra|].
    destruct (H a u (or_introl eq_refl)) as [Ha Hu].
    pose proof (IH (fun a' u' Hin => H a' u' (or_intror Hin))) as IH'.
    pose proof (Rmult_le_pos a _ Ha Hu) as P. lra.
  Qed.

  Lemma fsum_app phi l1 l2 : fsum phi (l1 ++ l2) = fsum phi l1 + fsum phi l2.
  Proof. unfold fsum. induction l1 as [|[a u] l1 IH]; cbn [app fold_right]; lra. Qed.

  Lemma wtot_app l1 l2 : wtot (l1 ++ l2) = wtot l1 + wtot l2.
  Proof. unfold wtot. induction l1 as [|[a u] l1 IH]; cbn [app fold_right]; lra. Qed.

  Definition sc (c : R) (p : R * E) : R * E := (c * fst p, snd p).

  Lemma fsum_sc phi c l : fsum phi (map (sc c) l) = c * fsum phi l.
  Proof. unfold fsum. induction l as [|[a u] l IH]; cbn [map sc fold_right fst snd]; lra. Qed.

  Lemma wtot_sc c l : wtot (map (sc c) l) = c * wtot l.
  Proof. unfold wtot. induction l as [|[a u] l IH]; cbn [map sc fold_right fst snd]; lra. Qed.

  (** sum_k a_k |u_k - z|^2 = sum_k a_k |u_k|^2 - 2 <sum_k a_k u_k, z> + (sum_k a_k) |z|^2 *)
  Lemma fsum_sq l z :
    fsum (fun u => nrm2 (vsub u z)) l = fsum (fun u => nrm2 u) l - 2 * inner (lincomb l) z + wtot l * nrm2 z.
  Proof.
    unfold fsum, wtot. induction l as [|[a u] l IH]; cbn [lincomb fold_right fst].
    - rewrite inner_zero_l. lra.
    - rewrite IH, nrm2_sub, inner_add_l, inner_scal_l. ring.
  Qed.

  (** convexity of the squared distance to z over a convex combination (variance identity) *)
  Lemma jensen_sq l z :
    (forall a u, In (a, u) l -> 0 <= a) -> wtot l = 1 ->
    nrm2 (vsub (lincomb l) z) <= fsum (fun u => nrm2 (vsub u z)) l.
  Proof.
    intros Hpos Hw.
    pose proof (fsum_sq l z) as Pz. pose proof (fsum_sq l (lincomb l)) as Py.
    assert (P0 : 0 <= fsum (fun u => nrm2 (vsub u (lincomb l))) l).
    { apply fsum_ge0. intros a u Hin. split; [apply (Hpos a u Hin)|apply nrm2_pos]. }
    rewrite Hw in Pz, Py. rewrite nrm2_sub.
    set (Y := lincomb l) in *. unfold nrm2 in *. lra.
  Qed.

  Lemma hull_pt (P : E -> Prop) x : P x -> hull P x.
  Proof.
    intro Hx. exists [(1, x)]. split; [|split].
    - intros a u [H|[]]. inversion H; subst. split; [lra|exact Hx].
    - cbn. lra.
    - intro w. cbn [lincomb]. autorewrite with bilin. lra.
  Qed.

  Lemma hull_veq (P : E -> Prop) y y' : hull P y -> veq y y' -> hull P y'.
  Proof.
    intros [l [H1 [H2 H3]]] Hv. exists l. split; [exact H1|]. split; [exact H2|].
    eapply veq_trans; [apply veq_sym, Hv|exact H3].
  Qed.

  Lemma hull_convex (P : E -> Prop) y z t : hull P y -> hull P z -> 0 <= t <= 1 -> hull P (seg y z t).
  Proof.
    intros [ly [Py [Wy Hy]]] [lz [Pz [Wz Hz]]] [Ht0 Ht1].
    exists (map (sc (1 - t)) ly ++ map (sc t) lz). split; [|split].
    - intros a u Hin. apply in_app_or in Hin. destruct Hin as [Hin|Hin];
        apply in_map_iff in Hin; destruct Hin as [[a' u'] [Heq Hin]];
        cbn [sc fst snd] in Heq; inversion Heq; subst.
      + destruct (Py _ _ Hin) as [Ha Hu]. split; [apply Rmult_le_pos; lra|exact Hu].
      + destruct (Pz _ _ Hin) as [Ha Hu]. split; [apply Rmult_le_pos; lra|exact Hu].
    - rewrite wtot_app, !wtot_sc, Wy, Wz. lra.
    - intro w. rewrite inner_lincomb_fsum, fsum_app, !fsum_sc, <- !inner_lincomb_fsum.
      rewrite <- (Hy w), <- (Hz w). unfold seg. autorewrite with bilin. ring.
  Qed.

  (** a half-space containing the points contains their hull *)
  Lemma hull_halfspace (P : E -> Prop) g b y :
    (forall u, P u -> inner u g <= b) -> hull P y -> inner y g <= b.
  Proof.
    intros H [l [Hl [Hw Hy]]]. rewrite (Hy g), inner_lincomb_fsum.
    pose proof (fsum_le P _ b l Hl H) as Q. rewrite Hw in Q. lra.
  Qed.

  (** a ball (squared radius r, any centre) containing the points contains their hull *)
  Lemma hull_ball (P : E -> Prop) z r y :
    (forall u, P u -> nrm2 (vsub u z) <= r) -> hull P y -> nrm2 (vsub y z) <= r.
  Proof.
    intros H [l [Hl [Hw Hy]]].
    assert (Hv : veq (vsub y z) (vsub (lincomb l) z)) by (apply veq_sub; [exact Hy|apply veq_refl]).
    unfold nrm2 at 1. rewrite (veq_inner _ _ _ _ Hv Hv). fold (nrm2 (vsub (lincomb l) z)).
    pose proof (jensen_sq l z (fun a u Hin => proj1 (Hl a u Hin)) Hw) as J.
    pose proof (fsum_le P _ r l Hl H) as Q. rewrite Hw in Q. lra.
  Qed.

  (** the diameter bound extends from the points to their hull (two nested convexity arguments) *)
  Lemma hull_diameter (P : E -> Prop) r :
    (forall u v, P u -> P v -> nrm2 (vsub u v) <= r) ->
    forall y z, hull P y -> hull P z -> nrm2 (vsub y z) <= r.
  Proof.
    intros H y z Hy Hz.
    apply (hull_ball P z r y); [|exact Hy].
    intros u Hu. rewrite nrm2_sub_sym.
    apply (hull_ball P u r z); [|exact Hz].
    intros v Hv. apply H; assumption.
  Qed.

  (** the sampled points of a list of triples *)
  Definition pts (l : list tri) (u : E) : Prop := exists g f, In (u, g, f) l.

  Definition ind_fn (l : list tri) : fnE := mkFn (hull (pts l)) (fun _ => 0).

  Definition indicator_cond (D : option R) (l : list tri) : Prop :=
    (forall x g f, In (x, g, f) l -> ref_ind_value f = 0) /\
    (forall xi gi fi xj gj fj, In (xi, gi, fi) l -> In (xj, gj, fj) l -> ref_ind_normal xi xj gj <= 0) /\
    match D with
    | Some d => forall xi gi fi xj gj fj, In (xi, gi, fi) l -> In (xj, gj, fj) l -> ref_diameter d xi xj <= 0
    | None => True
    end.

  Lemma ind_fn_convex l : convex_seg (ind_fn l).
  Proof.
    intros x y t Hx Hy Ht. split; [apply hull_convex; assumption|]. cbn [val ind_fn]. lra.
  Qed.

  Lemma ind_fn_member D l : indicator_cond D l -> indicator_member D (ind_fn l).
  Proof.
    intros [_ [_ Hd]]. split; [intros; reflexivity|].
    destruct D as [d|]; [|exact I].
    cbn [dom ind_fn]. apply hull_diameter.
    intros u v [gu [fu Hu]] [gv [fv Hv]].
    pose proof (Hd _ _ _ _ _ _ Hu Hv) as P. unfold ref_diameter in P. lra.
  Qed.

  Lemma ind_fn_genuine D l : indicator_cond D l -> forall s, In s l -> genuine_sub (ind_fn l) s.
  Proof.
    intros [Hv [Hn _]] [[xi gi] fi] Hs.
    split; [split|].
    - cbn [dom ind_fn]. apply hull_pt. exists gi, fi. exact Hs.
    - intros y Hy. cbn [dom val ind_fn] in *.
      assert (P : inner y gi <= inner xi gi).
      { apply (hull_halfspace (pts l) gi (inner xi gi) y); [|exact Hy].
        intros u [gu [fu Hu]]. pose proof (Hn _ _ _ _ _ _ Hu Hs) as Q.
        unfold ref_ind_normal in Q. rewrite inner_sub_r, !(inner_sym E gi) in Q. lra. }
      rewrite inner_sub_r, !(inner_sym E gi). lra.
    - cbn [val ind_fn]. pose proof (Hv _ _ _ Hs) as P. unfold ref_ind_value in P. exact P.
  Qed.

  (** D finite or infinite, any list (the empty list gives the indicator of the empty set) *)
  Theorem suff_indicator (D : option R) (l : list tri) :
    indicator_cond D l ->
    exists F : fnE, indicator_member D F /\ convex_seg F /\
                    (forall x, dom F x <-> hull (pts l) x) /\
                    forall s, In s l -> genuine_sub F s.
  Proof.
    intro H. exists (ind_fn l). split; [apply ind_fn_member, H|].
    split; [apply ind_fn_convex|]. split; [intro; reflexivity|]. apply (ind_fn_genuine D), H.
  Qed.

  Definition slope (s : tri) (x : E) : R := let '(_, g, _) := s in inner g x.

  (** the sampled subgradients of a list of triples *)
  Definition gs (l : list tri) (u : E) : Prop := exists x f, In (x, u, f) l.

  Definition support_cond (M : option R) (l : list tri) : Prop :=
    (forall x g f, In (x, g, f) l -> ref_sup_fenchel x g f = 0) /\
    (forall xi gi fi xj gj fj, In (xi, gi, fi) l -> In (xj, gj, fj) l -> ref_sup_convex xj gi gj <= 0) /\
    match M with
    | Some m => forall x g f, In (x, g, f) l -> ref_bounded_g m g <= 0
    | None => True
    end.

  (** C = hull of the g_i, sigma = max_i <g_i, .>, M finite or not: C is convex, sigma is its support
      function (an upper bound of <c, .> on C that is attained in C at every x), C lies in the ball
      of radius M, and every triple is a genuine sample (g_i in C is a maximiser at x_i). *)
  Theorem suff_support (M : option R) (l : list tri) :
    l <> [] -> support_cond M l ->
    exists (C : E -> Prop) (sigma : E -> R),
      support_member M C sigma /\
      (forall c c' t, C c -> C c' -> 0 <= t <= 1 -> C (seg c c' t)) /\
      (forall x, exists c, C c /\ inner c x = sigma x) /\
      forall s, In s l -> genuine_support C sigma s.
  Proof.
    destruct l as [|s0 l]; [congruence|]. intros _ [Hf [Hc Hb]].
    exists (hull (gs (s0 :: l))), (maxof slope s0 l). split; [|split; [|split]].
    - constructor.
      + intros x c Hcx. apply (hull_halfspace (gs (s0 :: l)) x (maxof slope s0 l x) c); [|exact Hcx].
        intros u [xu [fu Hu]]. exact (maxof_ge slope s0 l x _ Hu).
      + destruct M as [m|]; [|exact I]. intros c Hcx.
        rewrite <- nrm2_sub_zero. apply (hull_ball (gs (s0 :: l)) vzero (m ^ 2) c); [|exact Hcx].
        intros u [xu [fu Hu]]. rewrite nrm2_sub_zero.
        pose proof (Hb _ _ _ Hu) as P. unfold ref_bounded_g in P. lra.
    - intros c c' t. apply hull_convex.
    - intro x. destruct (maxof_attained slope s0 l x) as [[[xi gi] fi] [Hin Hv]].
      exists gi. split; [apply hull_pt; exists xi, fi; exact Hin|symmetry; exact Hv].
    - intros [[xj gj] fj] Hs.
      assert (Hv : inner gj xj = maxof slope s0 l xj).
      { apply Rle_antisym; [exact (maxof_ge slope s0 l xj _ Hs)|].
        apply maxof_le. intros [[xi gi] fi] Hi.
        pose proof (Hc _ _ _ _ _ _ Hi Hs) as P. unfold ref_sup_convex in P.
        rewrite inner_sub_r, !(inner_sym E xj) in P. cbn [slope]. lra. }
      split; [apply hull_pt; exists xj, fj; exact Hs|]. split; [exact Hv|].
      pose proof (Hf _ _ _ Hs) as P. unfold ref_sup_fenchel in P. lra.
  Qed.

  (** The operator classes of Spec/Classes.v are predicates on a set-valued graph: the finite graph
      {(x_i, g_i)} itself is a member IF AND ONLY IF the pairwise reference condition holds on all ordered
      pairs.  Its extension to a maximal monotone / everywhere-defined Lipschitz operator (Zorn /
      Kirszbraun-Valentine) is NOT proved here and stays in the trusted base. *)
  Definition graph_of (l : list tri) : @graph E := fun x g => exists f, In (x, g, f) l.

  Definition all_pairs (r : E -> E -> E -> E -> R) (l : list tri) : Prop :=
    forall xi gi fi xj gj fj, In (xi, gi, fi) l -> In (xj, gj, fj) l -> r xi gi xj gj <= 0.

  Lemma graph_pairs_iff (r : E -> E -> E -> E -> R) (Q : E -> E -> E -> E -> Prop) l :
    (forall x u y v, r x u y v <= 0 <-> Q x u y v) ->
    (all_pairs r l <-> forall x u y v, graph_of l x u -> graph_of l y v -> Q x u y v).
  Proof.
    intro H. split.
    - intros Hp x u y v [fx Hx] [fy Hy]. apply H. apply (Hp _ _ _ _ _ _ Hx Hy).
    - intros Hq xi gi fi xj gj fj Hi Hj. apply H. apply Hq; [exists fi; exact Hi|exists fj; exact Hj].
  Qed.

  Theorem suff_graph_classes (l : list tri) :
    (forall s, In s l -> genuine_op (graph_of l) s) /\
    (all_pairs ref_monotone l <-> monotone_op (graph_of l)) /\
    (forall mu, all_pairs (ref_strong_monotone mu) l <-> strongly_monotone_op mu (graph_of l)) /\
    (forall beta, all_pairs (ref_cocoercive beta) l <-> cocoercive_op beta (graph_of l)) /\
    (forall rho, all_pairs (ref_neg_comonotone rho) l <-> neg_comonotone_op rho (graph_of l)) /\
    (forall L, all_pairs (ref_lipschitz L) l <-> lipschitz_op L (graph_of l)) /\
    (all_pairs ref_nonexpansive l <-> nonexpansive_op (graph_of l)).
  Proof.
    split; [intros [[x g] f] Hs; exists f; exact Hs|].
    split; [|split; [|split; [|split; [|split]]]]; intros;
      apply graph_pairs_iff; intros x u y v;
      unfold ref_monotone, ref_strong_monotone, ref_cocoercive, ref_neg_comonotone, ref_lipschitz,
             ref_nonexpansive; split; intro; lra.
  Qed.
End Suff.

(** a condition on all triples / all ordered pairs of triples of a list, as [Forall]: on an explicit list it
    is one case per triple / pair, without any equation between triples *)
Lemma triples_Forall {E : ips} (C : E -> E -> R -> Prop) (l : list (@triple E)) :
  Forall (fun '(x, g, f) => C x g f) l -> forall x g f, In (x, g, f) l -> C x g f.
Proof. intros H x g f Hin. rewrite Forall_forall in H. exact (H _ Hin). Qed.

Lemma triple_pairs_Forall {E : ips} (C : E -> E -> R -> E -> E -> R -> Prop) (l : list (@triple E)) :
  Forall (fun '(xi, gi, fi) => Forall (fun '(xj, gj, fj) => C xi gi fi xj gj fj) l) l ->
  forall xi gi fi xj gj fj, In (xi, gi, fi) l -> In (xj, gj, fj) l -> C xi gi fi xj gj fj.
Proof.
  intros H xi gi fi xj gj fj Hi Hj. exact (triples_Forall _ l (triples_Forall _ l H xi gi fi Hi) xj gj fj Hj).
Qed.

Ltac ex_cases := repeat first [apply Forall_cons | apply Forall_nil].

(** three samples of |x|: at -1 (slope -1), at 0 (subgradient 0), at 1 (slope 1) *)
Definition ex_abs : list (@triple R1) := [(-1, -1, 1); (0, 0, 0); (1, 1, 1)].

Example suff_convex_nonvacuous :
  ex_abs <> [] /\ convex_cond ex_abs /\
  exists F : @fn R1, convex_seg F /\ forall s, In s ex_abs -> genuine_sub F s.
Proof.
  assert (Hc : convex_cond ex_abs).
  { unfold convex_cond. apply triple_pairs_Forall. ex_cases; unfold ref_convex; cbn; lra. }
  assert (Hne : ex_abs <> []) by discriminate.
  split; [exact Hne|]. split; [exact Hc|].
  destruct (suff_convex ex_abs Hne Hc) as [F [_ [HF [_ Hg]]]]. exists F. split; assumption.
Qed.

(** three samples of x^2 (2-strongly convex): at -1, 0, 1 *)
Definition ex_sq : list (@triple R1) := [(-1, -2, 1); (0, 0, 0); (1, 2, 1)].

Example suff_strongly_convex_nonvacuous :
  ex_sq <> [] /\ strongly_convex_cond 2 ex_sq /\
  exists F : @fn R1, strongly_convex_member 2 F /\ forall s, In s ex_sq -> genuine_sub F s.
Proof.
  assert (Hc : strongly_convex_cond 2 ex_sq).
  { unfold strongly_convex_cond. apply triple_pairs_Forall. ex_cases; unfold ref_strongly_convex; cbn; lra. }
  assert (Hne : ex_sq <> []) by discriminate.
  split; [exact Hne|]. split; [exact Hc|].
  destruct (suff_strongly_convex 2 ex_sq ltac:(lra) Hne Hc) as [F [HF [_ [_ Hg]]]].
  exists F. split; assumption.
Qed.

(** three samples of the indicator of [-1, 1] (diameter 2): normal cones (-inf,0], {0}, [0,+inf) *)
Definition ex_ind : list (@triple R1) := [(-1, -1, 0); (0, 0, 0); (1, 1, 0)].

Example suff_indicator_nonvacuous :
  indicator_cond (Some 2) ex_ind /\
  exists F : @fn R1, indicator_member (Some 2) F /\ convex_seg F /\ forall s, In s ex_ind -> genuine_sub F s.
Proof.
  assert (Hc : indicator_cond (Some 2) ex_ind).
  { split; [|split].
    - apply triples_Forall. ex_cases; reflexivity.
    - apply triple_pairs_Forall. ex_cases; unfold ref_ind_normal; cbn; lra.
    - apply triple_pairs_Forall. ex_cases; unfold ref_diameter; cbn; lra. }
  split; [exact Hc|].
  destruct (suff_indicator (Some 2) ex_ind Hc) as [F [HF [HC [_ Hg]]]].
  exists F. split; [exact HF|]. split; assumption.
Qed.

(** the same three triples read as samples of a 1-Lipschitz convex function (|x|), of the support
    function of [-1, 1] (sigma = |x|, the g_i in C, M = 1), and of a monotone nonexpansive operator
    (the graph {(-1,-1), (0,0), (1,1)}) *)
Example suff_lipschitz_nonvacuous :
  bounded_cond 1 ex_abs /\
  exists F : @fn R1, lipschitz_fn 1 F /\ convex_seg F /\ forall s, In s ex_abs -> genuine_sub F s.
Proof.
  assert (Hb : bounded_cond 1 ex_abs).
  { unfold bounded_cond. apply triples_Forall. ex_cases; unfold ref_bounded_g; cbn; lra. }
  split; [exact Hb|].
  destruct suff_convex_nonvacuous as [Hne [Hc _]].
  destruct (suff_convex_lipschitz 1 ex_abs Hne Hc Hb) as [F [HL [_ [HC Hg]]]].
  exists F. split; [exact HL|]. split; assumption.
Qed.

Example suff_support_nonvacuous :
  support_cond (Some 1) ex_abs /\
  exists (C : R1 -> Prop) (sigma : R1 -> R),
    support_member (Some 1) C sigma /\ forall s, In s ex_abs -> genuine_support C sigma s.
Proof.
  assert (Hc : support_cond (Some 1) ex_abs).
  { split; [|split].
    - apply triples_Forall. ex_cases; unfold ref_sup_fenchel; cbn; lra.
    - apply triple_pairs_Forall. ex_cases; unfold ref_sup_convex; cbn; lra.
    - apply (proj1 suff_lipschitz_nonvacuous). }
  split; [exact Hc|].
  destruct (suff_support (Some 1) ex_abs (proj1 suff_convex_nonvacuous) Hc) as [C [sigma [HS [_ [_ Hg]]]]].
  exists C, sigma. split; assumption.
Qed.

Example suff_graph_nonvacuous :
  all_pairs ref_monotone ex_abs /\ all_pairs ref_nonexpansive ex_abs /\
  monotone_op (graph_of ex_abs) /\ nonexpansive_op (graph_of ex_abs).
Proof.
  assert (H1 : all_pairs ref_monotone ex_abs).
  { unfold all_pairs. apply triple_pairs_Forall. ex_cases; unfold ref_monotone; cbn; lra. }
  assert (H2 : all_pairs ref_nonexpansive ex_abs).
  { unfold all_pairs. apply triple_pairs_Forall. ex_cases; unfold ref_nonexpansive; cbn; lra. }
  destruct (suff_graph_classes ex_abs) as [_ [Hm [_ [_ [_ [_ Hn]]]]]].
  split; [exact H1|]. split; [exact H2|]. split; [apply Hm, H1|apply Hn, H2].
Qed.
