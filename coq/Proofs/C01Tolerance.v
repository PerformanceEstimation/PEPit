(** C01, "all up to solver tolerance": what remains true when the solver's duals are NOT exact KKT duals.

    With NO assumption on the solver, for every dual vector of the right shapes, the dictionary [fd] that
    check_feasibility builds (objective - combination, symmetrised, pruned) satisfies, for all symmetric G and
    all F,
        objective(G,F) = fd(G,F) + sum multiplier x constraint - <residual, G>,
    and [fd] = returned constant + "remaining terms" ([remaining]); the remaining terms are what the solver's
    stationarity residual leaves behind.  Both are proved in Props/C01.v: C01_reconstruction_unconditional from
    the lemmas of Proofs/C01Gram.v and C01Identity.v, C01_constant_split from [dsum_remaining].

    This file, [weak_duality_tol]: if the multipliers are dual feasible only up to eps (inequality multipliers
    >= -eps; residual and LMI dual matrices within eps, entry-wise, of a sum of rank-one matrices), then
    at every feasible point
        objective <= fd(G,F) + eps * (sum |e_c| over inequalities + sum |G_ij| + sum_k sum |E_k,ij|),
    i.e. the returned constant dominates the objective up to the remaining terms and eps times an
    explicit l1 size of the primal point.  The bound on the multiplier terms is [dual_terms_tol]; [weak_duality]
    of Proofs/C01Identity.v is that bound at eps = 0 (its constant tau is any real, the [fd] here is a
    dictionary, so it is not an instance of [weak_duality_tol] itself; [weak_duality_from_tol] is). *)
From Coq Require Import List Reals Qreals Lra.
From PV Require Import Base.IPS Model.Dict Model.Terms Model.Sent Model.Cvxpy Model.Cert
     Spec.GramSem Spec.KKT Proofs.DictLemmas Proofs.SemLemmas Proofs.PSDLemmas.
Import ListNotations.
Local Open Scope R_scope.

(** the dictionary without its constant: the "remaining terms" *)
Definition remaining (d : edict) : edict := filter (fun kv => negb (ekey_eqb K1 (fst kv))) d.

(** under any valuation of the keys, a dictionary is its constant entry plus its remaining terms *)
Lemma dsum_remaining (val : ekey -> R) d : eND d ->
  dsum ekey val d = get ekey ekey_eqb K1 d * val K1 + dsum ekey val (remaining d).
Proof.
  unfold NoDupKeys, get, remaining.
  induction d as [|[k q] d IH]; intro Hd; cbn [keys map lookup filter fst dsum] in *; [lra|].
  apply NoDup_cons_iff in Hd as [Hk Hd]. specialize (IH Hd).
  destruct (ekey_eqb_spec K1 k) as [<-|_]; cbn [negb dsum]; [|lra].
  apply (lookup_None ekey ekey_eqb ekey_eqb_spec) in Hk. rewrite Hk in IH. lra.
Qed.

Definition abs_sum (n : nat) (A : nat -> nat -> R) : R :=
  sumn n (fun i => sumn n (fun j => Rabs (A i j))).

(** within eps, entry-wise, of a finite sum of rank-one matrices *)
Definition near_rank1sum (eps : R) (Sm : list (list Q)) (n : nat) : Prop :=
  shape Sm n n /\ exists vs : list (nat -> R),
    forall i j, (i < n)%nat -> (j < n)%nat -> Rabs (matR Sm i j - rank1_at vs i j) <= eps.

Fixpoint dual_feasible_tol (eps : R) (a : list expo) : Prop :=
  match a with
  | [] => True
  | (SC _ Ineq, VS l, _) :: r => - eps <= Q2R l /\ dual_feasible_tol eps r
  | (SC _ Equ, VS _, _) :: r => dual_feasible_tol eps r
  | (LMI m, VM Sd, Some u) :: r =>
      near_rank1sum eps Sd (nrows m) /\ shape u (nrows m) (nrows m) /\ same_sym_part u Sd (nrows m)
      /\ dual_feasible_tol eps r
  | _ :: r => False
  end.

(** l1 size of the constrained quantities at (G,F) *)
Fixpoint slack (G : nat -> nat -> R) (F : nat -> R) (l : sent) : R :=
  match l with
  | [] => 0
  | SC e Ineq :: r => Rabs (evalGF G F e) + slack G F r
  | SC _ Equ :: r => slack G F r
  | LMI m :: r => abs_sum (nrows m) (lmi_value G F m) + slack G F r
  end.

Lemma abs_sum_nonneg n A : 0 <= abs_sum n A.
Proof.
  unfold abs_sum. rewrite <- (sumn_zero n). apply sumn_le. intros i _.
  rewrite <- (sumn_zero n). apply sumn_le. intros j _. apply Rabs_pos.
Qed.

(** <S, A> = <R, A> - <R - S, A> with R a sum of rank-one matrices: the first term is non-negative, the second
    at most eps * sum |A_ij| *)
Theorem near_psd_pairing eps Sm A n :
  near_rank1sum eps Sm n -> psd_qf n A -> - (eps * abs_sum n A) <= mdot Sm A.
Proof.
  intros [Hshape [vs Hvs]] HA.
  rewrite (mdot_sumn Sm A n n Hshape).
  pose proof (rank1_pair_nonneg n vs A HA) as H1.
  assert (H2 : sumn n (fun i => sumn n (fun j => rank1_at vs i j * A i j))
               - sumn n (fun i => sumn n (fun j => matR Sm i j * A i j))
               <= eps * abs_sum n A).
  { rewrite <- sumn_minus. unfold abs_sum. rewrite <- sumn_scal. apply sumn_le. intros i Hi.
    rewrite <- sumn_minus, <- sumn_scal. apply sumn_le. intros j Hj.
    replace (rank1_at vs i j * A i j - matR Sm i j * A i j) with (- ((matR Sm i j - rank1_at vs i j) * A i j)) by lra.
    eapply Rle_trans; [apply Rle_abs|]. rewrite Rabs_Ropp, Rabs_mult.
    apply Rmult_le_compat_r; [apply Rabs_pos|exact (Hvs i j Hi Hj)]. }
  lra.
Qed.

Lemma multiplier_sum_tol eps G F np l :
  forall (ds : list dval) (es : list (option (list (list Q)))),
  feasible np l G F -> dual_feasible_tol eps (combine (combine l ds) es) ->
  length ds = length l -> length es = length l ->
  multiplier_sum G F (combine (combine l ds) es) <= eps * slack G F l.
Proof.
  intros ds es [_ [_ Hfe]]. revert ds es.
  induction Hfe as [|it l Hit _ IH]; intros ds es Hdf Hlen Hlen'; [cbn; lra|].
  destruct ds as [|d ds], es as [|u es]; try discriminate.
  injection Hlen as Hlen. injection Hlen' as Hlen'. specialize (IH ds es).
  cbn [combine dual_feasible_tol multiplier_sum slack] in *.
  destruct it as [e [|]|m], d as [la|Sm]; try contradiction.
  - destruct Hdf as [Hla Hdf]. specialize (IH Hdf Hlen Hlen').
    cbn [item_holds holdsGF fst snd] in Hit. rewrite (Rabs_left1 _ Hit). nra.
  - specialize (IH Hdf Hlen Hlen'). cbn [item_holds holdsGF fst snd] in Hit. rewrite Hit. lra.
  - destruct u as [u|]; [|contradiction]. destruct Hdf as [Hr [Hu [Hsym Hdf]]].
    specialize (IH Hdf Hlen Hlen'). cbn [item_holds lmi_multiplier] in *.
    rewrite (mdot_sym_part u Sm _ _ Hu (proj1 Hr) Hsym (proj1 Hit)).
    pose proof (near_psd_pairing eps Sm _ _ Hr Hit). lra.
Qed.

(** at a feasible point the multiplier terms of the identity are at most eps times the l1 size of the point *)
Lemma dual_terms_tol eps np tracked duals entries res G F :
  length duals = length tracked -> length entries = length tracked ->
  dual_feasible_tol eps (combine (combine tracked duals) entries) -> near_rank1sum eps res np ->
  feasible np tracked G F ->
  multiplier_sum G F (combine (combine tracked duals) entries) - mdot res G
  <= eps * (slack G F tracked + abs_sum np G).
Proof.
  intros Hlen Hlen' Hdf Hres Hfe.
  pose proof (multiplier_sum_tol eps G F np tracked duals entries Hfe Hdf Hlen Hlen') as H1.
  pose proof (near_psd_pairing eps res G np Hres (proj1 (proj2 Hfe))) as H2. lra.
Qed.

Theorem weak_duality_tol :
  forall (eps : R) (np : nat) (obj fd : edict) (tracked : sent) (duals : list dval)
         (entries : list (option (list (list Q)))) (res : list (list Q)),
    length duals = length tracked -> length entries = length tracked ->
    (forall G F, symG G ->
       evalGF G F obj = evalGF G F fd + multiplier_sum G F (combine (combine tracked duals) entries) - mdot res G) ->
    dual_feasible_tol eps (combine (combine tracked duals) entries) ->
    near_rank1sum eps res np ->
    forall G F, feasible np tracked G F ->
      evalGF G F obj <= evalGF G F fd + eps * (slack G F tracked + abs_sum np G).
Proof.
  intros eps np obj fd tracked duals entries res Hlen Hlen' Hid Hdf Hres G F Hfe.
  pose proof (Hid G F (proj1 Hfe)) as H.
  pose proof (dual_terms_tol eps np tracked duals entries res G F Hlen Hlen' Hdf Hres Hfe) as H1. lra.
Qed.

(** exact dual feasibility is dual feasibility up to any eps >= 0, in particular eps = 0 *)
Lemma rank1sum_near eps Sm n : 0 <= eps -> rank1sum Sm n -> near_rank1sum eps Sm n.
Proof.
  intros Heps [Hs [vs Hvs]]. split; [exact Hs|]. exists vs. intros i j Hi Hj.
  rewrite (Hvs i j Hi Hj), Rminus_diag_eq, Rabs_R0 by reflexivity. exact Heps.
Qed.

Lemma dual_feasible_tol0 a : dual_feasible a -> dual_feasible_tol 0 a.
Proof.
  induction a as [|[[it d] u] a IH]; cbn [dual_feasible dual_feasible_tol]; [tauto|].
  destruct it as [e [|]|m], d as [la|Sm]; try contradiction.
  - intros [H1 H2]. split; [lra|auto].
  - exact IH.
  - destruct u; [|contradiction]. intros [H1 [H2 [H3 H4]]].
    split; [apply rank1sum_near; [lra|exact H1]|]. auto.
Qed.

(** hence the exact theorem is the special case *)
Corollary weak_duality_from_tol :
  forall (np : nat) (obj fd : edict) (tracked : sent) (duals : list dval)
         (entries : list (option (list (list Q)))) (res : list (list Q)),
    length duals = length tracked -> length entries = length tracked ->
    (forall G F, symG G ->
       evalGF G F obj = evalGF G F fd + multiplier_sum G F (combine (combine tracked duals) entries) - mdot res G) ->
    dual_feasible (combine (combine tracked duals) entries) ->
    rank1sum res np ->
    forall G F, feasible np tracked G F -> evalGF G F obj <= evalGF G F fd.
Proof.
  intros np obj fd tracked duals entries res Hl Hl' Hid Hdf Hres G F Hfe.
  pose proof (weak_duality_tol 0 np obj fd tracked duals entries res Hl Hl' Hid
                (dual_feasible_tol0 _ Hdf) (rank1sum_near 0 _ _ (Rle_refl 0) Hres) G F Hfe) as H. lra.
Qed.

(** The datum of C01_tolerance_example (Props/C01.v): an INEXACT dual for the model of Proofs/C01Examples.v - one multiplier off
    by 1/1000, an indefinite LMI dual matrix within 1/1000 of a rank-one matrix.  It has the right shapes, the
    reconstruction leaves a remaining term, the tolerance hypotheses hold with eps = 1/1000 and the exact ones do
    not apply (the dual matrix is not PSD: its determinant is negative). *)
Definition t_duals : list dval :=
  [ VM [[0%Q]]; VS (999 # 1000)%Q; VS (1 # 4)%Q; VM [[(1 # 4)%Q; (-1 # 2)%Q]; [(-1 # 2)%Q; (999 # 1000)%Q]];
    VS (1 # 4)%Q; VS (-1 # 2)%Q; VS (-1 # 2)%Q; VS (999 # 1000)%Q ].
