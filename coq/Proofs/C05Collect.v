(** C05 — the collection phase, interpreted on the GENERATED plan [Gen.SolvePlan.solve_plan], sends
    exactly the declared model (Proofs/C05Spec.v [expected_result]).

    The plan first prepares (objective leaf, filtered function lists, class / partition constraints,
    main variables, empty tracking lists) and reaches the state [prepared m None]; from there on every
    state is that one with the list [l] of items sent so far appended ([app_sent]), and each statement
    of the send phase appends its own items ([appends]). *)
From Coq Require Import List Arith.
From PV Require Import Model.Dict Model.Terms Model.Sent Model.Collect Gen.SolvePlan Proofs.C05Spec.
Import ListNotations.

Definition app_sent (st : state) (l : sent) : state :=
  mkState (s_expr_ctr st) (s_objective st) (s_lists st) (s_class_set st) (s_part_set st) (s_fdim st)
          (s_track_c st ++ scalars l) (s_track_p st ++ lmis l) (s_sent st ++ l) (s_generated st).

Lemma scalars_app a b : scalars (a ++ b) = scalars a ++ scalars b.
Proof. apply flat_map_app. Qed.
Lemma lmis_app a b : lmis (a ++ b) = lmis a ++ lmis b.
Proof. apply flat_map_app. Qed.

Lemma app_sent_nil st : app_sent st [] = st.
Proof. destruct st. unfold app_sent. cbn. rewrite !app_nil_r. reflexivity. Qed.

Lemma app_sent_app st a b : app_sent (app_sent st a) b = app_sent st (a ++ b).
Proof. unfold app_sent. cbn. rewrite scalars_app, lmis_app, !app_assoc. reflexivity. Qed.

Lemma fetch_app m c st l s : fetch m c (app_sent st l) s = fetch m c st s.
Proof. destruct s; reflexivity. Qed.

Definition payload_item (st : state) (x : obj) (mt : meth) (t : track) (p : payload) : option item :=
  match mt, t, eval_payload st x p with
  | MScalar, TCons, Some (OC c) => Some (sc c)
  | MLmi, TPsd, Some (OP mx) => Some (LMI mx)
  | _, _, _ => None
  end.

(** [send(x); track.append(x)]: the payload is read twice, the second time in the state the send has
    left; it does not depend on the three lists, so both readings agree (by conversion). *)
Lemma exec_lbody_pair st x mt t p it :
  wrapper_open st = true -> payload_item st x mt t p = Some it ->
  exec_lbody st x [LSend mt p; LTrack t p] = Some (app_sent st [it]).
Proof.
  intros Ho Hp. unfold payload_item in Hp.
  destruct mt, t; try discriminate;
    destruct (eval_payload st x p) as [[e|c|mx]|] eqn:He; try discriminate; injection Hp as <-;
    cbn [exec_lbody exec_l]; rewrite Ho, He;
    change (eval_payload (set_sent st _) x p) with (eval_payload st x p); rewrite He;
    unfold app_sent; cbn; rewrite app_nil_r; [destruct c|]; reflexivity.
Qed.

Lemma run_list_step m c s l st st' r :
  exec m c s st = Some st' -> run_list (exec m) c l st' = r -> run_list (exec m) c (s :: l) st = r.
Proof. intros H <-. cbn [run_list]. rewrite H. reflexivity. Qed.

Lemma filter_funcs_spec m st c (b : func -> bool) :
  (forall f, fcond_holds m st f c = Some (b f)) ->
  forall fs, filter_funcs m st c fs = Some (filter b fs).
Proof.
  intros H. induction fs as [|f fs IH]; cbn [filter_funcs filter]; [reflexivity|].
  rewrite H, IH. reflexivity.
Qed.

Lemma is_nil_map {A B} (f : A -> B) l : is_nil (map f l) = is_nil l.
Proof. destruct l; reflexivity. Qed.

Definition after_class (st : state) (fs : list func) : state :=
  mkState (s_expr_ctr st + list_sum (map f_fresh_exprs fs)) (s_objective st) (s_lists st)
          (rev (map f_id fs) ++ s_class_set st) (s_part_set st) (s_fdim st) (s_track_c st) (s_track_p st)
          (s_sent st) (s_generated st).

Lemma run_set_class m cp fs : forall st,
    run_funcs (exec m) [SetClassConstraints] cp fs st = Some (after_class st fs).
Proof.
  induction fs as [|f fs IH]; intros st; cbn [run_funcs run_list exec c_fun].
  - unfold after_class. cbn. rewrite Nat.add_0_r. destruct st; reflexivity.
  - rewrite IH. unfold after_class. cbn. rewrite <- app_assoc, Nat.add_assoc. reflexivity.
Qed.

Definition after_parts (st : state) (ps : list part) : state :=
  mkState (s_expr_ctr st) (s_objective st) (s_lists st) (s_class_set st)
          (rev (map p_id ps) ++ s_part_set st) (s_fdim st) (s_track_c st) (s_track_p st)
          (s_sent st) (s_generated st).

Lemma run_add_parts m cf ps : forall st,
    run_parts (exec m) [AddPartitionConstraints] cf ps st = Some (after_parts st ps).
Proof.
  induction ps as [|p ps IH]; intros st; cbn [run_parts run_list exec c_part].
  - unfold after_parts. cbn. destruct st; reflexivity.
  - rewrite IH. unfold after_parts. cbn. rewrite <- app_assoc. reflexivity.
Qed.

Lemma mem_id_rev {A} (idf : A -> nat) (x : A) l rest :
  In x l -> mem_nat (idf x) (rev (map idf l) ++ rest) = true.
Proof.
  intros H. apply existsb_exists. exists (idf x). split; [|apply Nat.eqb_refl].
  apply in_or_app. left. apply -> in_rev. apply in_map. exact H.
Qed.

(** What the preparation leaves, [g] being the leaf handed to generate_problem (none yet). *)
Definition prepared (m : model) (g : option nat) : state :=
  let leafs := filter f_is_leaf (m_funcs m) in
  let n := S (m_expr_ctr m + list_sum (map f_fresh_exprs leafs)) in
  mkState n (Some (m_expr_ctr m)) [(1, filter has_own (m_funcs m)); (0, leafs)]
          (rev (map f_id leafs) ++ []) (rev (map p_id (m_parts m)) ++ []) (Some n) [] [] [] g.

Section Send.
  Variable m : model.
  Variable st0 : state.

  (** from [st0] with [l] appended, [run] leads to [st1] with [l ++ a] appended *)
  Definition appends (st1 : state) (run : state -> option state) (a : sent) : Prop :=
    forall l, run (app_sent st0 l) = Some (app_sent st1 (l ++ a)).

  Lemma appends_run st1 run a : appends st1 run a -> run st0 = Some (app_sent st1 a).
  Proof. intros H. rewrite <- (app_sent_nil st0). apply H. Qed.

  Lemma appends_cons st1 c s rest a b :
    appends st0 (exec m c s) a -> appends st1 (run_list (exec m) c rest) b ->
    appends st1 (run_list (exec m) c (s :: rest)) (a ++ b).
  Proof. intros Ha Hb l. cbn [run_list]. rewrite Ha, Hb, app_assoc. reflexivity. Qed.

  (** the last statement that sends, followed by statements that send nothing *)
  Lemma appends_end st1 c s rest a :
    appends st0 (exec m c s) a ->
    (forall l, run_list (exec m) c rest (app_sent st0 l) = Some (app_sent st1 l)) ->
    appends st1 (run_list (exec m) c (s :: rest)) a.
  Proof. intros Ha Hb l. cbn [run_list]. rewrite Ha. apply Hb. Qed.

  (** a guard [if len(LIST) > 0:] around a loop over the same LIST changes nothing *)
  Lemma appends_guard c s b a :
    appends st0 (exec m c (ForItems s b)) a -> appends st0 (exec m c (IfNonEmpty s [ForItems s b])) a.
  Proof.
    intros H l. rewrite <- H. cbn [exec].
    destruct (fetch m c (app_sent st0 l) s) as [[|x xs]|] eqn:Hf; [reflexivity| |reflexivity].
    cbn [run_list exec]. rewrite Hf. destruct (exec_items b (x :: xs) (app_sent st0 l)); reflexivity.
  Qed.

  (** [for x in LIST: wrapper.send...(x); track.append(x)] *)
  Lemma appends_items {A} c s mt t p (inj : A -> obj) (h : A -> item) xs :
    fetch m c st0 s = Some (map inj xs) ->
    (forall a, payload_item st0 (inj a) mt t p = Some (h a)) ->
    wrapper_open st0 = true ->
    appends st0 (exec m c (ForItems s [LSend mt p; LTrack t p])) (map h xs).
  Proof.
    intros Hf Hp open0 l. cbn [exec]. rewrite fetch_app, Hf. clear Hf. revert l.
    induction xs as [|a xs IH]; intros l; cbn [map exec_items].
    - rewrite app_nil_r. reflexivity.
    - rewrite (exec_lbody_pair (app_sent st0 l) _ _ _ _ (h a) open0 (Hp a)), app_sent_app, IH, <- app_assoc.
      reflexivity.
  Qed.

  (** the loops over functions and over partitions: any [loop] that runs [F x] for each [x] in turn *)
  Lemma appends_loop {A} (loop : list A -> state -> option state) (F : A -> state -> option state) (g : A -> sent) :
    (forall st, loop [] st = Some st) ->
    (forall x xs st, loop (x :: xs) st = match F x st with Some st' => loop xs st' | None => None end) ->
    forall xs, (forall x, In x xs -> appends st0 (F x) (g x)) -> appends st0 (loop xs) (flat_map g xs).
  Proof.
    intros Hnil Hcons. induction xs as [|x xs IH]; intros H l; cbn [flat_map].
    - rewrite Hnil, app_nil_r. reflexivity.
    - rewrite Hcons, (H x (or_introl eq_refl)), IH, app_assoc by (intros y Hy; apply H; right; exact Hy).
      reflexivity.
  Qed.

  Lemma appends_funcs c v body fs g :
    assoc v (s_lists st0) = Some fs ->
    (forall f, In f fs -> appends st0 (run_list (exec m) (mkCtx (Some f) (c_part c)) body) (g f)) ->
    appends st0 (exec m c (ForFunctions v body)) (flat_map g fs).
  Proof.
    intros Hv H l. cbn [exec app_sent s_lists]. rewrite Hv.
    exact (appends_loop (run_funcs (exec m) body (c_part c)) _ g (fun _ => eq_refl) (fun _ _ _ => eq_refl) fs H l).
  Qed.

  Lemma appends_parts c body g :
    (forall p, In p (m_parts m) -> appends st0 (run_list (exec m) (mkCtx (c_fun c) (Some p)) body) (g p)) ->
    appends st0 (exec m c (ForPartitions body)) (flat_map g (m_parts m)).
  Proof.
    exact (appends_loop (run_parts (exec m) body (c_fun c)) _ g (fun _ => eq_refl) (fun _ _ _ => eq_refl)
             (m_parts m)).
  Qed.
End Send.

Theorem collect_correct : forall m, collect solve_plan m = Some (expected_result m).
Proof.
  intros m.
  enough (H : run_list (exec m) (mkCtx None None) solve_plan (init_state m)
              = Some (app_sent (prepared m (Some (m_expr_ctr m))) (expected_sent m)))
    by (unfold collect, exec_list; rewrite H; reflexivity).
  unfold solve_plan.
  (* preparation: objective leaf, the two filtered lists, class / partition constraints, main variables,
     tracking lists *)
  eapply run_list_step; [simpl; reflexivity|].
  eapply run_list_step; [cbn [exec]; rewrite (filter_funcs_spec m _ _ f_is_leaf) by reflexivity; simpl; reflexivity|].
  eapply run_list_step.
  { cbn [exec]. rewrite (filter_funcs_spec m _ _ has_own)
      by (intros f; cbn [fcond_holds fetch c_fun]; rewrite !is_nil_map; reflexivity).
    simpl. reflexivity. }
  eapply run_list_step; [cbn [exec s_lists assoc Nat.eqb]; rewrite run_set_class; simpl; reflexivity|].
  eapply run_list_step; [cbn [exec]; rewrite run_add_parts; simpl; reflexivity|].
  eapply run_list_step; [simpl; reflexivity|].
  eapply run_list_step; [simpl; reflexivity|].
  eapply run_list_step; [simpl; reflexivity|].
  (* send phase *)
  set (st0 := prepared m None). apply (appends_run st0). unfold expected_sent.
  (* metrics: the comparison built is [self.objective <= metric] *)
  apply appends_cons; [eapply appends_items; reflexivity|].
  (* pep constraints, pep LMIs (guarded or not by `if len(self.list_of_psd) > 0`) *)
  apply appends_cons; [try apply appends_guard; eapply appends_items; reflexivity|].
  apply appends_cons; [try apply appends_guard; eapply appends_items; reflexivity|].
  (* class constraints of the leaf functions: their lists are the fresh ones *)
  apply appends_cons.
  { apply appends_funcs; [reflexivity|]. intros f Hin.
    assert (Hm : mem_nat (f_id f) (s_class_set st0) = true) by (apply mem_id_rev; exact Hin).
    apply appends_cons; [|apply appends_end; [|reflexivity]];
      try apply appends_guard; (eapply appends_items; [cbn [fetch c_fun]; rewrite Hm| |]; reflexivity). }
  (* own constraints of the functions that have some *)
  apply appends_cons.
  { apply appends_funcs; [reflexivity|]. intros f _.
    apply appends_cons; [|apply appends_end; [|reflexivity]];
      try apply appends_guard; eapply appends_items; reflexivity. }
  (* partitions, then generate_problem *)
  apply appends_end; [|reflexivity].
  apply appends_parts. intros p Hin.
  assert (Hm : mem_nat (p_id p) (s_part_set st0) = true) by (apply mem_id_rev; exact Hin).
  apply appends_end; [|reflexivity].
  eapply appends_items; [cbn [fetch c_part]; rewrite Hm| |]; reflexivity.
Qed.

Local Open Scope nat_scope.
Lemma count_app eqb x a b : count_item eqb x (a ++ b) = count_item eqb x a + count_item eqb x b.
Proof. unfold count_item. rewrite filter_app, app_length. reflexivity. Qed.

Lemma count_app_acc eqb x a b n :
  n + count_item eqb x (a ++ b) = n + count_item eqb x a + count_item eqb x b.
Proof. rewrite count_app. apply Nat.add_assoc. Qed.

Lemma count_flat_map {A} eqb x (g : A -> sent) (h : A -> nat) l :
  (forall a, count_item eqb x (g a) = h a) -> count_item eqb x (flat_map g l) = list_sum (map h l).
Proof.
  intros H. induction l as [|a l IH]; cbn [flat_map map list_sum]; [reflexivity|].
  rewrite count_app, IH, H. reflexivity.
Qed.

Theorem multiplicity m r :
  collect solve_plan m = Some r ->
  forall eqb x,
    count_item eqb x (r_sent r)
    = count_item eqb x (map (metric_row (m_expr_ctr m)) (m_metrics m))
      + count_item eqb x (map sc (m_cons m))
      + count_item eqb x (map LMI (m_psd m))
      + list_sum (map (fun f => count_item eqb x (map sc (f_class_cons f)) + count_item eqb x (map LMI (f_class_psd f)))
                      (filter f_is_leaf (m_funcs m)))
      + list_sum (map (fun f => count_item eqb x (map sc (f_cons f)) + count_item eqb x (map LMI (f_psd f)))
                      (filter has_own (m_funcs m)))
      + list_sum (map (fun p => count_item eqb x (map sc (p_cons p))) (m_parts m)).
Proof.
  rewrite collect_correct. intros [= <-] eqb x. cbn [r_sent expected_result]. unfold expected_sent.
  erewrite count_app, !count_app_acc, !count_flat_map by (intros; (apply count_app || reflexivity)).
  reflexivity.
Qed.
