(** C14, over the GENERATED program [Gen.PostSolve.post_solve] (PEP._solve_with_wrapper from the first
    wrapper.solve to the last return), with the interpreter and the syntactic check of Proofs/C14Run.v:
    a soundness theorem of the check for ALL configurations (every heuristic
    string, every number of logdet iterations, every return mode, every solver answer), and the option
    dispatch.  The generated program passes the check by computation, so any change of the order of the
    calls in pep.py changes the term and breaks these proofs. *)
From Coq Require Import List String ZArith Bool.
From PV Require Import Gen.PostSolve Proofs.C14Run.
Import ListNotations.
Open Scope string_scope.
Open Scope list_scope.

Definition is_assign (e : event) : bool := match e with EvAssign _ => true | _ => false end.
Definition is_heur (e : event) : bool := match e with EvPrepare _ | EvHeuristic _ => true | _ => false end.
(** no assign_dual_values, prepare_heuristic or heuristic event *)
Definition clean (t : list event) : Prop := forallb (fun e => negb (is_assign e || is_heur e)) t = true.
Definition noassign (t : list event) : Prop := forallb (fun e => negb (is_assign e)) t = true.

(** exactly one assign_dual_values, reading the FIRST solve, before every prepare_heuristic / heuristic *)
Definition assigned_once_first (t : list event) : Prop :=
  exists t1 t2, t = t1 ++ EvAssign 1 :: t2 /\ clean t1 /\ noassign t2.

Definition trace_ok (t : list event) : Prop := clean t \/ assigned_once_first t.

(** what the trace looks like in each phase of the check *)
Definition phase_trace (ph : phase) (t : list event) : Prop :=
  match ph with PAssigned => assigned_once_first t | _ => clean t end.

Definition phase_inv (x : abs) (s : st) : Prop :=
  match fst x with
  | PInit => n_solves s = 0 /\ duals_of s = None
  | PSolved => n_solves s = 1 /\ duals_of s = None
  | PAssigned => duals_of s = Some 1
  end /\ phase_trace (fst x) (trace s) /\ (snd x = true -> dualobj s = Some (Some 1)).

Definition ret_ok (c : cfg) (t : list event) (v : value) : Prop :=
  v = VNone \/ (assigned_once_first t /\ (c_mode c = "dual" -> v = VDualObjective (Some (Some 1)))).

(** a running state is in the phase the check computed; a finished one (which no statement changes any
    more) has a good trace and, if it returned, a good value *)
Definition inv (c : cfg) (x : abs) (s : st) : Prop :=
  match out s with
  | Running => phase_inv x s
  | Returned v => trace_ok (trace s) /\ ret_ok c (trace s) v
  | RaisedValueError => trace_ok (trace s)
  end.

Lemma clean_app t e : clean t -> negb (is_assign e || is_heur e) = true -> clean (t ++ [e]).
Proof. unfold clean. intros H1 H2. rewrite forallb_app, H1. cbn. rewrite H2. reflexivity. Qed.

Lemma aof_app t e : assigned_once_first t -> is_assign e = false -> assigned_once_first (t ++ [e]).
Proof.
  intros [t1 [t2 [-> [H1 H2]]]] He. exists t1, (t2 ++ [e]). rewrite <- app_assoc. split; [reflexivity|].
  split; [exact H1|]. unfold noassign in *. rewrite forallb_app, H2. cbn. rewrite He. reflexivity.
Qed.

Lemma phase_trace_app ph t e :
  phase_trace ph t -> is_assign e = false -> is_heur e = false \/ ph = PAssigned -> phase_trace ph (t ++ [e]).
Proof.
  intros H Ha [Hh| ->]; [|exact (aof_app t e H Ha)].
  destruct ph; [apply clean_app|apply clean_app|apply aof_app]; try assumption; rewrite Ha, Hh; reflexivity.
Qed.

Lemma phase_trace_ok ph t : phase_trace ph t -> trace_ok t.
Proof. destruct ph; [left|left|right]; assumption. Qed.

(** a statement that only logs an event which is no assign_dual_values (and, before the duals are
    assigned, no heuristic event either) leaves the state in its phase *)
Lemma log_sound x s s' e :
  trace s' = trace s ++ [e] -> n_solves s' = n_solves s -> duals_of s' = duals_of s -> dualobj s' = dualobj s ->
  is_assign e = false -> is_heur e = false \/ fst x = PAssigned ->
  phase_inv x s -> phase_inv x s'.
Proof.
  intros Ht Hn Hd Ho Ha Hh [Hc [Htr Hk]]. unfold phase_inv. rewrite Ht, Hn, Hd, Ho.
  split; [exact Hc|]. split; [exact (phase_trace_app _ _ e Htr Ha Hh)|exact Hk].
Qed.

Lemma string_eqb_dual m : String.eqb m "dual" = true -> m = "dual".
Proof. apply String.eqb_eq. Qed.

Lemma lookup_case_dual cases :
  retval_is (lookup_case "dual" cases) RetDualObjective = true -> lookup_case "dual" cases = Some RetDualObjective.
Proof. destruct (lookup_case "dual" cases) as [[|]|]; [reflexivity|discriminate|discriminate]. Qed.

Lemma step_sound c a x x' s :
  abs_atom a x = Some x' -> inv c x s -> inv c x' (exec_atom c a s).
Proof.
  unfold exec_atom, inv at 1. destruct (out s) eqn:Ho; intros Ha Hph; [|unfold inv; rewrite Ho; exact Hph..].
  assert (Hok : trace_ok (trace s)) by exact (phase_trace_ok _ _ (proj1 (proj2 Hph))).
  destruct x as [ph chk].
  destruct a; cbn [abs_atom] in Ha; unfold inv; cbn [step emit_ev finish out]; rewrite ?Ho.
  - (* ASolve *)
    destruct Hph as [Hc [Htr Hk]]. cbn [fst snd] in *.
    destruct ph; [|discriminate|]; injection Ha as <-; (split; [|split; [|exact Hk]]); cbn [fst n_solves duals_of trace].
    + destruct Hc as [-> Hd]. split; [reflexivity|exact Hd].
    + apply clean_app; [exact Htr|reflexivity].
    + exact Hc.
    + apply aof_app; [exact Htr|reflexivity].
  - (* AReturnIfNone *)
    injection Ha as <-. destruct (c_none c (n_solves s)); cbn [finish out trace]; rewrite ?Ho;
      [split; [exact Hok|left; reflexivity]|exact Hph].
  - (* AAssignDuals *)
    destruct ph; try discriminate. injection Ha as <-. destruct Hph as [[Hn _] [Htr Hk]]. cbn [fst snd] in *.
    rewrite Hn. split; [reflexivity|]. split; [|exact Hk]. exists (trace s), []. repeat split. exact Htr.
  - (* AGetPrimal *) injection Ha as <-. apply (log_sound _ s _ (EvGetPrimal (n_solves s))); auto.
  - (* AEig *) injection Ha as <-. apply (log_sound _ s _ EvEig); auto.
  - (* APrepare *)
    destruct ph; try discriminate. injection Ha as <-. apply (log_sound _ s _ (EvPrepare (n_solves s))); auto.
  - (* AHeuristic *)
    destruct ph; try discriminate. injection Ha as <-. apply (log_sound _ s _ (EvHeuristic w)); auto.
  - (* AComputeW *) injection Ha as <-. apply (log_sound _ s _ EvComputeW); auto.
  - (* AStoreGF *) injection Ha as <-. apply (log_sound _ s _ EvStore); auto.
  - (* AEvalPoints *) injection Ha as <-. apply (log_sound _ s _ (EvEval (primal_of s))); auto.
  - (* ACheckFeasibility *)
    destruct ph; try discriminate. injection Ha as <-. destruct Hph as [Hc [Htr Hk]]. cbn [fst snd] in *.
    split; [exact Hc|]. split; [apply aof_app; [exact Htr|reflexivity]|]. intros _. cbn [dualobj]. now rewrite Hc.
  - (* ARaiseValueError *) exact Hok.
  - (* AReturnSwitch *)
    destruct ph; try discriminate. destruct chk; [|discriminate]. cbn [andb] in Ha.
    destruct (retval_is (lookup_case "dual" cases) RetDualObjective) eqn:Hd; [|discriminate].
    apply lookup_case_dual in Hd. destruct Hph as [_ [Htr Hk]]. cbn [fst snd] in *.
    destruct (lookup_case (c_mode c) cases) as [[|]|] eqn:Hl; cbn [finish out trace]; [| |exact Hok];
      (split; [exact Hok|]); right; (split; [exact Htr|]); intro Hm.
    + now rewrite (Hk eq_refl).
    + rewrite Hm, Hd in Hl. discriminate Hl.
Qed.

(** a sequence of statements, at any of the four levels of the program: [abss] checks the statements of
    the list one after the other with [absf], and the list is run by folding [execf] *)
Lemma seq_sound {A} c (absf : A -> abs -> option abs) (abss : list A -> abs -> option abs) (execf : A -> st -> st) :
  (forall a l x, abss (a :: l) x = match absf a x with Some x' => abss l x' | None => None end) ->
  (forall x, abss [] x = Some x) ->
  (forall a x x' s, absf a x = Some x' -> inv c x s -> inv c x' (execf a s)) ->
  forall l x x' s, abss l x = Some x' -> inv c x s -> inv c x' (fold_left (fun s a => execf a s) l s).
Proof.
  intros Hcons Hnil Hf. induction l as [|a l IH]; intros x x' s Ha Hinv; cbn [fold_left].
  - rewrite Hnil in Ha. injection Ha as <-. exact Hinv.
  - rewrite Hcons in Ha. destruct (absf a x) as [x1|] eqn:H1; [|discriminate].
    exact (IH x1 x' _ Ha (Hf a x x1 s H1 Hinv)).
Qed.

Lemma abs_eqb_eq a b : abs_eqb a b = true -> a = b.
Proof.
  destruct a as [p1 b1], b as [p2 b2]. unfold abs_eqb. cbn. intro H. apply andb_prop in H as [H1 H2].
  apply eqb_prop in H2. subst. destruct p1, p2; try discriminate; reflexivity.
Qed.

Lemma keeps_eq o x : keeps o x = true -> o = Some x.
Proof. destruct o as [x'|]; cbn; [|discriminate]. intro H. apply abs_eqb_eq in H. subst. reflexivity. Qed.

Lemma l1_sound c y x x' s : abs_l1 y x = Some x' -> inv c x s -> inv c x' (exec_l1 c y s).
Proof.
  destruct y as [a|skip body]; cbn [abs_l1 exec_l1]; [apply step_sound|].
  intros Ha Hinv. destruct (keeps (abs_atoms body x) x) eqn:Hk; [|discriminate]. injection Ha as <-.
  apply keeps_eq in Hk. destruct (out s) eqn:Ho; [|exact Hinv..].
  destruct (c_int c _) as [z|].
  - induction (Z.to_nat z) as [|n IHn]; cbn [Nat.iter]; [exact Hinv|].
    exact (seq_sound c abs_atom abs_atoms (exec_atom c) (fun _ _ _ => eq_refl) (fun _ => eq_refl) (step_sound c)
                     body x x _ Hk IHn).
  - unfold inv in *. rewrite Ho in Hinv. exact (phase_trace_ok _ _ (proj1 (proj2 Hinv))).
Qed.

Lemma select_keeps branches orelse x h :
  forallb (fun '(_, body) => keeps (abs_l1s body x) x) branches = true -> keeps (abs_l1s orelse x) x = true ->
  abs_l1s (select branches orelse h) x = Some x.
Proof.
  induction branches as [|[t body] rest IH]; cbn [select forallb]; intros H1 H2.
  - apply keeps_eq. exact H2.
  - apply andb_prop in H1 as [Hb Hr]. destruct (test_holds t h); [apply keeps_eq; exact Hb|apply IH; assumption].
Qed.

Lemma l2_sound c y x x' s : abs_l2 y x = Some x' -> inv c x s -> inv c x' (exec_l2 c y s).
Proof.
  destruct y as [a|branches orelse]; cbn [abs_l2 exec_l2]; [apply step_sound|].
  intros Ha Hinv.
  destruct (forallb _ branches && keeps (abs_l1s orelse x) x) eqn:Hk; [|discriminate]. injection Ha as <-.
  apply andb_prop in Hk as [H1 H2].
  exact (seq_sound c abs_l1 abs_l1s (exec_l1 c) (fun _ _ _ => eq_refl) (fun _ => eq_refl) (l1_sound c)
                   _ x x s (select_keeps branches orelse x _ H1 H2) Hinv).
Qed.

Lemma top_sound c y x x' s : abs_top y x = Some x' -> inv c x s -> inv c x' (exec_top c y s).
Proof.
  destruct y as [a|body]; cbn [abs_top exec_top]; [apply step_sound|].
  intros Ha Hinv. destruct (keeps (abs_l2s body x) x) eqn:Hk; [|discriminate]. injection Ha as <-.
  apply keeps_eq in Hk. destruct (truthy c); [|exact Hinv].
  exact (seq_sound c abs_l2 abs_l2s (exec_l2 c) (fun _ _ _ => eq_refl) (fun _ => eq_refl) (l2_sound c)
                   body x x s Hk Hinv).
Qed.

(** every well-ordered program, under EVERY configuration *)
Theorem well_ordered_sound (p : list top) :
  well_ordered p = true ->
  forall c : cfg,
    let s := exec c p init in
    trace_ok (trace s)
    /\ forall v, out s = Returned v ->
         v = VNone \/ (assigned_once_first (trace s) /\ (c_mode c = "dual" -> v = VDualObjective (Some (Some 1)))).
Proof.
  unfold well_ordered. destruct (abs_prog p (PInit, false)) as [x'|] eqn:Ha; [|discriminate].
  intros _ c.
  assert (H0 : inv c (PInit, false) init) by (repeat split; discriminate).
  pose proof (seq_sound c abs_top abs_prog (exec_top c) (fun _ _ _ => eq_refl) (fun _ => eq_refl) (top_sound c)
                        p _ x' init Ha H0) as H.
  fold (exec c p init) in H. unfold inv in H. destruct (out (exec c p init)) as [|v0|].
  - split; [exact (phase_trace_ok _ _ (proj1 (proj2 H)))|discriminate].
  - split; [exact (proj1 H)|]. intros v Hv. injection Hv as <-. exact (proj2 H).
  - split; [exact H|discriminate].
Qed.

Definition dispatch_of (p : list top) : option (list (test * list lvl1) * list lvl1) :=
  let l2 := flat_map (fun x => match x with TIfHeuristic b => b | _ => [] end) p in
  match flat_map (fun y => match y with L2Dispatch b o => [(b, o)] | _ => [] end) l2 with
  | [d] => Some d
  | _ => None
  end.

Lemma substring_all s : substring 0 (String.length s) s = s.
Proof. induction s as [|a s IH]; cbn; [reflexivity|rewrite IH; reflexivity]. Qed.

(** "trace" runs the trace branch (one heuristic(identity), one more solve); "logdet"++digits runs the loop
    int(digits) times; any other non-empty string reaches the ValueError of the dispatch; None / "" skip the
    whole block. *)
Theorem options :
  exists branches orelse,
    dispatch_of post_solve = Some (branches, orelse)
    /\ select branches orelse "trace"
       = [L1 (AHeuristic WIdentity); L1 ASolve; L1 AGetPrimal; L1 AEig]
    /\ (forall ds, select branches orelse ("logdet" ++ ds)%string
                   = [L1Loop 6 [AComputeW; AHeuristic WVar; ASolve; AGetPrimal; AEig]])
    /\ (forall ds, substring 6 (String.length ("logdet" ++ ds)%string - 6) ("logdet" ++ ds)%string = ds)
    /\ (forall s, String.eqb s "trace" = false -> prefix "logdet" s = false ->
                  select branches orelse s = [L1 ARaiseValueError]).
Proof.
  eexists. eexists. split; [reflexivity|]. split; [reflexivity|]. split; [intro ds; cbn; destruct ds; reflexivity|]. split.
  - intro ds. cbn. rewrite Nat.sub_0_r. apply substring_all.
  - intros s H1 H2. cbn [select test_holds]. rewrite H1, H2. reflexivity.
Qed.

(** the configuration of a run: heuristic string, return mode, the reading of int(); the first solve is bounded *)
Definition cfg_of (h : option string) (mode : string) (int : string -> option Z) : cfg :=
  {| c_h := h; c_mode := mode; c_int := int; c_none := fun _ => false |}.

Lemma return_switch_keeps c cases s :
  n_solves (exec_atom c (AReturnSwitch cases) s) = n_solves s /\ trace (exec_atom c (AReturnSwitch cases) s) = trace s.
Proof.
  unfold exec_atom. destruct (out s); [|split; reflexivity..].
  cbn [step]. destruct (lookup_case (c_mode c) cases) as [[|]|]; split; reflexivity.
Qed.
