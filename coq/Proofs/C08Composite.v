(** C08 x C07: the primitive steps on LEAF AND COMPOSITE functions (interpreter Model/StepsFunc.v).

    A. every bookkeeping instruction of a step program is one op of C07's op language, with C07's side
       conditions ([exec_s_is_func_op]); hence every program of the step language (in particular the 8
       generated ones with all their options) preserves C07's invariant under the guard [ok_prog] evaluated
       along the execution ([run_inv_steps]), by C07's per-op lemmas, and only extends the table of functions
       ([run_ext]).
    B. what the step records on a composite is the weighted sum of samples recorded on its terms at that point
       ([addpoint_composite_weighted_sum], [oracle_composite_weighted_sum], [run_composite_samples]).
    C. on LEAF functions the interpreter agrees with Model/StepsRT.v: same returned tuple, same environment
       (argument objects after the call), same counters, same samples and side constraints on every leaf
       ([exec_s_agree] for instructions, [exec_agree] for whole programs). *)
From Coq Require Import List Reals Qreals Lia String.
From PV Require Import Base.IPS Model.Dict Model.Terms Model.StepsRT Model.Func Model.StepsFunc Spec.Sem
  Proofs.DictLemmas Proofs.SemLemmas Proofs.C07Dict Proofs.C07Inv Proofs.C07Main Proofs.C07Thm.
Import ListNotations.
Local Open Scope R_scope.

Definition st_of (es : env * fstate) : Func.state := fst (snd es).

(** ** A. the invariant *)
Lemma exec_s_inv a i es :
  inv (st_of es) -> guard_s a i es = true ->
  match StepsFunc.exec_s a i es with
  | inl es' => inv (st_of es')
  | inr (_, es') => inv (st_of es')
  end.
Proof.
  destruct es as [e [s cs]]. unfold st_of. cbn [fst snd]. intros Hinv Hg.
  destruct i as [v|v|f p g fx|f p fx|v t|v t|c t|c fmt|f x g fx|f c]; cbn [StepsFunc.exec_s guard_s] in *.
  - cbn. apply inv_bump; [exact Hinv|lia].
  - cbn. apply inv_bump; [exact Hinv|lia].
  - apply andb_true_iff in Hg as [Hg Hnz]. destruct (query_guard s _ _ Hg Hnz) as [Hr Hq].
    pose proof (oracle_inv s (a_fun a f) (e_p e p) Hinv Hr Hq) as H.
    destruct (Func.oracle s (a_fun a f) (e_p e p)) as [s' [gd vd]]. exact H.
  - apply andb_true_iff in Hg as [Hg Hnz]. destruct (query_guard s _ _ Hg Hnz) as [Hr Hq].
    pose proof (value_inv s (a_fun a f) (e_p e p) Hinv Hr Hq) as H.
    destruct (Func.value s (a_fun a f) (e_p e p)) as [s' vd]. exact H.
  - destruct (pdefb (a_scal a) t); exact Hinv.
  - destruct (xdefb (a_scal a) t); exact Hinv.
  - destruct (cdefb (a_scal a) t); exact Hinv.
  - exact Hinv.
  - exact (add_point_guarded_inv s (a_fun a f) _ _ _ Hinv Hg).
  - exact Hinv.
Qed.

(** what every instruction preserves, the whole program preserves; [u = false]: under the guard evaluated
    along the execution, [u = true]: unconditionally *)
Section Preserved.
  Variables (a : args) (u : bool) (P : Func.state -> Prop).
  Hypothesis step : forall i es, P (st_of es) -> guard_s a i es || u = true ->
    match StepsFunc.exec_s a i es with
    | inl es' => P (st_of es')
    | inr (_, es') => P (st_of es')
    end.

  Lemma guarded_split g m : g && m || u = true -> g || u = true /\ m || u = true.
  Proof. destruct g, m, u; cbn; auto. Qed.

  Lemma exec_body_preserves body : forall es,
    P (st_of es) -> ok_body a body es || u = true ->
    match StepsFunc.exec_body a body es with
    | inl es' => P (st_of es')
    | inr (_, es') => P (st_of es')
    end.
  Proof.
    induction body as [|i body IH]; intros es HP Hok; cbn [StepsFunc.exec_body ok_body] in *; [exact HP|].
    apply guarded_split in Hok as [Hg Hok]. pose proof (step i es HP Hg) as H.
    destruct (StepsFunc.exec_s a i es) as [es'|[exn es']]; [|exact H]. apply IH; assumption.
  Qed.

  Lemma exec_loop_preserves d body : forall ds es,
    P (st_of es) -> ok_loop a d body ds es || u = true ->
    match StepsFunc.exec_loop a d body ds es with
    | inl es' => P (st_of es')
    | inr (_, es') => P (st_of es')
    end.
  Proof.
    induction ds as [|dv ds IH]; intros es HP Hok; cbn [StepsFunc.exec_loop ok_loop] in *; [exact HP|].
    apply guarded_split in Hok as [Hb Hok].
    pose proof (exec_body_preserves body (setp d dv (fst es), snd es) HP Hb) as H.
    destruct (StepsFunc.exec_body a body (setp d dv (fst es), snd es)) as [es'|[exn es']]; [|exact H].
    apply IH; assumption.
  Qed.

  Lemma exec_preserves prog : forall es,
    P (st_of es) -> ok_exec a prog es || u = true -> P (st_of (snd (StepsFunc.exec a prog es))).
  Proof.
    induction prog as [|[i|d body|l|exn] prog IH]; intros es HP Hok; cbn [StepsFunc.exec ok_exec] in *;
      try exact HP; apply guarded_split in Hok as [Hg Hok].
    - pose proof (step i es HP Hg) as H.
      destruct (StepsFunc.exec_s a i es) as [es'|[exn es']]; [|exact H]. apply IH; assumption.
    - pose proof (exec_loop_preserves d body (a_dirs a) es HP Hg) as H.
      destruct (StepsFunc.exec_loop a d body (a_dirs a) es) as [es'|[exn es']]; [|exact H]. apply IH; assumption.
  Qed.
End Preserved.

(** every step program, on any function (leaf or composite) of a state that satisfies C07's invariant *)
Theorem run_inv_steps (prog : program) (a : args) (s : Func.state) (cs : clog) :
  inv s -> ok_prog prog a (s, cs) = true -> inv (run_state prog a (s, cs)).
Proof.
  intros Hinv Hok. apply (exec_preserves a false inv) with (es := (init_env a, (s, cs))); [|exact Hinv|].
  - intros i es Hi Hg. rewrite orb_false_r in Hg. apply exec_s_inv; assumption.
  - rewrite orb_false_r. exact Hok.
Qed.

(** after an accepted op sequence of C07 (functions built, evaluated, ... in any order) *)
Theorem run_inv_steps_after_ops (ops : list op) (prog : program) (a : args) (cs : clog) :
  ops_ok ops = true -> ok_prog prog a (Func.run ops, cs) = true -> inv (run_state prog a (Func.run ops, cs)).
Proof. intros Hops. apply run_inv_steps. apply inv_partial. exact Hops. Qed.

(** ** every bookkeeping instruction is an op of C07's op language, with its side conditions *)
Definition op_of (a : args) (tp : nat -> pterm) (e : env) (i : sinstr) : option op :=
  match i with
  | FreshPoint _ => Some NewPoint
  | FreshExpr _ => Some NewExpr
  | StepsRT.Oracle f p _ _ => Some (Func.Oracle (a_fun a f) (tp p))
  | StepsRT.Value f p _ => Some (Func.Value (a_fun a f) (tp p))
  | StepsRT.AddPoint f x g fx => Some (Func.AddPoint (a_fun a f) (tp x) (tp g) (e_x e fx))
  | _ => None
  end.

Lemma exec_s_is_func_op a tp i e s cs :
  (forall v, e_p e v = pt (tp v)) ->
  match op_of a tp e i with
  | Some o =>
      (exists e', StepsFunc.exec_s a i (e, (s, cs)) = inl (e', (Func.step s o, cs))) /\
      guard_s a i (e, (s, cs)) = op_scoped s o && op_guard s o
  | None =>
      guard_s a i (e, (s, cs)) = true /\
      match StepsFunc.exec_s a i (e, (s, cs)) with
      | inl (_, (s', _)) => s' = s
      | inr (_, (_, (s', _))) => s' = s
      end
  end.
Proof.
  intros He.
  destruct i as [v|v|f p g fx|f p fx|v t|v t|c t|c fmt|f x g fx|f c];
    cbn [op_of StepsFunc.exec_s guard_s op_scoped op_guard].
  - split; [eexists; reflexivity|reflexivity].
  - split; [eexists; reflexivity|reflexivity].
  - rewrite He. split; [|reflexivity]. unfold Func.step. cbn [step_ret].
    destruct (Func.oracle s (a_fun a f) (pt (tp p))) as [s' [gd vd]]. eexists; reflexivity.
  - rewrite He. split; [|reflexivity]. unfold Func.step. cbn [step_ret].
    destruct (Func.value s (a_fun a f) (pt (tp p))) as [s' vd]. eexists; reflexivity.
  - split; [reflexivity|]. destruct (pdefb (a_scal a) t); reflexivity.
  - split; [reflexivity|]. destruct (xdefb (a_scal a) t); reflexivity.
  - split; [reflexivity|]. destruct (cdefb (a_scal a) t); reflexivity.
  - split; reflexivity.
  - rewrite !He. split; [eexists; reflexivity|]. rewrite andb_true_r. reflexivity.
  - split; reflexivity.
Qed.

(** ** a step only extends the table of functions: no function is created, leaves stay leaves, samples stay *)
Lemma exec_s_ext a i es :
  match StepsFunc.exec_s a i es with
  | inl es' => ext (fun _ => True) (st_of es) (st_of es')
  | inr (_, es') => ext (fun _ => True) (st_of es) (st_of es')
  end.
Proof.
  destruct es as [e [s cs]]. unfold st_of. cbn [fst snd].
  destruct i as [v|v|f p g fx|f p fx|v t|v t|c t|c fmt|f x g fx|f c]; cbn [StepsFunc.exec_s].
  - apply ext_bump, Nat.le_succ_diag_r.
  - apply ext_bump, Nat.le_refl.
  - pose proof (ext_oracle s (a_fun a f) (e_p e p)) as H.
    destruct (Func.oracle s (a_fun a f) (e_p e p)) as [s' [gd vd]]. exact H.
  - pose proof (ext_value s (a_fun a f) (e_p e p)) as H.
    destruct (Func.value s (a_fun a f) (e_p e p)) as [s' vd]. exact H.
  - destruct (pdefb (a_scal a) t); apply ext_refl.
  - destruct (xdefb (a_scal a) t); apply ext_refl.
  - destruct (cdefb (a_scal a) t); apply ext_refl.
  - apply ext_refl.
  - apply ext_add_point.
  - apply ext_refl.
Qed.

Theorem run_ext prog a s cs : ext (fun _ => True) s (run_state prog a (s, cs)).
Proof.
  apply (exec_preserves a true (ext (fun _ => True) s)) with (es := (init_env a, (s, cs)));
    [|apply ext_refl|apply orb_true_r].
  intros i es Hs _. pose proof (exec_s_ext a i es) as H.
  destruct (StepsFunc.exec_s a i es) as [es'|[exn es']]; eapply ext_trans; eauto.
Qed.

(** ** B. what a step records on a composite is the weighted sum of samples of its terms at that point *)

(** [t], a sample of [F], is the [F]-weighted sum of samples recorded for the terms of [F] at the point of
    [t] (as dictionaries: [dict_eqb]), in every inner-product space, under every valuation of the leaves
    (the conclusion of [C07_composite_sample_is_weighted_sum]) *)
Definition weighted_sum_at (s : Func.state) (F : nat) (t : Func.sample) : Prop :=
  exists ch : nat -> Func.sample,
    (forall i q, In (i, q) (f_w (getf s F)) ->
       In (ch i) (f_pts (getf s i)) /\ dict_eqb Nat.eqb (xof (ch i)) (xof t) = true) /\
    forall (E : ips) (rho : nat -> E) (phi : nat -> R),
      veq (evalP rho (gof t)) (wlin rho (f_w (getf s F)) (fun i => gof (ch i))) /\
      evalE rho phi (vof t) = wsum rho phi (f_w (getf s F)) (fun i => vof (ch i)).

(** I3 read in a state that extends the one in which [F] was known to be a composite *)
Lemma weighted_sum_after K s s' F t :
  ext K s s' -> inv s' -> (F < nfun s)%nat -> f_leaf (getf s F) = false -> In t (f_pts (getf s' F)) ->
  weighted_sum_at s' F t.
Proof.
  intros He Hinv' HF Hc Hin.
  apply (read_I3 s' Hinv' F t); [rewrite (ext_nfun _ _ _ He)|rewrite (ext_leaf _ _ _ He)|]; assumption.
Qed.

(** the instruction [f.add_point((x, g, fx))] of a step (proximal, linear optimisation, Bregman, inexact
    proximal, epsilon-subgradient steps) on a composite [f] *)
Theorem addpoint_composite_weighted_sum a f x g fx e s cs :
  inv s -> guard_s a (StepsRT.AddPoint f x g fx) (e, (s, cs)) = true ->
  let F := a_fun a f in
  let s' := Func.add_point s F (e_p e x, e_p e g, e_x e fx) in
  let t := (prune (e_p e x), prune (e_p e g), prune (e_x e fx)) in
  inv s' /\ In t (f_pts (getf s' F)) /\ (f_leaf (getf s F) = false -> weighted_sum_at s' F t).
Proof.
  intros Hinv Hg F s' t. pose proof (add_point_guarded_inv s F _ _ _ Hinv Hg) as Hinv'.
  assert (HF : (F < nfun s)%nat).
  { cbn [guard_s] in Hg. repeat (apply andb_true_iff in Hg as [Hg _]). apply in_range_spec. exact Hg. }
  pose proof (add_point_records s F (e_p e x) (e_p e g) (e_x e fx) HF) as Hin.
  split; [exact Hinv'|]. split; [exact Hin|]. intros Hc.
  exact (weighted_sum_after _ s s' F t (ext_add_point s F _) Hinv' HF Hc Hin).
Qed.

(** the instruction [g, fx = f.oracle(p)] of a step (inexact gradient, line search) on a composite [f] *)
Theorem oracle_composite_weighted_sum a f p g fx e s cs :
  inv s -> guard_s a (StepsRT.Oracle f p g fx) (e, (s, cs)) = true ->
  let F := a_fun a f in
  let s' := fst (Func.oracle s F (e_p e p)) in
  let gd := fst (snd (Func.oracle s F (e_p e p))) in
  let vd := snd (snd (Func.oracle s F (e_p e p))) in
  inv s' /\
  exists x0, In (x0, gd, vd) (f_pts (getf s' F)) /\ dict_eqb Nat.eqb x0 (e_p e p) = true /\
             (f_leaf (getf s F) = false -> weighted_sum_at s' F (x0, gd, vd)).
Proof.
  intros Hinv Hg F s' gd vd. cbn [guard_s] in Hg.
  apply andb_true_iff in Hg as [Hg Hnz]. destruct (query_guard s F _ Hg Hnz) as [Hr Hq].
  pose proof (oracle_inv s F (e_p e p) Hinv Hr Hq) as Hinv'.
  destruct (oracle_returns_recorded s F (e_p e p) Hr Hq) as [x0 [Hin He]].
  split; [exact Hinv'|]. exists x0. split; [exact Hin|]. split; [exact He|]. intros Hc.
  exact (weighted_sum_after _ s s' F _ (ext_oracle s F _) Hinv' Hr Hc Hin).
Qed.

(** whole programs: after any accepted step program, EVERY sample of EVERY composite (those the step
    recorded included) is the weighted sum of samples of its terms at that point *)
Theorem run_composite_samples prog a s cs :
  inv s -> ok_prog prog a (s, cs) = true ->
  let s' := run_state prog a (s, cs) in
  forall F t, (F < nfun s)%nat -> f_leaf (getf s F) = false -> In t (f_pts (getf s' F)) ->
    weighted_sum_at s' F t.
Proof.
  intros Hinv Hok s' F t. exact (weighted_sum_after _ s s' F t (run_ext prog a s cs) (run_inv_steps prog a s cs Hinv Hok)).
Qed.

(** ** C. agreement with Model/StepsRT.v on leaf functions *)
Lemma find_eval_find_pt p l : find_eval p l = find_pt l p.
Proof. induction l as [|[[x g] v] l IH]; cbn [find_eval find_pt]; [reflexivity|]. rewrite IH. reflexivity. Qed.

(** the leaf-only state [rs] and the function table [fs] describe the same leaves: same counters, and every
    LEAF of [fs] has in [rs] the same flag, the same samples and the same side constraints *)
Definition sim (rs : StepsRT.state) (fs : fstate) : Prop :=
  StepsRT.pt_ctr rs = Func.pt_ctr (fst fs) /\ StepsRT.ex_ctr rs = Func.ex_ctr (fst fs) /\
  forall j, (j < nfun (fst fs))%nat -> f_leaf (getf (fst fs) j) = true ->
    StepsRT.f_reuse (StepsRT.funs rs j) = Func.f_reuse (getf (fst fs) j) /\
    StepsRT.f_points (StepsRT.funs rs j) = Func.f_pts (getf (fst fs) j) /\
    StepsRT.f_cons (StepsRT.funs rs j) = cons_of (snd fs) j.

(** every function argument of the call is a leaf of the table *)
Definition leaf_args (a : args) (s : Func.state) : Prop :=
  forall k, (a_fun a k < nfun s)%nat /\ f_leaf (getf s (a_fun a k)) = true.

Lemma leaf_args_ext K a s s' : leaf_args a s -> ext K s s' -> leaf_args a s'.
Proof. intros H He k. destruct (H k) as [A B]. rewrite (ext_nfun _ _ _ He), (ext_leaf _ _ _ He). auto. Qed.

Lemma sim_bump rs s cs np nx :
  sim rs (s, cs) -> sim (bump np nx rs) (mkS (np + Func.pt_ctr s) (nx + Func.ex_ctr s) (Func.funs s), cs).
Proof.
  intros (Hp & Hx & H). cbn [fst] in Hp, Hx. unfold bump. rewrite Hp, Hx.
  split; [reflexivity|]. split; [reflexivity|exact H].
Qed.

Lemma sim_record rs s cs i t :
  sim rs (s, cs) -> (i < nfun s)%nat ->
  sim (add_sample i (pruned_sample t) rs) (record s i t, cs).
Proof.
  intros (Hp & Hx & H) Hi. cbn [fst snd] in *.
  split; [exact Hp|]. split; [exact Hx|]. cbn [fst snd].
  intros j Hj Hl. rewrite nfun_record in Hj.
  destruct (flags_record s i j t) as (Fl & Fr & _). rewrite Fl in Hl. rewrite Fr.
  destruct (H j Hj Hl) as (A & B & C).
  unfold add_sample. cbn [StepsRT.funs]. unfold updf.
  destruct (Nat.eqb_spec j i) as [->|Hne].
  - cbn [StepsRT.f_reuse StepsRT.f_points StepsRT.f_cons].
    rewrite pts_record_eq by exact Hi. rewrite B. auto.
  - rewrite getf_record_neq by (intros Hc; apply Hne; symmetry; exact Hc). auto.
Qed.

Lemma sim_fresh_record rs s cs i t np nx :
  sim rs (s, cs) -> (i < nfun s)%nat ->
  sim (add_sample i (pruned_sample t) (bump np nx rs))
      (record (mkS (np + Func.pt_ctr s) (nx + Func.ex_ctr s) (Func.funs s)) i t, cs).
Proof.
  intros Hsim Hi. apply sim_record; [apply sim_bump|]; assumption.
Qed.

Lemma cons_of_app cs f c j :
  cons_of (cs ++ [(f, c)]) j = if Nat.eqb f j then cons_of cs j ++ [c] else cons_of cs j.
Proof.
  unfold cons_of. rewrite filter_app, map_app. cbn [filter fst].
  destruct (Nat.eqb f j); cbn [map snd]; [reflexivity|apply app_nil_r].
Qed.

(** [f.oracle(p)] on a leaf [f]: same gradient, value and new contents of [p] *)
Lemma oracle_agree rs s cs F p :
  sim rs (s, cs) -> (F < nfun s)%nat -> f_leaf (getf s F) = true ->
  let '(g1, v1, p1, rs') := oracle_leaf F p rs in
  let '(s', (g2, v2)) := Func.oracle s F p in
  g1 = g2 /\ v1 = v2 /\ p1 = oracle_touch s F p /\ sim rs' (s', cs).
Proof.
  intros Hsim HF HlF. pose proof Hsim as (Hp & Hx & Hf). cbn [fst snd] in Hp, Hx, Hf.
  destruct (Hf _ HF HlF) as (A & B & _).
  unfold oracle_leaf, Func.oracle, oracle_touch. rewrite HlF. unfold leaf_oracle.
  rewrite find_eval_find_pt, B, A.
  destruct (find_pt (f_pts (getf s F)) p) as [[g0 v0]|]; [destruct (Func.f_reuse (getf s F))|];
    cbn [StepsRT.add_point fresh_pt fresh_ex]; unfold leafP, leafX; rewrite ?Hp, ?Hx;
    (split; [reflexivity|split; [reflexivity|split; [reflexivity|]]]).
  - exact Hsim.
  - apply (sim_fresh_record rs s cs _ (p, [(Func.pt_ctr s, 1%Q)], v0) 1 0 Hsim HF).
  - apply (sim_fresh_record rs s cs _ (p, [(Func.pt_ctr s, 1%Q)], [(KF (Func.ex_ctr s), 1%Q)]) 1 1 Hsim HF).
Qed.

Lemma exec_s_agree a i e rs fs :
  sim rs fs -> leaf_args a (fst fs) ->
  match StepsRT.exec_s a i (e, rs), StepsFunc.exec_s a i (e, fs) with
  | inl (e1, rs'), inl (e2, fs') => e1 = e2 /\ sim rs' fs'
  | inr (x1, (e1, rs')), inr (x2, (e2, fs')) => x1 = x2 /\ e1 = e2 /\ sim rs' fs'
  | _, _ => False
  end.
Proof.
  destruct fs as [s cs]. cbn [fst]. intros Hsim Hargs.
  pose proof Hsim as (Hp & Hx & Hf). cbn [fst snd] in Hp, Hx, Hf.
  destruct i as [v|v|f p g fx|f p fx|v t|v t|c t|c fmt|f x g fx|f c];
    cbn [StepsRT.exec_s StepsFunc.exec_s].
  - cbn [fresh_pt]. unfold leafP. rewrite Hp. split; [reflexivity|exact (sim_bump rs s cs 1 0 Hsim)].
  - cbn [fresh_ex]. unfold leafX. rewrite Hx. split; [reflexivity|exact (sim_bump rs s cs 0 1 Hsim)].
  - destruct (Hargs f) as [HF HlF]. pose proof (oracle_agree rs s cs _ (e_p e p) Hsim HF HlF) as H.
    destruct (oracle_leaf (a_fun a f) (e_p e p) rs) as [[[g1 v1] p1] rs'].
    destruct (Func.oracle s (a_fun a f) (e_p e p)) as [s' [g2 v2]].
    destruct H as (-> & -> & -> & H). split; [reflexivity|exact H].
  - destruct (Hargs f) as [HF HlF]. destruct (Hf _ HF HlF) as (_ & B & _).
    unfold value_leaf, Func.value, value_touch. rewrite find_eval_find_pt, B.
    pose proof (oracle_agree rs s cs _ (e_p e p) Hsim HF HlF) as H. unfold oracle_touch in H.
    destruct (find_pt (f_pts (getf s (a_fun a f))) (e_p e p)) as [[g0 v0]|]; [split; [reflexivity|exact Hsim]|].
    destruct (oracle_leaf (a_fun a f) (e_p e p) rs) as [[[g1 v1] p1] rs'].
    destruct (Func.oracle s (a_fun a f) (e_p e p)) as [s' [g2 v2]].
    destruct H as (_ & -> & -> & H). split; [reflexivity|exact H].
  - destruct (pdefb (a_scal a) t); auto.
  - destruct (xdefb (a_scal a) t); auto.
  - destruct (cdefb (a_scal a) t); auto.
  - split; [reflexivity|exact Hsim].
  - destruct (Hargs f) as [HF HlF].
    cbn [StepsRT.add_point pruned_sample]. unfold Func.add_point. rewrite HlF.
    split; [reflexivity|].
    apply (sim_record rs s cs (a_fun a f) (e_p e x, e_p e g, e_x e fx) Hsim HF).
  - split; [reflexivity|]. split; [exact Hp|]. split; [exact Hx|]. cbn [fst snd].
    intros j Hj Hl. destruct (Hf j Hj Hl) as (A & B & C).
    unfold add_cons. cbn [StepsRT.funs]. unfold updf. rewrite cons_of_app.
    rewrite (Nat.eqb_sym (a_fun a f) j).
    destruct (Nat.eqb_spec j (a_fun a f)) as [->|Hne]; [rewrite C|]; auto.
Qed.

Lemma leaf_args_step a i es :
  leaf_args a (st_of es) ->
  match StepsFunc.exec_s a i es with
  | inl es' => leaf_args a (st_of es')
  | inr (_, es') => leaf_args a (st_of es')
  end.
Proof.
  intros H. pose proof (exec_s_ext a i es) as Hs.
  destruct (StepsFunc.exec_s a i es) as [es'|[exn es']]; eapply leaf_args_ext; eauto.
Qed.

(** the two interpreters stopped alike, in states that describe the same leaves, the function arguments
    still being leaves *)
Definition agree_res (a : args) (r1 : (env * StepsRT.state) + (string * (env * StepsRT.state)))
                     (r2 : (env * fstate) + (string * (env * fstate))) : Prop :=
  match r1, r2 with
  | inl (e1, rs'), inl (e2, fs') => e1 = e2 /\ sim rs' fs' /\ leaf_args a (fst fs')
  | inr (x1, (e1, rs')), inr (x2, (e2, fs')) => x1 = x2 /\ e1 = e2 /\ sim rs' fs'
  | _, _ => False
  end.

Lemma step_agree a i e rs fs :
  sim rs fs -> leaf_args a (fst fs) ->
  agree_res a (StepsRT.exec_s a i (e, rs)) (StepsFunc.exec_s a i (e, fs)).
Proof.
  intros Hsim Hargs. pose proof (exec_s_agree a i e rs fs Hsim Hargs) as H.
  pose proof (leaf_args_step a i (e, fs) Hargs) as Ha. unfold agree_res, st_of in *.
  destruct (StepsRT.exec_s a i (e, rs)) as [[e1 rs']|[x1 [e1 rs']]],
           (StepsFunc.exec_s a i (e, fs)) as [[e2 fs']|[x2 [e2 fs']]]; cbn [fst snd] in Ha; tauto.
Qed.

(** same returned tuple or exception, same environment, states that describe the same leaves *)
Definition agree_out (o1 : result * (env * StepsRT.state)) (o2 : result * (env * fstate)) : Prop :=
  fst o1 = fst o2 /\ fst (snd o1) = fst (snd o2) /\ sim (snd (snd o1)) (snd (snd o2)).

(** agreement goes through sequencing: go on, or stop at the first exception *)
Lemma agree_bind {T1 T2} (R : T1 -> T2 -> Prop) a r1 r2 k1 k2 h1 h2 :
  agree_res a r1 r2 ->
  (forall e rs fs, sim rs fs -> leaf_args a (fst fs) -> R (k1 (e, rs)) (k2 (e, fs))) ->
  (forall x e rs fs, sim rs fs -> R (h1 (x, (e, rs))) (h2 (x, (e, fs)))) ->
  R (match r1 with inl es => k1 es | inr err => h1 err end) (match r2 with inl es => k2 es | inr err => h2 err end).
Proof.
  intros H Hk Hh. destruct r1 as [[e1 rs']|[x1 [e1 rs']]], r2 as [[e2 fs']|[x2 [e2 fs']]]; try contradiction.
  - destruct H as (<- & Hsim & Hargs). apply Hk; assumption.
  - destruct H as (<- & <- & Hsim). apply Hh, Hsim.
Qed.

Lemma exec_body_agree a body : forall e rs fs,
  sim rs fs -> leaf_args a (fst fs) ->
  agree_res a (StepsRT.exec_body a body (e, rs)) (StepsFunc.exec_body a body (e, fs)).
Proof.
  induction body as [|i body IH]; intros e rs fs Hsim Hargs; cbn [StepsRT.exec_body StepsFunc.exec_body agree_res];
    [auto|]. apply (agree_bind (agree_res a) a); [apply step_agree; assumption|exact IH|cbn; auto].
Qed.

Lemma exec_loop_agree a d body : forall ds e rs fs,
  sim rs fs -> leaf_args a (fst fs) ->
  agree_res a (StepsRT.exec_loop a d body ds (e, rs)) (StepsFunc.exec_loop a d body ds (e, fs)).
Proof.
  induction ds as [|dv ds IH]; intros e rs fs Hsim Hargs;
    cbn [StepsRT.exec_loop StepsFunc.exec_loop agree_res fst snd]; [auto|].
  apply (agree_bind (agree_res a) a); [apply exec_body_agree; assumption|exact IH|cbn; auto].
Qed.

Lemma exec_agree a prog : forall e rs fs,
  sim rs fs -> leaf_args a (fst fs) -> agree_out (StepsRT.exec a prog (e, rs)) (StepsFunc.exec a prog (e, fs)).
Proof.
  induction prog as [|[i|d body|l|exn] prog IH]; intros e rs fs Hsim Hargs;
    cbn [StepsRT.exec StepsFunc.exec]; try (split; [|split]; auto; fail).
  - apply (agree_bind agree_out a _ _ _ _ (fun '(exn, es') => (RErr exn, es')) (fun '(exn, es') => (RErr exn, es')));
      [apply step_agree; assumption|exact IH|intros; split; [|split]; auto].
  - apply (agree_bind agree_out a _ _ _ _ (fun '(exn, es') => (RErr exn, es')) (fun '(exn, es') => (RErr exn, es')));
      [apply exec_loop_agree; assumption|exact IH|intros; split; [|split]; auto].
Qed.

(** the leaf-only view of a function table: what Model/StepsRT.v sees of it (non-vacuity of [sim]) *)
Definition rt_of (fs : fstate) : StepsRT.state :=
  mkState (Func.pt_ctr (fst fs)) (Func.ex_ctr (fst fs))
          (fun j => mkFrec (Func.f_reuse (getf (fst fs) j)) (Func.f_pts (getf (fst fs) j)) (cons_of (snd fs) j)).

Lemma sim_rt_of fs : sim (rt_of fs) fs.
Proof. split; [reflexivity|]. split; [reflexivity|]. intros j _ _. auto. Qed.
