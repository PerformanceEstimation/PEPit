(** C17 — tables of constraints / dual tables: shape, cell contents, positions of the objects, names. *)
From Coq Require Import List QArith Lia String Ascii FinFun.
From Coq Require Import Numbers.DecimalString Numbers.DecimalNat.
From PV Require Import Model.Dict Model.Terms Model.ClassGen Proofs.ClassGenLemmas.
From PV Require Import Gen.Classes.
Import ListNotations.
Local Open Scope nat_scope.

Definition cell {A} (rows : list (list A)) (i j : nat) : option A :=
  match nth_error rows i with Some row => nth_error row j | None => None end.

Definition table_cell (t : table) (i j : nat) : option (option (nat * citem)) := cell (t_rows t) i j.

Lemma cell_map_map {A B} (F : A -> B) (rows : list (list A)) i j :
  cell (map (map F) rows) i j = option_map F (cell rows i j).
Proof.
  unfold cell. rewrite nth_error_map. destruct (nth_error rows i) as [row|]; [|reflexivity].
  cbn. apply nth_error_map.
Qed.

Lemma cell_In_flat {A} (rows : list (list (option A))) i j a :
  cell rows i j = Some (Some a) -> In a (flatten_opts rows).
Proof.
  unfold cell. destruct (nth_error rows i) as [row|] eqn:Hr; [|discriminate]. intros Hc.
  apply in_flatten_opts. exists row. split; eapply nth_error_In; eassumption.
Qed.

Lemma number_rows_cell {A} (rows : list (list (option A))) off i j :
  option_map (option_map snd) (cell (number_rows off rows) i j) = cell rows i j.
Proof. rewrite <- cell_map_map, number_rows_erase. reflexivity. Qed.

Lemma number_rows_row {A} (rows : list (list (option A))) off i nrow :
  nth_error (number_rows off rows) i = Some nrow -> nth_error rows i = Some (map (option_map snd) nrow).
Proof. intros H. rewrite <- (number_rows_erase rows off), nth_error_map, H. reflexivity. Qed.

Lemma cell_object {A} (nrows : list (list (option (nat * A)))) i j a :
  option_map (option_map snd) (cell nrows i j) = Some (Some a) -> exists p, cell nrows i j = Some (Some (p, a)).
Proof.
  destruct (cell nrows i j) as [[[p b]|]|]; try discriminate. intros H. injection H as ->. exists p. reflexivity.
Qed.

(** every object held by a cell is the object at the recorded position of [flat] *)
Definition cells_ok {A} (flat : list A) (nrows : list (list (option (nat * A)))) : Prop :=
  forall i j p a, cell nrows i j = Some (Some (p, a)) -> nth_error flat p = Some a.

Definition table_ok (cons : list citem) (t : table) : Prop := cells_ok cons (t_rows t).

Lemma cells_ok_app {A} (flat extra : list A) nrows : cells_ok flat nrows -> cells_ok (flat ++ extra) nrows.
Proof.
  intros H i j p a Hc. specialize (H i j p a Hc). rewrite nth_error_app1; [exact H|].
  apply nth_error_Some. rewrite H. discriminate.
Qed.

Lemma nth_error_app_shift {A} (l l' : list A) n : nth_error (l ++ l') (List.length l + n) = nth_error l' n.
Proof. induction l; [reflexivity|exact IHl]. Qed.

Lemma number_rows_ok {A} (rows : list (list (option A))) (base : list A) :
  cells_ok (base ++ flatten_opts rows) (number_rows (List.length base) rows).
Proof.
  intros i j p a Hc. apply cell_In_flat in Hc. rewrite number_rows_flat in Hc.
  apply enumerate_from_In in Hc as (n & -> & Hn). rewrite nth_error_app_shift. exact Hn.
Qed.

Theorem duals_table_cell dual t i j :
  cell (duals_table dual t) i j
  = option_map (fun o => match o with Some (p, _) => dual p | None => 0%Q end) (table_cell t i j).
Proof. unfold duals_table, table_cell. apply cell_map_map. Qed.

(** what a table and its dual table show at (i, j), given the object [o] of the cell *)
Lemma table_cell_reports cons dual t i j o :
  table_ok cons t -> option_map (option_map snd) (table_cell t i j) = Some o ->
  match o with
  | None => table_cell t i j = Some None /\ cell (duals_table dual t) i j = Some 0%Q
  | Some c => exists p, table_cell t i j = Some (Some (p, c)) /\ nth_error cons p = Some c /\
                        cell (duals_table dual t) i j = Some (dual p)
  end.
Proof.
  intros Hok H. rewrite duals_table_cell. destruct (table_cell t i j) as [[[p c]|]|] eqn:E; [| |discriminate];
    injection H as <-.
  - exists p. split; [reflexivity|]. split; [exact (Hok i j p c E)|reflexivity].
  - split; reflexivity.
Qed.

Lemma gen_pairs_cell st l1 l2 cname f sym i j si sj :
  nth_error l1 i = Some si -> nth_error l2 j = Some sj ->
  cell (gen_pairs st l1 l2 cname f sym) i j
  = Some (if skip_pair sym i j si sj then None
          else Some (mkC (Some (pair_name st cname si sj i j)) (inst st f si sj))).
Proof.
  intros Hi Hj. unfold cell, gen_pairs. rewrite nth_error_map, enumerate_nth_error, Hi. cbn [option_map].
  rewrite nth_error_map, enumerate_nth_error, Hj. reflexivity.
Qed.

Lemma gen_singles_cell st l cname f i si :
  nth_error l i = Some si ->
  cell [map Some (gen_singles st l cname f)] 0 i
  = Some (Some (mkC (Some (single_name st cname si i)) (inst st f si si))).
Proof. intros Hi. unfold cell. cbn [nth_error]. rewrite nth_error_map, (gen_singles_nth st l cname f i si Hi). reflexivity. Qed.

Lemma block_grid_cell (l : list sample) i j si sj :
  nth_error l i = Some si -> nth_error l j = Some sj ->
  cell (block_grid l) i j = Some (if same_tuple si sj then None else Some (i, si, j, sj)).
Proof.
  intros Hi Hj. unfold cell, block_grid. rewrite nth_error_map, enumerate_nth_error, Hi. cbn [option_map].
  rewrite nth_error_map, enumerate_nth_error, Hj. reflexivity.
Qed.

Lemma nth_error_flat_map_const {A B} (g : A -> nat -> B) nb (qs : list A) r k q :
  nth_error qs r = Some q -> k < nb ->
  nth_error (flat_map (fun q => map (g q) (seq 0 nb)) qs) (nb * r + k) = Some (g q k).
Proof.
  revert r. induction qs as [|q0 qs IH]; intros r Hr Hk; [destruct r; discriminate|].
  cbn [flat_map]. destruct r as [|r]; cbn [nth_error] in Hr.
  - injection Hr as ->. replace (nb * 0 + k) with k by lia.
    rewrite nth_error_app1 by (rewrite map_length, seq_length; exact Hk).
    rewrite nth_error_map, (nth_error_nth' _ 0), seq_nth by (rewrite ?seq_length; exact Hk). reflexivity.
  - rewrite nth_error_app2 by (rewrite map_length, seq_length; lia).
    rewrite map_length, seq_length. replace (nb * S r + k - nb) with (nb * r + k) by lia.
    apply IH; assumption.
Qed.

Lemma block_table_ok st cprefix f l base k :
  k < f_nblocks st ->
  table_ok (base ++ gen_block_flat st cprefix f l) (block_table st cprefix f l (List.length base) k).
Proof.
  intros Hk i j p c. unfold table_cell, block_table. cbn [t_rows]. rewrite cell_map_map.
  destruct (cell (number_rows 0 (block_grid l)) i j) as [[[r q]|]|] eqn:Hc; cbn; try discriminate.
  intros H. injection H as <- <-.
  pose proof (number_rows_ok (block_grid l) [] i j r q Hc) as Hq. cbn [app List.length] in Hq.
  rewrite <- Nat.add_assoc, nth_error_app_shift.
  exact (nth_error_flat_map_const (fun q k => block_citem st cprefix f k q) (f_nblocks st) _ r k q Hq Hk).
Qed.

Lemma block_table_cell st cprefix f l off k i j si sj :
  nth_error l i = Some si -> nth_error l j = Some sj ->
  option_map (option_map snd) (table_cell (block_table st cprefix f l off k) i j)
  = Some (if same_tuple si sj then None
          else Some (mkC (Some (block_name st cprefix k si sj i j)) (instB st f k si sj))).
Proof.
  intros Hi Hj. unfold table_cell, block_table. cbn [t_rows]. rewrite cell_map_map.
  transitivity (option_map (option_map (block_citem st cprefix f k))
                           (option_map (option_map snd) (cell (number_rows 0 (block_grid l)) i j))).
  { destruct (cell (number_rows 0 (block_grid l)) i j) as [[[r q]|]|]; reflexivity. }
  rewrite number_rows_cell, (block_grid_cell l i j si sj Hi Hj). destruct (same_tuple si sj); reflexivity.
Qed.

Lemma block_item_tables_in st off cprefix f k :
  f_points st <> [] -> k < f_nblocks st ->
  In (block_table st cprefix f (f_points st) off k) (item_tables st off (BlockPairs cprefix f)).
Proof.
  intros Hne Hk. cbn [item_tables]. destruct (f_points st) eqn:E; [congruence|]. apply in_map. apply in_seq. lia.
Qed.

Theorem item_tables_ok st it base t :
  In t (item_tables st (List.length base) it) -> table_ok (base ++ item_cons st it) t.
Proof.
  induction it as [l1 l2 cname f sym|l cname f|g it IH| |l entry|cprefix f]; cbn [item_tables item_cons].
  - destruct (get_list st l1) as [|s0 l0]; [intros []|]. intros [<-|[]]. apply number_rows_ok.
  - intros [<-|[]]. pose proof (number_rows_ok [map Some (gen_singles st (get_list st l) cname f)] base) as H.
    rewrite flatten_opts_single in H. exact H.
  - destruct (guard_true st g); [exact IH|intros []].
  - intros [].
  - intros [].
  - destruct (f_points st) as [|s0 l0] eqn:E; [intros []|]. intros Hin. apply in_map_iff in Hin as [k [<- Hk]].
    apply in_seq in Hk. apply block_table_ok. lia.
Qed.

(** After set_class_constraints(): every cell of every table that holds a Constraint object holds
    the object sitting at the recorded position of list_of_class_constraints.  Invariant of the run:
    an item appends its constraints and writes tables pointing at them; nothing is ever removed. *)
Lemma run_items_tables_ok plan o :
  (forall t, In t (g_tables o) -> table_ok (g_cons o) t) ->
  forall t, In t (g_tables (run_items plan o)) -> table_ok (g_cons (run_items plan o)) t.
Proof.
  revert o. induction plan as [|it plan IH]; intros o Ho; [exact Ho|]. apply (IH (run_item it o)).
  intros t. rewrite run_item_eq. cbn [g_tables g_cons]. intros Hin. apply in_app_iff in Hin as [Hin|Hin].
  - apply cells_ok_app, Ho, Hin.
  - apply item_tables_ok, Hin.
Qed.

Theorem run_plan_tables_ok plan st t :
  In t (g_tables (run_plan plan st)) -> table_ok (g_cons (run_plan plan st)) t.
Proof. apply run_items_tables_ok. intros t' []. Qed.

Theorem plan_item_tables plan st pre it post t :
  plan = pre ++ it :: post ->
  In t (item_tables (g_state (run_plan pre st)) (List.length (g_cons (run_plan pre st))) it) ->
  In t (g_tables (run_plan plan st)) /\ table_ok (g_cons (run_plan plan st)) t.
Proof.
  intros -> Hin.
  assert (H : In t (g_tables (run_plan (pre ++ it :: post) st))).
  { rewrite run_plan_run_items. apply run_items_tables. right. exists pre, it, post. split; [reflexivity|exact Hin]. }
  split; [exact H|apply run_plan_tables_ok; exact H].
Qed.

(** the item that actually runs once the guards around it have been evaluated *)
Fixpoint item_core (st : fstate) (it : plan_item) : option plan_item :=
  match it with
  | Guarded g it' => if guard_true st g then item_core st it' else None
  | _ => Some it
  end.

Lemma item_core_tables st off it it' :
  item_core st it = Some it' -> item_tables st off it = item_tables st off it'.
Proof.
  induction it; cbn [item_core]; try (intros H; injection H as <-; reflexivity).
  cbn [item_tables]. destruct (guard_true st g); [exact IHit|discriminate].
Qed.

Lemma plan_core_tables plan st pre it post it' t :
  plan = pre ++ it :: post -> item_core (g_state (run_plan pre st)) it = Some it' ->
  In t (item_tables (g_state (run_plan pre st)) (List.length (g_cons (run_plan pre st))) it') ->
  In t (g_tables (run_plan plan st)) /\ table_ok (g_cons (run_plan plan st)) t.
Proof.
  intros Hplan Hcore Hin. apply (plan_item_tables plan st pre it post t Hplan).
  rewrite (item_core_tables _ _ _ _ Hcore). exact Hin.
Qed.

Lemma table_set_fresh t ts : ~ In (t_name t) (map t_name ts) -> table_set t ts = ts ++ [t].
Proof.
  induction ts as [|t' ts IH]; cbn; [reflexivity|]. intros H.
  destruct (String.eqb_spec (t_name t') (t_name t)) as [E|E]; [exfalso; apply H; left; exact E|].
  rewrite IH; [reflexivity|]. intros Hin. apply H. right. exact Hin.
Qed.

Lemma tables_dict_from acc ts :
  NoDup (map t_name (acc ++ ts)) -> fold_left (fun acc t => table_set t acc) ts acc = acc ++ ts.
Proof.
  revert acc. induction ts as [|t ts IH]; intros acc H; cbn; [rewrite app_nil_r; reflexivity|].
  rewrite table_set_fresh.
  - rewrite IH; rewrite <- app_assoc; [reflexivity|exact H].
  - rewrite map_app in H. apply NoDup_remove_2 in H. rewrite in_app_iff in H. tauto.
Qed.

Theorem tables_dict_nodup ts : NoDup (map t_name ts) -> tables_dict ts = ts.
Proof. apply (tables_dict_from [] ts). Qed.

Theorem table_get_in ts t : NoDup (map t_name ts) -> In t ts -> table_get (t_name t) ts = Some t.
Proof.
  induction ts as [|t' ts IH]; cbn; [intros _ []|]. intros Hnd Hin. inversion Hnd as [|? ? Hn Hnd']; subst.
  destruct (String.eqb_spec (t_name t') (t_name t)) as [E|E].
  - destruct Hin as [->|Hin]; [reflexivity|]. exfalso. apply Hn. rewrite E. apply in_map. exact Hin.
  - destruct Hin as [->|Hin]; [congruence|]. apply IH; assumption.
Qed.

Lemma nat_to_string_inj n m : nat_to_string n = nat_to_string m -> n = m.
Proof.
  unfold nat_to_string. intros H. apply (f_equal NilEmpty.uint_of_string) in H. rewrite !NilEmpty.usu in H.
  injection H as H. apply Unsigned.to_uint_inj. exact H.
Qed.

Definition is_digit (c : ascii) : bool := (48 <=? nat_of_ascii c) && (nat_of_ascii c <=? 57).
Fixpoint all_digits (s : string) : bool :=
  match s with EmptyString => true | String c s' => is_digit c && all_digits s' end.

Lemma string_of_uint_digits d : all_digits (NilEmpty.string_of_uint d) = true.
Proof. induction d; try reflexivity; exact IHd. Qed.

Lemma nat_to_string_digits n : all_digits (nat_to_string n) = true.
Proof. apply string_of_uint_digits. Qed.

Lemma append_inj_l (a b c : string) : (a ++ b = a ++ c)%string -> b = c.
Proof. induction a as [|x a IH]; cbn; [auto|]. intros H. injection H as H. auto. Qed.

Lemma append_assoc (a b c : string) : ((a ++ b) ++ c = a ++ (b ++ c))%string.
Proof. induction a as [|x a IH]; cbn; [reflexivity|]. rewrite IH. reflexivity. Qed.

(** a run of digits followed by a non-digit separator splits uniquely *)
Lemma digits_split (a a' : string) (c : ascii) (r r' : string) :
  all_digits a = true -> all_digits a' = true -> is_digit c = false ->
  (a ++ String c r = a' ++ String c r')%string -> a = a' /\ r = r'.
Proof.
  revert a'. induction a as [|x a IH]; intros a' Ha Ha' Hc H; destruct a' as [|x' a']; cbn in *.
  - injection H as H. auto.
  - injection H as Hx _. subst x'. apply andb_true_iff in Ha' as [Hd _]. congruence.
  - injection H as Hx _. subst x. apply andb_true_iff in Ha as [Hd _]. congruence.
  - injection H as -> H. apply andb_true_iff in Ha as [_ Ha]. apply andb_true_iff in Ha' as [_ Ha'].
    destruct (IH a' Ha Ha' Hc H) as [-> ->]. auto.
Qed.

(** "Point_<i>" followed by a separator: for unnamed points the text determines i and what follows *)
Lemma point_id_inj s i s' i' (c : ascii) (r r' : string) :
  s_name s = None -> s_name s' = None -> is_digit c = false ->
  (point_id s i ++ String c r = point_id s' i' ++ String c r')%string -> i = i' /\ r = r'.
Proof.
  unfold point_id. intros -> -> Hc H. rewrite !append_assoc in H. apply append_inj_l in H.
  apply digits_split in H as [Hi Hr]; [|apply nat_to_string_digits|apply nat_to_string_digits|exact Hc].
  split; [apply nat_to_string_inj; exact Hi|exact Hr].
Qed.

Lemma point_single_inj si i si' i' :
  s_name si = None -> s_name si' = None -> (point_id si i ++ ")" = point_id si' i' ++ ")")%string -> i = i'.
Proof. intros H1 H2 H. exact (proj1 (point_id_inj si i si' i' ")" ""%string ""%string H1 H2 eq_refl H)). Qed.

Lemma point_pair_inj si sj i j si' sj' i' j' :
  s_name si = None -> s_name sj = None -> s_name si' = None -> s_name sj' = None ->
  (point_id si i ++ ", " ++ point_id sj j ++ ")" = point_id si' i' ++ ", " ++ point_id sj' j' ++ ")")%string ->
  i = i' /\ j = j'.
Proof.
  intros H1 H2 H3 H4 H. destruct (point_id_inj si i si' i' "," _ _ H1 H3 eq_refl H) as [Hi Hr].
  injection Hr as Hr. split; [exact Hi|exact (point_single_inj sj j sj' j' H2 H4 Hr)].
Qed.

(** a block constraint's name determines the block as well: the digits of k end at "(" *)
Lemma block_name_inj st cprefix k si sj i j k' si' sj' i' j' :
  s_name si = None -> s_name sj = None -> s_name si' = None -> s_name sj' = None ->
  block_name st cprefix k si sj i j = block_name st cprefix k' si' sj' i' j' -> k = k' /\ i = i' /\ j = j'.
Proof.
  intros H1 H2 H3 H4 H. unfold block_name in H. do 4 apply append_inj_l in H.
  apply digits_split in H as [Hk H]; [|apply nat_to_string_digits|apply nat_to_string_digits|reflexivity].
  split; [apply nat_to_string_inj; exact Hk|exact (point_pair_inj _ _ _ _ _ _ _ _ H1 H2 H3 H4 H)].
Qed.

(** one table per condition name: the dictionary keeps every table that was written *)
Fixpoint static_names (it : plan_item) : list string :=
  match it with
  | Pairs _ _ c _ _ => [c]
  | Singles _ c _ => [c]
  | Guarded _ it' => static_names it'
  | _ => []
  end.

Fixpoint block_free (it : plan_item) : bool :=
  match it with BlockPairs _ _ => false | Guarded _ it' => block_free it' | _ => true end.

Lemma item_tables_names st off it :
  block_free it = true ->
  map t_name (item_tables st off it) = [] \/ map t_name (item_tables st off it) = static_names it.
Proof.
  induction it; cbn [block_free item_tables static_names]; intros Hb; try (left; reflexivity); try discriminate.
  - destruct (get_list st l1); [left|right]; reflexivity.
  - right. reflexivity.
  - destruct (guard_true st g); [auto|left; reflexivity].
Qed.

Lemma NoDup_app_drop_mid {A} (a b c : list A) : NoDup (a ++ b ++ c) -> NoDup (a ++ c).
Proof.
  induction b as [|x b IH]; cbn; [auto|]. intros H. apply IH. eapply NoDup_remove_1. exact H.
Qed.

Lemma run_items_names_nodup plan o :
  forallb block_free plan = true ->
  NoDup (map t_name (g_tables o) ++ flat_map static_names plan) ->
  NoDup (map t_name (g_tables (run_items plan o))).
Proof.
  revert o. induction plan as [|it plan IH]; intros o Hb Hnd.
  - cbn in *. rewrite app_nil_r in Hnd. exact Hnd.
  - cbn in Hb. apply andb_true_iff in Hb as [Hb1 Hb2].
    change (run_items (it :: plan) o) with (run_items plan (run_item it o)). apply IH; [exact Hb2|].
    rewrite run_item_eq. cbn [g_tables flat_map] in *. rewrite map_app, <- app_assoc.
    destruct (item_tables_names (g_state o) (List.length (g_cons o)) it Hb1) as [E|E]; rewrite E.
    + cbn. eapply NoDup_app_drop_mid. exact Hnd.
    + exact Hnd.
Qed.

Fixpoint nodupb (l : list string) : bool :=
  match l with [] => true | x :: l' => negb (existsb (String.eqb x) l') && nodupb l' end.

Lemma nodupb_NoDup l : nodupb l = true -> NoDup l.
Proof.
  induction l as [|x l IH]; cbn; [constructor|]. intros H. apply andb_true_iff in H as [H1 H2].
  constructor; [|auto]. intros Hin. apply negb_true_iff in H1.
  assert (existsb (String.eqb x) l = true); [|congruence].
  apply existsb_exists. exists x. split; [exact Hin|apply String.eqb_refl].
Qed.

Definition plan_names_ok (plan : list plan_item) : bool :=
  (forallb block_free plan && nodupb (flat_map static_names plan))
  || match plan with [BlockPairs _ _] => true | _ => false end.

Theorem plan_names_nodup plan st :
  plan_names_ok plan = true -> NoDup (map t_name (g_tables (run_plan plan st))).
Proof.
  unfold plan_names_ok. intros H. apply orb_true_iff in H as [H|H].
  - apply andb_true_iff in H as [H1 H2]. rewrite run_plan_run_items. apply run_items_names_nodup; [exact H1|].
    cbn. apply nodupb_NoDup. exact H2.
  - destruct plan as [|[| | | | |cprefix f] [|]]; try discriminate.
    unfold run_plan. cbn [fold_left]. rewrite run_item_eq. cbn [g_tables g_state g_cons app item_tables].
    destruct (f_points st); [constructor|]. rewrite map_map. cbn [t_name block_table].
    apply Injective_map_NoDup; [|apply seq_NoDup].
    intros x y Hxy. apply append_inj_l in Hxy. apply nat_to_string_inj. exact Hxy.
Qed.

Lemma all_plans_names_ok : forallb (fun np => plan_names_ok (snd np)) all_plans = true.
Proof. vm_compute. reflexivity. Qed.

(** every constraint contributed by a plan item carries a name and is the object of some cell of a table
    written by that item (before /repo 763e32e LinearOperator's adjoint equalities were the exception: F-C17b) *)
Theorem item_src_tabulated st off it c :
  item_src st it c ->
  (exists nm, c_name c = Some nm) /\
  exists t i j, In t (item_tables st off it) /\ option_map (option_map snd) (table_cell t i j) = Some (Some c).
Proof.
  induction it as [l1 l2 cname f sym|l cname f|g it IH| |l entry|cprefix f]; cbn [item_src item_tables];
    intros Hsrc; try contradiction.
  - destruct Hsrc as (i & j & si & sj & Hi & Hj & Hsel & ->). split; [eexists; reflexivity|].
    destruct (get_list st l1) as [|s0 l0] eqn:E; [destruct i; discriminate|]. rewrite <- E in *.
    eexists _, i, j. split; [left; reflexivity|]. unfold table_cell. cbn [t_rows].
    rewrite number_rows_cell, (gen_pairs_cell _ _ _ _ _ _ i j si sj Hi Hj).
    apply skip_pair_false in Hsel. rewrite Hsel. reflexivity.
  - destruct Hsrc as (i & si & Hi & ->). split; [eexists; reflexivity|].
    eexists _, 0, i. split; [left; reflexivity|]. unfold table_cell. cbn [t_rows].
    rewrite number_rows_cell. apply gen_singles_cell. exact Hi.
  - destruct Hsrc as [Hg Hsrc]. rewrite Hg. apply IH. exact Hsrc.
  - destruct Hsrc as (i & j & k & si & sj & Hi & Hj & Hs & Hk & ->). split; [eexists; reflexivity|].
    exists (block_table st cprefix f (f_points st) off k), i, j. split.
    + apply block_item_tables_in; [|exact Hk]. intros E. rewrite E in Hi. destruct i; discriminate.
    + rewrite (block_table_cell _ _ _ _ _ _ i j si sj Hi Hj), Hs. reflexivity.
Qed.

(** the state of the regression for the repaired F-C17b: one sample of a LinearOperator, one of its transpose *)
Definition lin_witness : fstate :=
  mkF "Function_0" (fun _ => 1%Q) (fun _ => false)
      [mkSample [(0, 1%Q)] [(1, 1%Q)] [(KF 0, 1%Q)] None 0 1 2 []] []
      [mkSample [(2, 1%Q)] [(3, 1%Q)] [(KF 1, 1%Q)] None 3 4 5 []] None 4 2 6 0 (fun _ => 0%Q).
