(** C04 — class constraints are complete and independent of the declaration order: every formula used with
    symmetry=True is symmetric in (i,j); the conjunction of the generated conditions is the conjunction over ALL
    required pairs of recorded samples, hence invariant under any permutation of the recorded samples; a
    permutation of the samples is a congruence of an LMI, PSD-ness is preserved.  (Which pairs get a constraint:
    Proofs/ClassGenLemmas.v; the formula = reference equalities: Proofs/FormulaEq.v.) *)
From Coq Require Import List Reals Qreals Lra Lia String Permutation FunctionalExtensionality.
From PV Require Import Base.IPS Model.Dict Model.Terms Model.ClassGen Spec.Sem Spec.Reference.
From PV Require Import Proofs.DictLemmas Proofs.SemLemmas Proofs.ClassGenLemmas Proofs.FormulaEq.
From PV Require Import Gen.Classes.
Import ListNotations.
Local Open Scope R_scope.

Definition sat (p : R * sense) : Prop :=
  match snd p with Ineq => fst p <= 0 | Equ => fst p = 0 end.

Lemma denoteC_sat {E : ips} par (up : nat -> E) ux t : denoteC par up ux t <-> sat (lhs_minus_rhs par up ux t).
Proof. unfold sat. destruct t; cbn [lhs_minus_rhs denoteC fst snd]; lra. Qed.

(** exchange the roles of sample i and sample j in a valuation of the formula variables *)
Definition swapP {E : ips} (up : nat -> E) : nat -> E :=
  fun v => match v with 0 => up 2 | 1 => up 3 | 2 => up 0 | 3 => up 1 | _ => up v end%nat.
Definition swapX (ux : nat -> R) : nat -> R :=
  fun v => match v with 0 => ux 1 | 1 => ux 0 | _ => ux v end%nat.

Definition formula_symmetric (f : cterm) : Prop :=
  forall (E : ips) (par : nat -> R) (up : nat -> E) (ux : nat -> R),
    denoteC par up ux f <-> denoteC par (swapP up) (swapX ux) f.

Definition formula_defined (f : cterm) : Prop := forall par : nat -> R, cdef par f.

Lemma inner_sub_sub_swap {E : ips} (a b c d : E) : inner (vsub a b) (vsub c d) = inner (vsub b a) (vsub d c).
Proof. rewrite !inner_sub_l, !inner_sub_r. lra. Qed.

(** the reference of a formula used with symmetry=True is visibly symmetric or antisymmetric in (i, j), or
    depends on the two samples through the differences g_i - g_j, x_i - x_j inside inner products, and
    exchanging i and j changes the sign of both *)
Ltac sym_from feq :=
  intros E par up ux; rewrite !denoteC_sat;
  rewrite (proj2 (feq E par up ux)), (proj2 (feq E par (swapP up) (swapX ux)));
  unfold sat; cbn [fst snd swapP swapX]; autounfold with refdb; unfold nrm2;
  rewrite ?(inner_sub_sub_swap (up 3%nat) (up 1%nat)), ?(inner_sub_sub_swap (up 2%nat) (up 0%nat)); lra.

Lemma sym_cocoercive : formula_symmetric f_CocoerciveOperator_cocoercivity_constraint_i_j.
Proof. sym_from @feq_cocoercive. Qed.
Lemma sym_csm_cocoercive : formula_symmetric f_CocoerciveStronglyMonotoneOperator_cocoercivity_constraint_i_j.
Proof. sym_from @feq_csm_cocoercive. Qed.
Lemma sym_csm_strong : formula_symmetric f_CocoerciveStronglyMonotoneOperator_strong_monotonicity_constraint_i_j.
Proof. sym_from @feq_csm_strong. Qed.
Lemma sym_lipschitz : formula_symmetric f_LipschitzOperator_lipschitz_continuity_constraint_i_j.
Proof. sym_from @feq_lipschitz. Qed.
Lemma sym_lsm_strong : formula_symmetric f_LipschitzStronglyMonotoneOperator_strong_monotonicity_constraint_i_j.
Proof. sym_from @feq_lsm_strong. Qed.
Lemma sym_lsm_lipschitz : formula_symmetric f_LipschitzStronglyMonotoneOperator_lipschitz_continuity_constraint_i_j.
Proof. sym_from @feq_lsm_lipschitz. Qed.
Lemma sym_monotone : formula_symmetric f_MonotoneOperator_monotonicity_constraint_i_j.
Proof. sym_from @feq_monotone. Qed.
Lemma sym_neg_comonotone : formula_symmetric f_NegativelyComonotoneOperator_negative_comonotonicity_constraint_i_j.
Proof. sym_from @feq_neg_comonotone. Qed.
Lemma sym_nonexpansive : formula_symmetric f_NonexpansiveOperator_nonexpansiveness_constraint_i_j.
Proof. sym_from @feq_nonexpansive. Qed.
Lemma sym_skew : formula_symmetric f_SkewSymmetricLinearOperator_antisymmetric_linear_constraint_i_j.
Proof. sym_from @feq_skew. Qed.
Lemma sym_strongly_monotone : formula_symmetric f_StronglyMonotoneOperator_strong_monotonicity_constraint_i_j.
Proof. sym_from @feq_strongly_monotone. Qed.
Lemma sym_sym : formula_symmetric f_SymmetricLinearOperator_symmetric_linear_constraint_i_j.
Proof. sym_from @feq_sym. Qed.
Lemma sym_quad_sym : formula_symmetric f_SmoothStronglyConvexQuadraticFunction_symmetry_constraint_i_j.
Proof. sym_from @feq_quad_sym. Qed.

Create HintDb symdb.
#[global] Hint Resolve sym_cocoercive sym_csm_cocoercive sym_csm_strong sym_lipschitz sym_lsm_strong
  sym_lsm_lipschitz sym_monotone sym_neg_comonotone sym_nonexpansive sym_skew sym_strongly_monotone sym_sym
  sym_quad_sym : symdb.

(** [cdef] does not look at the valuation: it is read off the [feq_*] lemma at any one *)
Ltac def_from feq := intros par; exact (proj1 (feq R1 par (fun _ => 0) (fun _ => 0))).

Lemma def_cocoercive : formula_defined f_CocoerciveOperator_cocoercivity_constraint_i_j.
Proof. def_from @feq_cocoercive. Qed.
Lemma def_csm_cocoercive : formula_defined f_CocoerciveStronglyMonotoneOperator_cocoercivity_constraint_i_j.
Proof. def_from @feq_csm_cocoercive. Qed.
Lemma def_csm_strong : formula_defined f_CocoerciveStronglyMonotoneOperator_strong_monotonicity_constraint_i_j.
Proof. def_from @feq_csm_strong. Qed.
Lemma def_lipschitz : formula_defined f_LipschitzOperator_lipschitz_continuity_constraint_i_j.
Proof. def_from @feq_lipschitz. Qed.
Lemma def_lsm_strong : formula_defined f_LipschitzStronglyMonotoneOperator_strong_monotonicity_constraint_i_j.
Proof. def_from @feq_lsm_strong. Qed.
Lemma def_lsm_lipschitz : formula_defined f_LipschitzStronglyMonotoneOperator_lipschitz_continuity_constraint_i_j.
Proof. def_from @feq_lsm_lipschitz. Qed.
Lemma def_monotone : formula_defined f_MonotoneOperator_monotonicity_constraint_i_j.
Proof. def_from @feq_monotone. Qed.
Lemma def_neg_comonotone : formula_defined f_NegativelyComonotoneOperator_negative_comonotonicity_constraint_i_j.
Proof. def_from @feq_neg_comonotone. Qed.
Lemma def_nonexpansive : formula_defined f_NonexpansiveOperator_nonexpansiveness_constraint_i_j.
Proof. def_from @feq_nonexpansive. Qed.
Lemma def_skew : formula_defined f_SkewSymmetricLinearOperator_antisymmetric_linear_constraint_i_j.
Proof. def_from @feq_skew. Qed.
Lemma def_strongly_monotone : formula_defined f_StronglyMonotoneOperator_strong_monotonicity_constraint_i_j.
Proof. def_from @feq_strongly_monotone. Qed.
Lemma def_sym : formula_defined f_SymmetricLinearOperator_symmetric_linear_constraint_i_j.
Proof. def_from @feq_sym. Qed.
Lemma def_quad_sym : formula_defined f_SmoothStronglyConvexQuadraticFunction_symmetry_constraint_i_j.
Proof. def_from @feq_quad_sym. Qed.

#[global] Hint Resolve def_cocoercive def_csm_cocoercive def_csm_strong def_lipschitz def_lsm_strong
  def_lsm_lipschitz def_monotone def_neg_comonotone def_nonexpansive def_skew def_strongly_monotone def_sym
  def_quad_sym : symdb.

Section Order.
  Context {E : ips}.
  Variable rho : nat -> E.
  Variable phi : nat -> R.

  Definition all_hold (cs : list citem) : Prop := forall c, In c cs -> holds rho phi (c_obj c).

  (** a generated list of pair constraints holds iff the formula holds at every selected pair of positions; all
      of these are pairs of distinct samples *)
  Lemma pairs_hold_at st l1 l2 cname f sym i j si sj :
    all_hold (flatten_opts (gen_pairs st l1 l2 cname f sym)) ->
    nth_error l1 i = Some si -> nth_error l2 j = Some sj -> pair_selected sym i j si sj ->
    holds rho phi (inst st f si sj).
  Proof.
    intros H Hi Hj Hs. apply (H (mkC (Some (pair_name st cname si sj i j)) (inst st f si sj))).
    apply gen_pairs_spec. exists i, j, si, sj. auto.
  Qed.

  Lemma pairs_hold_distinct st l1 l2 cname f sym :
    (forall si sj, In si l1 -> In sj l2 -> s_uid si <> s_uid sj -> holds rho phi (inst st f si sj)) ->
    all_hold (flatten_opts (gen_pairs st l1 l2 cname f sym)).
  Proof.
    intros H c Hc. apply gen_pairs_spec in Hc as (i & j & si & sj & Hi & Hj & [Hu _] & ->). cbn [c_obj].
    apply H; [eapply nth_error_In; exact Hi|eapply nth_error_In; exact Hj|exact Hu].
  Qed.

  Theorem pairs_nosym_complete st l1 l2 cname f :
    all_hold (flatten_opts (gen_pairs st l1 l2 cname f false)) <->
    forall si sj, In si l1 -> In sj l2 -> s_uid si <> s_uid sj -> holds rho phi (inst st f si sj).
  Proof.
    split; [|apply pairs_hold_distinct].
    intros H si sj Hi Hj Hu. apply In_nth_error in Hi as [i Hi]. apply In_nth_error in Hj as [j Hj].
    apply (pairs_hold_at st l1 l2 cname f false i j si sj H Hi Hj). split; [exact Hu|discriminate].
  Qed.

  (** with the flag the pair of positions (i, j), i > j, is not selected: (j, i) is, and the formula is symmetric *)
  Theorem pairs_sym_complete st l cname f :
    (forall si sj, In si l -> In sj l ->
                   (holds rho phi (inst st f si sj) <-> holds rho phi (inst st f sj si))) ->
    (all_hold (flatten_opts (gen_pairs st l l cname f true)) <->
     forall si sj, In si l -> In sj l -> s_uid si <> s_uid sj -> holds rho phi (inst st f si sj)).
  Proof.
    intros Hsym. split; [|apply pairs_hold_distinct].
    intros H si sj Hi Hj Hu. destruct (In_nth_error l si Hi) as [i Hni]. destruct (In_nth_error l sj Hj) as [j Hnj].
    destruct (le_lt_dec i j) as [Hle|Hlt].
    - apply (pairs_hold_at st l l cname f true i j si sj H Hni Hnj). split; [exact Hu|intros _; exact Hle].
    - apply (Hsym si sj Hi Hj). apply (pairs_hold_at st l l cname f true j i sj si H Hnj Hni).
      split; [congruence|intros _; lia].
  Qed.

  (** the conditions an item stands for: over ALL required pairs / points of the recorded lists *)
  Fixpoint item_full (st : fstate) (it : plan_item) : Prop :=
    match it with
    | Pairs l1 l2 _ f _ =>
        forall si sj, In si (get_list st l1) -> In sj (get_list st l2) -> s_uid si <> s_uid sj ->
                      holds rho phi (inst st f si sj)
    | Singles l _ f => forall si, In si (get_list st l) -> holds rho phi (inst st f si si)
    | Guarded g it' => guard_true st g = true -> item_full st it'
    | AutoStationary => True
    | LMI _ _ => True
    | BlockPairs _ f =>
        forall si sj, In si (f_points st) -> In sj (f_points st) -> same_tuple si sj = false ->
                      forall k, (k < f_nblocks st)%nat -> holds rho phi (instB st f k si sj)
    end.

  (** side condition for items that use symmetry=True: both lists are the same list and the
      formula is symmetric on its samples *)
  Fixpoint sym_ok (st : fstate) (it : plan_item) : Prop :=
    match it with
    | Pairs l1 l2 _ f true =>
        l1 = l2 /\ forall si sj, In si (get_list st l1) -> In sj (get_list st l1) ->
                                 (holds rho phi (inst st f si sj) <-> holds rho phi (inst st f sj si))
    | Guarded _ it' => sym_ok st it'
    | _ => True
    end.

  Theorem item_full_iff st it : sym_ok st it -> (all_hold (item_cons st it) <-> item_full st it).
  Proof.
    induction it as [l1 l2 cname f sym|l cname f|g it IH| |l entry|cprefix f];
      cbn [sym_ok item_cons item_full]; intros Hok.
    - destruct sym.
      + destruct Hok as [<- Hsym]. apply pairs_sym_complete. exact Hsym.
      + apply pairs_nosym_complete.
    - unfold all_hold. split.
      + intros H si Hi. apply In_nth_error in Hi as [i Hi].
        apply (H (mkC (Some (single_name st cname si i)) (inst st f si si))).
        apply gen_singles_spec. exists i, si. auto.
      + intros H c Hc. apply gen_singles_spec in Hc as (i & si & Hi & ->). cbn [c_obj]. apply H.
        eapply nth_error_In. exact Hi.
    - destruct (guard_true st g).
      + rewrite (IH Hok). tauto.
      + split; [discriminate|]. intros _ c [].
    - split; [auto|]. intros _ c [].
    - split; [auto|]. intros _ c [].
    - unfold all_hold. split.
      + intros H si sj Hi Hj Hs k Hk. apply In_nth_error in Hi as [i Hi]. apply In_nth_error in Hj as [j Hj].
        apply (H (mkC (Some (block_name st cprefix k si sj i j)) (instB st f k si sj))).
        apply gen_block_spec. exists i, j, k, si, sj. auto.
      + intros H c Hc. apply gen_block_spec in Hc as (i & j & k & si & sj & Hi & Hj & Hs & Hk & ->). cbn [c_obj].
        apply H; try assumption; eapply nth_error_In; eassumption.
  Qed.

  (** states that differ by the order in which the samples were recorded *)
  Definition perm_equiv (st st' : fstate) : Prop :=
    f_id st = f_id st' /\ f_par st = f_par st' /\ f_inf st = f_inf st' /\ f_v st = f_v st' /\
    f_nblocks st = f_nblocks st' /\ f_Lk st = f_Lk st' /\
    f_next_point st = f_next_point st' /\ f_next_expr st = f_next_expr st' /\ f_next_uid st = f_next_uid st' /\
    Permutation (f_points st) (f_points st') /\ Permutation (f_stat st) (f_stat st') /\
    Permutation (f_tpoints st) (f_tpoints st') /\
    (* the quadratic class refers to "the" stationary sample, list_of_stationary_points[0] *)
    hd_error (f_stat st) = hd_error (f_stat st').

  Lemma perm_equiv_sym st st' : perm_equiv st st' -> perm_equiv st' st.
  Proof.
    unfold perm_equiv. intros (H1 & H2 & H3 & H4 & H5 & H6 & H7 & H8 & H9 & P1 & P2 & P3 & Hh).
    repeat split; try (symmetry; assumption); apply Permutation_sym; assumption.
  Qed.

  Lemma get_list_perm st st' l : perm_equiv st st' -> Permutation (get_list st l) (get_list st' l).
  Proof. intros (_ & _ & _ & _ & _ & _ & _ & _ & _ & P1 & P2 & P3 & _). destruct l; assumption. Qed.

  Lemma env_perm st st' si sj :
    perm_equiv st st' -> env_p st si sj = env_p st' si sj /\ env_x st si sj = env_x st' si sj.
  Proof.
    intros (_ & _ & _ & Hv & _ & _ & _ & _ & _ & _ & _ & _ & Hh). unfold env_p, env_x. rewrite Hv.
    destruct (f_stat st) as [|s l], (f_stat st') as [|s' l']; cbn in Hh; try discriminate; [split; reflexivity|].
    injection Hh as ->. split; reflexivity.
  Qed.

  Lemma inst_perm st st' f si sj : perm_equiv st st' -> inst st f si sj = inst st' f si sj.
  Proof.
    intros H. destruct (env_perm st st' si sj H) as [Hp Hx]. unfold inst. rewrite Hp, Hx.
    destruct H as (_ & -> & _). reflexivity.
  Qed.

  Lemma instB_perm st st' f k si sj : perm_equiv st st' -> instB st f k si sj = instB st' f k si sj.
  Proof.
    intros H. destruct (env_perm st st' si sj H) as [Hp Hx]. unfold instB, env_pb, par_b. rewrite Hp, Hx.
    destruct H as (_ & -> & _ & _ & _ & -> & _). reflexivity.
  Qed.

  Lemma instX_perm st st' entry si sj : perm_equiv st st' -> instX st entry si sj = instX st' entry si sj.
  Proof.
    intros H. destruct (env_perm st st' si sj H) as [Hp Hx]. unfold instX. rewrite Hp, Hx.
    destruct H as (_ & -> & _). reflexivity.
  Qed.

  Lemma guard_perm st st' g : perm_equiv st st' -> guard_true st g = guard_true st' g.
  Proof.
    intros Hpe. pose proof Hpe as (_ & _ & Hi & Hv & _). destruct g as [p| |l]; cbn; [rewrite Hi|rewrite Hv|]; try reflexivity.
    pose proof (get_list_perm st st' l Hpe) as Hp.
    destruct (get_list st l) as [|a la], (get_list st' l) as [|b lb]; try reflexivity.
    - apply Permutation_nil in Hp. discriminate.
    - apply Permutation_sym, Permutation_nil in Hp. discriminate.
  Qed.

  Lemma item_full_perm st st' it : perm_equiv st st' -> item_full st it -> item_full st' it.
  Proof.
    intros Hpe. pose proof (fun l => Permutation_sym (get_list_perm st st' l Hpe)) as Hl.
    induction it as [l1 l2 cname f sym|l cname f|g it IH| |l entry|cprefix f]; cbn [item_full]; intros H.
    - intros si sj Hi Hj Hu. rewrite <- (inst_perm st st') by exact Hpe.
      apply H; [exact (Permutation_in _ (Hl l1) Hi)|exact (Permutation_in _ (Hl l2) Hj)|exact Hu].
    - intros si Hi. rewrite <- (inst_perm st st') by exact Hpe. apply H. exact (Permutation_in _ (Hl l) Hi).
    - rewrite <- (guard_perm st st' g Hpe). intros Hg. apply IH. apply H. exact Hg.
    - exact I.
    - exact I.
    - intros si sj Hi Hj Hs k Hk. rewrite <- (instB_perm st st') by exact Hpe.
      destruct Hpe as (_ & _ & _ & _ & Hnb & _). rewrite <- Hnb in Hk.
      apply H; [exact (Permutation_in _ (Hl LPoints) Hi)|exact (Permutation_in _ (Hl LPoints) Hj)|exact Hs|exact Hk].
  Qed.

  Lemma start_state_perm plan st st' : perm_equiv st st' -> perm_equiv (start_state plan st) (start_state plan st').
  Proof.
    intros Hpe. destruct plan as [|it plan]; [exact Hpe|]. destruct it; try exact Hpe. cbn [start_state item_state].
    pose proof Hpe as (H1 & H2 & H3 & H4 & H5 & H6 & H7 & H8 & H9 & P1 & P2 & P3 & Hh).
    destruct (f_stat st) as [|s l] eqn:Es, (f_stat st') as [|s' l'] eqn:Es'; cbn in Hh; try discriminate.
    - unfold auto_stationary. rewrite Es, Es', H1, H2, H3, H4, H5, H6, H7, H8, H9.
      unfold perm_equiv. cbn. repeat split; try reflexivity; try assumption.
      apply Permutation_app_tail. exact P1.
    - exact Hpe.
  Qed.

  Theorem plan_full plan st :
    auto_head_only plan = true ->
    (forall it, In it plan -> sym_ok (start_state plan st) it) ->
    (all_hold (g_cons (run_plan plan st)) <-> forall it, In it plan -> item_full (start_state plan st) it).
  Proof.
    intros Hh Hok. split.
    - intros H it Hin. apply (item_full_iff _ it (Hok it Hin)). intros c Hc. apply H.
      apply (run_plan_items_spec_simple plan st c Hh). exists it. split; [exact Hin|].
      apply item_cons_spec. exact Hc.
    - intros H c Hc. apply (run_plan_items_spec_simple plan st c Hh) in Hc as (it & Hin & Hsrc).
      apply (proj2 (item_full_iff _ it (Hok it Hin)) (H it Hin)). apply item_cons_spec. exact Hsrc.
  Qed.

  Theorem plan_order_independent plan st st' :
    auto_head_only plan = true -> perm_equiv st st' ->
    (forall it, In it plan -> sym_ok (start_state plan st) it) ->
    (forall it, In it plan -> sym_ok (start_state plan st') it) ->
    (all_hold (g_cons (run_plan plan st)) <-> all_hold (g_cons (run_plan plan st'))).
  Proof.
    intros Hh Hpe Hok Hok'. rewrite (plan_full plan st Hh Hok), (plan_full plan st' Hh Hok').
    pose proof (start_state_perm plan st st' Hpe) as Hpe0. split; intros H it Hin.
    - apply (item_full_perm _ _ it Hpe0). apply H. exact Hin.
    - apply (item_full_perm _ _ it (perm_equiv_sym _ _ Hpe0)). apply H. exact Hin.
  Qed.
End Order.

Definition wf_sample (s : sample) : Prop :=
  NoDupKeys nat (s_x s) /\ NoDupKeys nat (s_g s) /\ NoDupKeys ekey (s_f s).

(** the recorded dictionaries have unique keys (every Python dict has) *)
Definition wf_state (st : fstate) : Prop :=
  (forall s, In s (f_points st) -> wf_sample s) /\ (forall s, In s (f_stat st) -> wf_sample s) /\
  (forall s, In s (f_tpoints st) -> wf_sample s) /\
  match f_v st with Some d => NoDupKeys nat d | None => True end.

Lemma NoDupKeys_nil K : NoDupKeys K [].
Proof. constructor. Qed.

Lemma NoDupKeys_single K (k : K) q : NoDupKeys K [(k, q)].
Proof. unfold NoDupKeys, keys. cbn. constructor; [intros []|constructor]. Qed.

Lemma wf_get_list st l s : wf_state st -> In s (get_list st l) -> wf_sample s.
Proof. intros (H1 & H2 & H3 & _). destruct l; cbn; auto. Qed.

(** the state the items of a plan see is the recorded one, or, when no stationary sample was recorded, the
    recorded one after [stationary_point()] *)
Lemma start_state_ind (P : fstate -> Prop) plan st :
  P st -> (f_stat st = [] -> P (auto_stationary st)) -> P (start_state plan st).
Proof.
  intros H0 H1. destruct plan as [|[] plan]; try exact H0. cbn [start_state item_state].
  destruct (f_stat st) eqn:Es; [exact (H1 eq_refl)|exact H0].
Qed.

Lemma wf_start_state plan st : wf_state st -> wf_state (start_state plan st).
Proof.
  intros Hwf. apply start_state_ind; [exact Hwf|]. intros Es. destruct Hwf as (H1 & H2 & H3 & H4).
  assert (Hs : wf_sample (mkSample [(f_next_point st, 1%Q)] [] [(KF (f_next_expr st), 1%Q)] None (f_next_uid st)
                                   (S (f_next_uid st)) (S (S (f_next_uid st))) [])).
  { repeat split; cbn; [apply NoDupKeys_single|apply NoDupKeys_nil|apply NoDupKeys_single]. }
  unfold auto_stationary, wf_state. cbn. rewrite Es. split; [|split; [|split; [exact H3|exact H4]]].
  - intros s Hin. apply in_app_iff in Hin as [Hin|[<-|[]]]; [auto|exact Hs].
  - intros s [<-|[]]. exact Hs.
Qed.

Lemma env_p_wf st si sj : wf_state st -> wf_sample si -> wf_sample sj -> forall v, NoDupKeys nat (env_p st si sj v).
Proof.
  intros (_ & H2 & _ & H4) (Hx & Hg & _) (Hx' & Hg' & _) v. unfold env_p.
  destruct v as [|[|[|[|[|[|v]]]]]]; try assumption; try apply NoDupKeys_nil.
  - destruct (f_stat st) as [|s l]; [apply NoDupKeys_nil|]. apply (H2 s). left. reflexivity.
  - destruct (f_v st); [exact H4|apply NoDupKeys_nil].
Qed.

Lemma env_x_wf st si sj : wf_state st -> wf_sample si -> wf_sample sj -> forall v, NoDupKeys ekey (env_x st si sj v).
Proof.
  intros (_ & H2 & _ & _) (_ & _ & Hf) (_ & _ & Hf') v. unfold env_x.
  destruct v as [|[|[|v]]]; try assumption; try apply NoDupKeys_nil.
  destruct (f_stat st) as [|s l]; [apply NoDupKeys_nil|]. apply (H2 s). left. reflexivity.
Qed.

(** the formulas a plan passes to the pair generator with symmetry=True *)
Fixpoint sym_formulas_item (it : plan_item) : list cterm :=
  match it with
  | Pairs _ _ _ f true => [f]
  | Guarded _ it' => sym_formulas_item it'
  | _ => []
  end.
Definition sym_formulas (plan : list plan_item) : list cterm := flat_map sym_formulas_item plan.

Section SoundPlan.
  Context {E : ips}.
  Variable rho : nat -> E.
  Variable phi : nat -> R.

  Definition parR (st : fstate) : nat -> R := fun p => Q2R (f_par st p).
  Definition upR (st : fstate) (si sj : sample) : nat -> E := fun v => evalP rho (env_p st si sj v).
  Definition uxR (st : fstate) (si sj : sample) : nat -> R := fun v => evalE rho phi (env_x st si sj v).

  Theorem inst_holds_denote st f si sj :
    wf_state st -> wf_sample si -> wf_sample sj -> cdef (parR st) f ->
    (holds rho phi (inst st f si sj) <-> denoteC (parR st) (upR st si sj) (uxR st si sj) f).
  Proof.
    intros Hst Hi Hj Hdef. unfold inst.
    exact (compileC_holds rho phi (f_par st) (env_p st si sj) (env_x st si sj)
                          (env_p_wf st si sj Hst Hi Hj) (env_x_wf st si sj Hst Hi Hj) f Hdef).
  Qed.

  (** the last hypothesis is what the [feq_*] equalities of FormulaEq.v provide *)
  Lemma inst_holds_sat st f si sj r sn :
    wf_state st -> wf_sample si -> wf_sample sj ->
    cdef (parR st) f /\ lhs_minus_rhs (parR st) (upR st si sj) (uxR st si sj) f = (r, sn) ->
    (holds rho phi (inst st f si sj) <-> sat (r, sn)).
  Proof.
    intros Hst Hi Hj [Hdef Heq]. rewrite (inst_holds_denote st f si sj Hst Hi Hj Hdef), denoteC_sat, Heq.
    reflexivity.
  Qed.

  (** a pair statement whose formula has the reference [r] (of the four sample vectors): [r] on all required
      pairs *)
  Lemma pairs_item_ref st l1 l2 cname f sym (r : E -> E -> E -> E -> R) sn :
    wf_state st ->
    (forall par up ux,
        cdef par f /\ lhs_minus_rhs par up ux f = (r (up 0%nat) (up 1%nat) (up 2%nat) (up 3%nat), sn)) ->
    (item_full rho phi st (Pairs l1 l2 cname f sym) <->
     forall si sj, In si (get_list st l1) -> In sj (get_list st l2) -> s_uid si <> s_uid sj ->
                   sat (r (evalP rho (s_x si)) (evalP rho (s_g si)) (evalP rho (s_x sj)) (evalP rho (s_g sj)), sn)).
  Proof.
    intros Hst Hf.
    pose proof (fun si sj Hi Hj =>
                  inst_holds_sat st f si sj _ sn Hst (wf_get_list st l1 si Hst Hi) (wf_get_list st l2 sj Hst Hj)
                                 (Hf (parR st) (upR st si sj) (uxR st si sj))) as Hc.
    cbn [item_full]. split; intros H si sj Hi Hj Hu; apply (Hc si sj Hi Hj); apply H; assumption.
  Qed.

  Lemma swap_upR st si sj : upR st sj si = swapP (upR st si sj).
  Proof.
    apply functional_extensionality. intros v. unfold upR, swapP, env_p.
    do 6 (destruct v as [|v]; [reflexivity|]). reflexivity.
  Qed.

  Lemma swap_uxR st si sj : uxR st sj si = swapX (uxR st si sj).
  Proof.
    apply functional_extensionality. intros v. unfold uxR, swapX, env_x.
    do 3 (destruct v as [|v]; [reflexivity|]). reflexivity.
  Qed.

  Lemma symmetric_inst st f si sj :
    formula_symmetric f -> formula_defined f -> wf_state st -> wf_sample si -> wf_sample sj ->
    (holds rho phi (inst st f si sj) <-> holds rho phi (inst st f sj si)).
  Proof.
    intros Hs Hd Hst Hi Hj.
    rewrite (inst_holds_denote st f si sj Hst Hi Hj (Hd _)), (inst_holds_denote st f sj si Hst Hj Hi (Hd _)).
    rewrite (swap_upR st si sj), (swap_uxR st si sj). apply Hs.
  Qed.

  Definition lst_eqb (a b : lst) : bool :=
    match a, b with LPoints, LPoints | LStationary, LStationary | LTPoints, LTPoints => true | _, _ => false end.
  Lemma lst_eqb_eq a b : lst_eqb a b = true -> a = b.
  Proof. destruct a, b; cbn; congruence. Qed.

  Fixpoint sym_same_list (it : plan_item) : bool :=
    match it with
    | Pairs l1 l2 _ _ true => lst_eqb l1 l2
    | Guarded _ it' => sym_same_list it'
    | _ => true
    end.

  Lemma sym_ok_item st it :
    sym_same_list it = true ->
    (forall f, In f (sym_formulas_item it) -> formula_symmetric f /\ formula_defined f) ->
    wf_state st -> sym_ok rho phi st it.
  Proof.
    intros Hl Hf Hst. induction it as [l1 l2 cname f sym|l cname f|g it IH| |l entry|cprefix f];
      cbn [sym_ok sym_same_list sym_formulas_item] in *; try exact I.
    - destruct sym; [|exact I]. split; [apply lst_eqb_eq; exact Hl|].
      destruct (Hf f (or_introl eq_refl)) as [Hs Hd]. intros si sj Hi Hj.
      apply symmetric_inst; try assumption; eapply wf_get_list; eassumption.
    - apply IH; assumption.
  Qed.

  (** a plan that records its automatic stationary point first, if at all, and uses symmetry=True only on one
      list against itself, with symmetric formulas *)
  Definition sound_plan (plan : list plan_item) : Prop :=
    auto_head_only plan = true /\ forallb sym_same_list plan = true /\
    forall f, In f (sym_formulas plan) -> formula_symmetric f /\ formula_defined f.

  Lemma sound_plan_sym_ok plan st :
    sound_plan plan -> wf_state st -> forall it, In it plan -> sym_ok rho phi (start_state plan st) it.
  Proof.
    intros (_ & Hl & Hf) Hst it Hit. rewrite forallb_forall in Hl.
    apply sym_ok_item; [exact (Hl it Hit)| |apply wf_start_state; exact Hst].
    intros f Hin. apply Hf. apply in_flat_map. exists it. split; assumption.
  Qed.

  Theorem sound_plan_complete plan st :
    sound_plan plan -> wf_state st ->
    (all_hold rho phi (g_cons (run_plan plan st)) <->
     forall it, In it plan -> item_full rho phi (start_state plan st) it).
  Proof. intros Hs Hst. apply plan_full; [exact (proj1 Hs)|]. apply sound_plan_sym_ok; assumption. Qed.

  Theorem sound_plan_order_independent plan st st' :
    sound_plan plan -> perm_equiv st st' -> wf_state st -> wf_state st' ->
    (all_hold rho phi (g_cons (run_plan plan st)) <-> all_hold rho phi (g_cons (run_plan plan st'))).
  Proof.
    intros Hs Hpe Hst Hst'.
    apply plan_order_independent; [exact (proj1 Hs)|exact Hpe| |]; apply sound_plan_sym_ok; assumption.
  Qed.
End SoundPlan.

Lemma shipped_sym_formulas :
  Forall (fun f => formula_symmetric f /\ formula_defined f) (flat_map (fun np => sym_formulas (snd np)) all_plans).
Proof. cbn. repeat (apply Forall_cons; [split; auto with symdb|]). apply Forall_nil. Qed.

Lemma symmetric_flag name plan f :
  In (name, plan) all_plans -> In f (sym_formulas plan) -> formula_symmetric f /\ formula_defined f.
Proof.
  intros Hin Hf. apply (proj1 (Forall_forall _ _) shipped_sym_formulas). apply in_flat_map.
  exists (name, plan). split; assumption.
Qed.

(* a fact about lists, stated apart from [shipped_sound] so that it stays free of the real-number axioms *)
Lemma shipped_shape name plan :
  In (name, plan) all_plans -> auto_head_only plan = true /\ forallb sym_same_list plan = true.
Proof.
  intros Hin.
  assert (H : forallb (fun np => auto_head_only (snd np) && forallb sym_same_list (snd np)) all_plans = true)
    by (vm_compute; reflexivity).
  rewrite forallb_forall in H. apply andb_true_iff. exact (H _ Hin).
Qed.

Lemma shipped_auto_head name plan : In (name, plan) all_plans -> auto_head_only plan = true.
Proof. intros Hin. exact (proj1 (shipped_shape name plan Hin)). Qed.

Lemma shipped_sound name plan : In (name, plan) all_plans -> sound_plan plan.
Proof.
  intros Hin. destruct (shipped_shape name plan Hin) as [Hh Hs]. split; [exact Hh|]. split; [exact Hs|].
  intros f. apply (symmetric_flag name plan f Hin).
Qed.

Theorem shipped_complete {E : ips} (rho : nat -> E) phi name plan st :
  In (name, plan) all_plans -> wf_state st ->
  (all_hold rho phi (g_cons (run_plan plan st)) <->
   forall it, In it plan -> item_full rho phi (start_state plan st) it).
Proof. intros Hin. exact (sound_plan_complete rho phi plan st (shipped_sound name plan Hin)). Qed.

Theorem shipped_order_independent {E : ips} (rho : nat -> E) phi name plan st st' :
  In (name, plan) all_plans -> perm_equiv st st' -> wf_state st -> wf_state st' ->
  (all_hold rho phi (g_cons (run_plan plan st)) <-> all_hold rho phi (g_cons (run_plan plan st'))).
Proof. intros Hin. exact (sound_plan_order_independent rho phi plan st st' (shipped_sound name plan Hin)). Qed.

(** LMIs: permuting the samples is a congruence of the matrix; PSD-ness is preserved *)
Fixpoint sumR (l : list R) : R := match l with [] => 0 | x :: l' => x + sumR l' end.

Lemma sumR_perm l l' : Permutation l l' -> sumR l = sumR l'.
Proof. induction 1; cbn; lra. Qed.

Lemma sumR_map_ext {A} (f g : A -> R) l : (forall a, In a l -> f a = g a) -> sumR (map f l) = sumR (map g l).
Proof.
  induction l as [|a l IH]; cbn; [reflexivity|]. intros H. rewrite (H a (or_introl eq_refl)), IH; [reflexivity|].
  intros b Hb. apply H. right. exact Hb.
Qed.

Section PSD.
  Context {A : Type}.
  Variable e : A -> A -> R.

  (** c^T M c for M[i][j] = e (l_i) (l_j), the coefficient c_i travelling with its sample *)
  Definition qform (cl : list (R * A)) : R :=
    sumR (map (fun p => sumR (map (fun q => fst p * fst q * e (snd p) (snd q)) cl)) cl).

  (** the matrix (e a b)_{a,b in l} is symmetric and positive semi-definite *)
  Definition psd_on (l : list A) : Prop :=
    (forall a b, In a l -> In b l -> e a b = e b a) /\
    forall c : list R, List.length c = List.length l -> 0 <= qform (combine c l).

  Lemma qform_perm cl cl' : Permutation cl cl' -> qform cl = qform cl'.
  Proof.
    intros H. unfold qform.
    rewrite (sumR_perm _ _ (Permutation_map (fun p => sumR (map (fun q => fst p * fst q * e (snd p) (snd q)) cl)) H)).
    apply sumR_map_ext. intros p _. apply sumR_perm. apply Permutation_map. exact H.
  Qed.

  Lemma combine_perm (l l' : list A) :
    Permutation l l' -> forall c : list R, List.length c = List.length l ->
    exists c' : list R, List.length c' = List.length l' /\ Permutation (combine c l) (combine c' l').
  Proof.
    induction 1 as [|x l l' Hp IH|x y l|l l' l'' Hp1 IH1 Hp2 IH2].
    - intros c Hc. exists []. destruct c; [|discriminate]. split; [reflexivity|constructor].
    - intros [|a c] Hc; [discriminate|]. cbn in Hc. destruct (IH c) as [c' [Hl Hpc]]; [lia|].
      exists (a :: c'). cbn. split; [lia|constructor; exact Hpc].
    - intros [|a [|b c]] Hc; try discriminate. exists (b :: a :: c). split; [cbn in *; lia|]. cbn. apply perm_swap.
    - intros c Hc. destruct (IH1 c Hc) as [c1 [H1 P1]]. destruct (IH2 c1 H1) as [c2 [H2 P2]].
      exists c2. split; [exact H2|eapply perm_trans; eassumption].
  Qed.

  Theorem psd_perm l l' : Permutation l l' -> psd_on l -> psd_on l'.
  Proof.
    intros Hp [Hsym Hq]. split.
    - intros a b Ha Hb. apply Hsym; eapply Permutation_in; try eassumption; apply Permutation_sym; exact Hp.
    - intros c' Hc'. destruct (combine_perm l' l (Permutation_sym Hp) c' Hc') as [c [Hl Hpc]].
      rewrite (qform_perm _ _ Hpc). apply Hq. exact Hl.
  Qed.
End PSD.

(** the quadratic form of the generated matrix, row by row / column by column *)
Definition mat_qform (m : list (list R)) (c : list R) : R :=
  sumR (map (fun p => sumR (map (fun q => fst p * fst q * snd q) (combine c (snd p)))) (combine c m)).

Lemma combine_map_r {A B C} (g : B -> C) (c : list A) (l : list B) :
  combine c (map g l) = map (fun p => (fst p, g (snd p))) (combine c l).
Proof. revert c. induction l as [|b l IH]; intros [|a c]; cbn; try reflexivity. rewrite IH. reflexivity. Qed.

Lemma qform_matrix {A} (e : A -> A -> R) (l : list A) c :
  mat_qform (map (fun a => map (e a) l) l) c = qform e (combine c l).
Proof.
  unfold mat_qform, qform. rewrite combine_map_r, map_map. f_equal. apply map_ext. intros p. cbn [fst snd].
  rewrite combine_map_r, map_map. reflexivity.
Qed.

Section LMI.
  Context {E : ips}.
  Variable rho : nat -> E.
  Variable phi : nat -> R.

  Definition evalM (m : list (list edict)) : list (list R) := map (map (evalE rho phi)) m.
  Definition lmi_entry (st : fstate) (entry : xterm) (si sj : sample) : R := evalE rho phi (instX st entry si sj).

  Lemma lmi_matrix st l entry :
    evalM (map (fun si => map (fun sj => instX st entry si sj) (get_list st l)) (get_list st l))
    = map (fun si => map (lmi_entry st entry si) (get_list st l)) (get_list st l).
  Proof. unfold evalM. rewrite map_map. apply map_ext. intros si. rewrite map_map. reflexivity. Qed.

  Lemma lmi_entry_perm st st' entry : perm_equiv st st' -> lmi_entry st entry = lmi_entry st' entry.
  Proof.
    intros Hpe. apply functional_extensionality. intros si. apply functional_extensionality. intros sj.
    unfold lmi_entry. rewrite (instX_perm st st' entry si sj Hpe). reflexivity.
  Qed.
End LMI.

(** F-C04b: SkewSymmetricLinearOperator never generates the diagonal conditions <x_i, A x_i> = 0 *)
Definition skew_sample : sample := mkSample [(0%nat, 1%Q)] [(1%nat, 1%Q)] [(KF 0, 1%Q)] None 0 1 2 [].
Definition skew_witness : fstate :=
  mkF "Function_0" (fun _ => 1%Q) (fun _ => false) [skew_sample] [] [] None 2 1 3 0 (fun _ => 0%Q).

(** One recorded sample (x, Ax): no scalar constraint at all is generated, the LMI (|Ax|^2 <= L^2 |x|^2,
    L = 1) is satisfied by x = Ax = 1 on the real line, but antisymmetry <x, Ax> = 0 fails. *)
Theorem skew_diagonal_refuted :
  exists st si, f_points st = [si] /\
    g_cons (run_plan plan_SkewSymmetricLinearOperator st) = [] /\
    exists (rho : nat -> R1) (phi : nat -> R),
      psd_on (lmi_entry rho phi st lmi_SkewSymmetricLinearOperator_1) (f_points st) /\
      ref_skew (evalP rho (s_x si)) (evalP rho (s_g si)) (evalP rho (s_x si)) (evalP rho (s_g si)) <> 0.
Proof.
  exists skew_witness, skew_sample. split; [reflexivity|]. split; [vm_compute; reflexivity|].
  exists (fun _ => 1), (fun _ => 0).
  assert (He : lmi_entry (fun _ : nat => (1 : R1)) (fun _ => 0) skew_witness lmi_SkewSymmetricLinearOperator_1
                         skew_sample skew_sample = 0).
  { unfold lmi_entry.
    assert (Hd : exists d, instX skew_witness lmi_SkewSymmetricLinearOperator_1 skew_sample skew_sample = d /\
                           evalE (fun _ : nat => (1 : R1)) (fun _ => 0) d = 0).
    { eexists. split; [vm_compute; reflexivity|]. cbn [evalE evalK]. unfold Q2R. cbn. lra. }
    destruct Hd as [d [-> Hd]]. exact Hd. }
  split.
  - split.
    + change (f_points skew_witness) with [skew_sample]. intros a b [<-|[]] [<-|[]]. reflexivity.
    + change (f_points skew_witness) with [skew_sample].
      intros [|c0 [|c1 c]] Hc; try discriminate. unfold qform. cbn [combine map sumR fst snd]. rewrite He. lra.
  - unfold ref_skew, skew_sample. cbn [s_x s_g evalP]. cbn. unfold Q2R. cbn. lra.
Qed.

Section OnePairStatement.
  Context {E : ips}.
  Variable rho : nat -> E.
  Variable phi : nat -> R.

  (** what IS generated: the antisymmetry condition for every pair of DISTINCT recorded samples *)
  Theorem skew_offdiagonal_partial st :
    wf_state st ->
    (all_hold rho phi (g_cons (run_plan plan_SkewSymmetricLinearOperator st)) <->
     forall si sj, In si (f_points st) -> In sj (f_points st) -> s_uid si <> s_uid sj ->
                   ref_skew (evalP rho (s_x si)) (evalP rho (s_g si)) (evalP rho (s_x sj)) (evalP rho (s_g sj)) = 0).
  Proof.
    intros Hst.
    assert (Hs : sound_plan plan_SkewSymmetricLinearOperator).
    { split; [reflexivity|]. split; [reflexivity|]. intros f [<-|[]]. split; [exact sym_skew|exact def_skew]. }
    rewrite (sound_plan_complete rho phi _ st Hs Hst).
    epose proof (pairs_item_ref rho phi st LPoints LPoints _ _ _ ref_skew Equ Hst (@feq_skew E)) as Hp.
    split.
    - intros H. apply Hp. exact (H _ (or_introl eq_refl)).
    - intros H it [<-|[<-|[]]]; [apply Hp; exact H|intros _; exact I].
  Qed.

  (** LinearOperator: the adjoint equalities range over two DIFFERENT lists, the samples (x_i, y_i) of the
      operator and the samples (u_j, v_j) of its transpose *)
  Theorem linear_adjoint_complete st :
    wf_state st ->
    (all_hold rho phi (g_cons (run_plan plan_LinearOperator st)) <->
     forall si sj, In si (f_points st) -> In sj (f_tpoints st) -> s_uid si <> s_uid sj ->
                   ref_lin_adjoint (evalP rho (s_x si)) (evalP rho (s_g si))
                                   (evalP rho (s_x sj)) (evalP rho (s_g sj)) = 0).
  Proof.
    intros Hst.
    assert (Hs : sound_plan plan_LinearOperator) by (split; [reflexivity|split; [reflexivity|intros f []]]).
    rewrite (sound_plan_complete rho phi _ st Hs Hst).
    epose proof (pairs_item_ref rho phi st LPoints LTPoints _ _ _ ref_lin_adjoint Equ Hst (@feq_lin_adjoint E)) as Hp.
    split.
    - intros H. apply Hp. exact (H _ (or_introl eq_refl)).
    - intros H it [<-|[<-|[<-|[]]]]; [apply Hp; exact H|intros _; exact I|intros _; exact I].
  Qed.
End OnePairStatement.

(** regression for the repaired F-C04c (BlockSmoothConvexFunction compared the triplets with [==]) *)
Definition block_s (uid fe : nat) : sample :=
  mkSample [(0%nat, 1%Q)] [(1%nat, 1%Q)] [(KF fe, 1%Q)] None uid 10 11 [[(1%nat, 1%Q)]].
Definition block_witness : fstate :=
  mkF "Function_0" (fun _ => 0%Q) (fun _ => false) [block_s 0 0; block_s 1 1] [] [] None 2 2 12 1 (fun _ => 1%Q).

(** two distinct recorded samples (x, g, f1), (x, g, f2) holding the same Point objects x and g: with the
    identity test both ordered pairs get their condition (under the old tuple equality none did) *)
Lemma block_same_xg_regression :
  map c_name (g_cons (run_plan plan_BlockSmoothConvexFunction block_witness))
  = [Some "IC_Function_0_smoothness_convexity_block_0(Point_0, Point_1)"%string;
     Some "IC_Function_0_smoothness_convexity_block_0(Point_1, Point_0)"%string].
Proof. vm_compute. reflexivity. Qed.

(** "stationary sample" is a property of the recorded data: a sample is stationary when its gradient has the
    empty (pruned) decomposition, however it was recorded ([stationary_point()], [add_point] with a zero gradient, [stationary_point()] of a composite).  The
    list the implementation keeps is an input of the model; the correspondence harness checks on every case
    that it IS the list of zero-gradient samples ([stat_consistent]). *)
Definition zero_grad (s : sample) : bool := match prune (s_g s) with [] => true | _ => false end.
Definition stat_consistent (st : fstate) : Prop := f_stat st = filter zero_grad (f_points st).

(** no empty LMI (the linear operator classes guard their LMI by [if N > 0], /repo 818e4b8): every LMI statement
    of the item is guarded by the non-emptiness of the very list it ranges over *)
Fixpoint lmi_guarded (it : plan_item) : bool :=
  match it with
  | LMI _ _ => false
  | Guarded (GNonEmpty l) (LMI l' _) => lst_eqb l l'
  | Guarded _ it' => lmi_guarded it'
  | _ => true
  end.

Lemma lmi_guarded_src st it m : lmi_guarded it = true -> item_lmi_src st it m -> m <> [].
Proof.
  induction it as [l1 l2 cname f sym|l cname f|g it IH| |l entry|cprefix f]; cbn [item_lmi_src];
    try solve [intros _ []].
  - intros Hg [Hgt Hsrc].
    destruct g as [p| |l]; cbn [lmi_guarded] in Hg; try (apply IH; assumption).
    destruct it as [| | | |l' entry|]; try (apply IH; assumption).
    apply lst_eqb_eq in Hg. subst l'. cbn [item_lmi_src] in Hsrc. cbn [guard_true] in Hgt. subst m.
    destruct (get_list st l); [discriminate|]. cbn. discriminate.
  - cbn [lmi_guarded]. discriminate.
Qed.

Theorem no_empty_lmi plan st m :
  auto_head_only plan = true -> forallb lmi_guarded plan = true ->
  In m (g_lmis (run_plan plan st)) -> m <> [].
Proof.
  intros Hh Hg Hm. apply (run_plan_lmis_spec_simple plan st m Hh) in Hm as (it & Hin & Hsrc).
  rewrite forallb_forall in Hg. exact (lmi_guarded_src _ it m (Hg it Hin) Hsrc).
Qed.

Theorem linear_classes_no_empty_lmi st m :
  (In m (g_lmis (run_plan plan_LinearOperator st)) -> m <> []) /\
  (In m (g_lmis (run_plan plan_SymmetricLinearOperator st)) -> m <> []) /\
  (In m (g_lmis (run_plan plan_SkewSymmetricLinearOperator st)) -> m <> []).
Proof. repeat split; apply no_empty_lmi; reflexivity. Qed.
