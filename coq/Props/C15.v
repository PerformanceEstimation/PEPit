(** C15 — block partitions behave as orthogonal coordinate-block projections.
    The model is Model/Blocks.v; the lemmas these theorems are assembled from are in Proofs/C15*.v.

    Vocabulary (Proofs/C15Model.v): a history is a list of [op] ([OGet obj pd k]: get_block on the
    Point object [obj] whose decomposition_dict is [pd] at that moment, [OLeaf]: a leaf created
    elsewhere); [ok] says every [pd] has unique keys and mentions only leaves that already exist;
    [trace] runs the history and records, for each first decomposition, the ghost [entry]
    (object, its dictionary, Point.counter at that moment); [blocks_of d e] are the d dictionaries
    [{leaf n:1}, ..., {leaf n+d-2:1}, pd - accumulation]. *)
From Coq Require Import List QArith Reals Lia.
From PV Require Import Base.IPS Model.Dict Model.Terms Model.Dump Model.Blocks Spec.Sem Proofs.DictLemmas
                       Proofs.C15Model Proofs.C15Sem Proofs.C15Real Proofs.C15Main.
Import ListNotations.
Local Open Scope R_scope.

(** The blocks obtained for a point sum back to that point: at the call (in every state, for every
    number of blocks, every dictionary, every inner-product space and valuation) and for ever after. *)
Theorem C15_sum_back_call :
  forall (E : ips) (rho : nat -> E) st obj pd k,
    (1 <= bp_d st)%nat -> NoDupKeys nat pd -> find_blocks obj (bp_blocks st) = None ->
    exists bl,
      find_blocks obj (bp_blocks (snd (get_block st obj pd k))) = Some bl
      /\ length bl = bp_d st
      /\ fst (get_block st obj pd k) = nth k bl []
      /\ veq (sumP rho bl) (evalP rho pd)
      /\ forall ops, find_blocks obj (bp_blocks (run (snd (get_block st obj pd k)) ops)) = Some bl.
Proof.
  intros E rho st obj pd k Hd Hnd Hf. exists (dblocks (bp_d st) (bp_next st) pd).
  rewrite (get_block_new _ _ _ _ Hf). cbn [fst snd bp_blocks].
  pose proof (find_blocks_snoc obj _ (dblocks (bp_d st) (bp_next st) pd) Hf) as H.
  split; [exact H|]. split; [apply length_dblocks, Hd|]. split; [reflexivity|].
  split; [apply sum_back_dblocks, Hnd|]. intros ops. apply run_stable, H.
Qed.

(** ... and for every history: the state is exactly the recorded decompositions, each summing back. *)
Theorem C15_sum_back :
  forall (E : ips) (rho : nat -> E) d n0 ops,
    (1 <= d)%nat -> ok (init_partition d n0) ops ->
    let st := fst (trace (init_partition d n0) [] ops) in
    let g := snd (trace (init_partition d n0) [] ops) in
    st = run (init_partition d n0) ops
    /\ bp_blocks st = map (fun e => (e_obj e, blocks_of d e)) g
    /\ forall e, In e g ->
         find_blocks (e_obj e) (bp_blocks st) = Some (blocks_of d e)
         /\ length (blocks_of d e) = d
         /\ veq (sumP rho (blocks_of d e)) (evalP rho (e_pd e)).
Proof.
  intros E rho d n0 ops Hd Hok st g. pose proof (trace_Inv d n0 ops Hok) as I. fold st g in I.
  split; [apply trace_run|]. split; [apply (inv_blocks _ _ _ I)|]. intros e He.
  split; [apply (Inv_find _ _ _ I e He)|]. split; [apply length_dblocks, Hd|].
  apply sum_back_dblocks, (inv_pd _ _ _ I e He).
Qed.

(** Freshness invariant, preserved by every history: the d-1 leaves allocated for an object are not
    keys of its dictionary, every key of every stored block is an existing leaf, distinct decomposed
    objects never share a leaf, and an object is recorded once. *)
Theorem C15_fresh :
  forall d n0 ops,
    ok (init_partition d n0) ops ->
    let st := fst (trace (init_partition d n0) [] ops) in
    let g := snd (trace (init_partition d n0) [] ops) in
    (forall e, In e g ->
       blocks_of d e = map leaf_dict (leaves_of d e) ++ [p_sub (e_pd e) (acc_of (e_n e) (d - 1))]
       /\ (forall x, In x (leaves_of d e) -> ~ In x (keys (e_pd e)) /\ (x < bp_next st)%nat)
       /\ (forall b x, In b (blocks_of d e) -> In x (keys b) -> (x < bp_next st)%nat))
    /\ (forall e1 e2 x, In e1 g -> In e2 g -> In x (leaves_of d e1) -> In x (leaves_of d e2) -> e1 = e2)
    /\ (forall e1 e2, In e1 g -> In e2 g -> e_obj e1 = e_obj e2 -> e1 = e2).
Proof.
  intros d n0 ops Hok st g. pose proof (trace_Inv d n0 ops Hok) as I. fold st g in I. split; [|split].
  - intros e He. split; [reflexivity|]. split.
    + intros x. apply (Inv_fresh _ _ _ I e x He).
    + intros b x. apply (Inv_keys_lt _ _ _ I e b x He).
  - intros e1 e2 x. apply (Inv_disjoint _ _ _ I).
  - apply (Inv_obj_inj _ _ _ I).
Qed.

(** Asking again (any block number, any later moment, whatever the object's dictionary has become)
    returns the stored blocks, allocates no leaf and leaves the state unchanged. *)
Theorem C15_idempotent :
  forall st obj pd k,
    exists bl,
      find_blocks obj (bp_blocks (snd (get_block st obj pd k))) = Some bl
      /\ fst (get_block st obj pd k) = nth k bl []
      /\ forall ops pd' k',
           let st2 := run (snd (get_block st obj pd k)) ops in
           get_block st2 obj pd' k' = (nth k' bl [], st2).
Proof. exact idempotent. Qed.

(** A one-block partition is the identity: the block is the point's pruned dictionary (same
    meaning), no leaf is allocated and no constraint is ever generated. *)
Theorem C15_one_block :
  forall (E : ips) (rho : nat -> E) st obj pd,
    bp_d st = 1%nat -> find_blocks obj (bp_blocks st) = None ->
    let b := fst (get_block st obj pd 0) in
    let st' := snd (get_block st obj pd 0) in
    b = prune pd /\ prune b = prune pd /\ veq (evalP rho b) (evalP rho pd)
    /\ bp_next st' = bp_next st
    /\ find_blocks obj (bp_blocks st') = Some [b]
    /\ partition_constraints st' = []
    /\ forall ops, partition_constraints (run st' ops) = [].
Proof.
  intros E rho st obj pd Hd Hf. cbv zeta. rewrite (one_block _ _ _ _ Hd Hf). cbn [fst snd nth bp_next bp_blocks].
  split; [reflexivity|]. split; [apply prune_idem|]. split; [apply SemLemmas.evalP_prune|]. split; [reflexivity|].
  split; [apply find_blocks_snoc, Hf|].
  split; [apply constraints_none; left; reflexivity|].
  intros ops. apply constraints_none. left. rewrite run_d. reflexivity.
Qed.

(** The generated list is, in this order and each index once, [xi[k] * xj[l] == 0] over all
    (i, j, k, l) with i, j decomposed (i = j included) and l < k < d; each constraint is the pruned
    bilinear expansion of the two block dictionaries with sense "equality". *)
Theorem C15_constraints_exact_list :
  forall st,
    let m := length (bp_blocks st) in
    let d := bp_d st in
    partition_constraints st = map (cons_at st) (idx4 m d)
    /\ NoDup (idx4 m d)
    /\ (forall i j k l, In ((i, j), (k, l)) (idx4 m d) <-> (i < m /\ j < m /\ k < d /\ l < k)%nat)
    /\ (2 * length (partition_constraints st) = m * m * (d * (d - 1)))%nat
    /\ (forall a b, block_constraint a b = (prune (multiply a b), Equ)).
Proof.
  intros st. cbv zeta. split; [apply constraints_by_index|]. split; [apply NoDup_idx4|]. split; [apply In_idx4|].
  split; [apply length_constraints|apply block_constraint_shape].
Qed.

(** Meaning: the list holds under a valuation iff every pair of DIFFERENT blocks (k <> l) of all
    decomposed points (same or different points) is orthogonal — none missing (symmetry of the inner
    product supplies k < l), none extra (never k = l; never a leaf outside the decomposed objects). *)
Theorem C15_constraints_exact :
  forall (E : ips) (rho : nat -> E) (phi : nat -> R) d n0 ops,
    ok (init_partition d n0) ops ->
    let st := fst (trace (init_partition d n0) [] ops) in
    let g := snd (trace (init_partition d n0) [] ops) in
    (forall c, In c (partition_constraints st) <->
       exists e1 e2 k l, In e1 g /\ In e2 g /\ (k < d)%nat /\ (l < k)%nat
         /\ c = block_constraint (nth k (blocks_of d e1) []) (nth l (blocks_of d e2) []))
    /\ (forall e1 e2 k l, In e1 g -> In e2 g ->
          (holds rho phi (block_constraint (nth k (blocks_of d e1) []) (nth l (blocks_of d e2) []))
           <-> inner (evalP rho (nth k (blocks_of d e1) [])) (evalP rho (nth l (blocks_of d e2) [])) = 0))
    /\ ((forall c, In c (partition_constraints st) -> holds rho phi c) <-> all_orthogonal rho d g)
    /\ (forall c key, In c (partition_constraints st) -> In key (keys (fst c)) ->
          exists x y e1 e2, key = KG x y /\ In e1 g /\ In e2 g
            /\ (In x (keys (e_pd e1)) \/ In x (leaves_of d e1))
            /\ (In y (keys (e_pd e2)) \/ In y (leaves_of d e2))).
Proof.
  intros E rho phi d n0 ops Hok st g. pose proof (trace_Inv d n0 ops Hok) as I. fold st g in I.
  split; [|split; [|split]].
  - intros c. apply (Inv_constraints _ _ _ _ I).
  - intros e1 e2 k l. apply (block_holds _ _ _ _ _ _ _ _ _ I).
  - apply constraints_iff, I.
  - intros c key Hc Hkey.
    apply (Inv_constraints _ _ _ _ I) in Hc as (e1 & e2 & k & l & He1 & He2 & _ & _ & ->).
    apply block_constraint_keys in Hkey as (x & y & -> & Hx & Hy). exists x, y, e1, e2.
    repeat split; [exact He1|exact He2|apply (keys_nth_blocks _ _ _ _ Hx)|apply (keys_nth_blocks _ _ _ _ Hy)].
Qed.

(** Solve time, a PEP with SEVERAL partitions (some with one block, some never used, built through a
    PEP object or with the class constructor: all are in the registry): the constraints received by
    the wrapper are the concatenation over ALL partitions of their cross-block relations; no
    partition is skipped whatever the others look like; one-block / unused partitions are neutral. *)
Theorem C15_solve_sent_exact :
  forall parts,
    (forall c, In c (sent_partition_constraints parts)
               <-> exists st, In st parts /\ In c (partition_constraints st))
    /\ (forall l1 st l2, sent_partition_constraints (l1 ++ st :: l2)
          = sent_partition_constraints l1 ++ partition_constraints st ++ sent_partition_constraints l2)
    /\ (forall l1 st l2, bp_d st = 1%nat \/ bp_blocks st = [] ->
          sent_partition_constraints (l1 ++ st :: l2) = sent_partition_constraints (l1 ++ l2))
    /\ (2 * length (sent_partition_constraints parts)
        = nsum (map (fun st => length (bp_blocks st) * length (bp_blocks st) * (bp_d st * (bp_d st - 1))) parts))%nat.
Proof.
  intros parts. unfold sent_partition_constraints. split; [|split; [|split]].
  - intros c. apply in_flat_map.
  - intros l1 st l2. rewrite flat_map_app. reflexivity.
  - intros l1 st l2 H. rewrite !flat_map_app. cbn [flat_map]. rewrite (constraints_none _ H). reflexivity.
  - induction parts as [|st parts IH]; [reflexivity|]. cbn [flat_map map nsum].
    rewrite app_length, Nat.mul_add_distr_l, length_constraints, IH. reflexivity.
Qed.

(** ... and they hold under a valuation iff in EVERY partition all pairs of different blocks of all
    the points it decomposed are orthogonal. *)
Theorem C15_solve_sent_meaning :
  forall (E : ips) (rho : nat -> E) (phi : nat -> R) (hs : list hist),
    (forall h, In h hs -> h_ok h) ->
    ((forall c, In c (sent_partition_constraints (map h_state hs)) -> holds rho phi c)
     <-> forall h, In h hs -> all_orthogonal rho (h_d h) (h_ghost h)).
Proof.
  intros E rho phi hs Hok. split.
  - intros H h Hh. apply (constraints_iff rho phi _ _ _ (h_Inv h (Hok h Hh))).
    intros c Hc. apply H, in_flat_map. exists (h_state h). split; [apply in_map, Hh|exact Hc].
  - intros H c Hc. apply in_flat_map in Hc as [st [Hst Hc]]. apply in_map_iff in Hst as [h [<- Hh]].
    apply (constraints_iff rho phi _ _ _ (h_Inv h (Hok h Hh))); [apply H, Hh|exact Hc].
Qed.

(** Real coordinate-block projections always satisfy the model: for every coordinate partition of
    R^n into d blocks and every values of the other leaves, valuing the fresh leaves by the true
    projections makes every block (the remainder included) the projection of the point's value; the
    blocks sum back and every generated constraint holds. *)
Theorem C15_real :
  forall n (blk : nat -> nat) d n0 ops (phi : nat -> R),
    (1 <= d)%nat -> (forall i, (i < n)%nat -> (blk i < d)%nat) ->
    ok (init_partition d n0) ops ->
    let st := fst (trace (init_partition d n0) [] ops) in
    let g := snd (trace (init_partition d n0) [] ops) in
    forall r0 : nat -> Rn n, exists r : nat -> Rn n,
      (forall x, (forall e, In e g -> ~ In x (leaves_of d e)) -> r x = r0 x)
      /\ (forall e, In e g -> forall k, (k < d - 1)%nat ->
            r (e_n e + k)%nat = proj n blk k (evalP r (e_pd e)))
      /\ (forall e, In e g -> forall k, (k < d)%nat ->
            veq (evalP r (nth k (blocks_of d e) [])) (proj n blk k (evalP r (e_pd e))))
      /\ (forall e, In e g -> veq (sumP r (blocks_of d e)) (evalP r (e_pd e)))
      /\ (forall c, In c (partition_constraints st) -> holds r phi c).
Proof.
  intros n blk d n0 ops phi Hd Hb Hok st g r0. pose proof (trace_Inv d n0 ops Hok) as I. fold st g in I.
  destruct (realizable_trace d (proj n blk) n0 ops Hok r0) as [r [Hc Hagree]].
  assert (Hsum : forall u : Rn n, veq (vsum (map (fun k => proj n blk k u) (seq 0 d))) u)
    by (intro u; apply proj_sum, Hb).
  exists r. split; [exact Hagree|]. split; [exact Hc|]. split; [|split].
  - intros e He k. apply (consistent_blocks d (proj n blk) Hd Hsum st g r e k I Hc He).
  - intros e He. apply sum_back_dblocks, (inv_pd _ _ _ I e He).
  - apply (consistent_holds d (proj n blk) Hd Hsum) with (g := g); [|exact I|exact Hc].
    intros k l u w _ _. apply proj_orth.
Qed.

(** The coordinate masks are what they should be: different blocks are orthogonal, and the d masks
    sum to the identity exactly when every coordinate is assigned to a block. *)
Theorem C15_masks :
  forall n (blk : nat -> nat),
    (forall k l (u w : Rn n), k <> l -> inner (proj n blk k u) (proj n blk l w) = 0)
    /\ (forall d (u : Rn n), (forall i, (i < n)%nat -> (blk i < d)%nat) ->
          veq (vsum (map (fun k => proj n blk k u) (seq 0 d))) u).
Proof. intros n blk. split; [exact (proj_orth n blk)|exact (proj_sum n blk)]. Qed.

(** Two distinct objects get different leaves, but the generated constraints force equal blocks as
    soon as the two objects have the same value (identity-keyed blocks_dict loses nothing). *)
Theorem C15_two_objects :
  forall (E : ips) (rho : nat -> E) (phi : nat -> R) d n0 ops,
    (1 <= d)%nat -> ok (init_partition d n0) ops ->
    let st := fst (trace (init_partition d n0) [] ops) in
    let g := snd (trace (init_partition d n0) [] ops) in
    forall e1 e2, In e1 g -> In e2 g -> e1 <> e2 ->
      e_obj e1 <> e_obj e2
      /\ (forall x, In x (leaves_of d e1) -> ~ In x (leaves_of d e2))
      /\ ((forall c, In c (partition_constraints st) -> holds rho phi c) ->
          veq (evalP rho (e_pd e1)) (evalP rho (e_pd e2)) ->
          forall k, (k < d)%nat ->
            veq (evalP rho (nth k (blocks_of d e1) [])) (evalP rho (nth k (blocks_of d e2) []))).
Proof.
  intros E rho phi d n0 ops Hd Hok st g e1 e2 He1 He2 Hne. pose proof (trace_Inv d n0 ops Hok) as I.
  fold st g in I. split; [|split].
  - intros H. apply Hne, (Inv_obj_inj _ _ _ I); assumption.
  - intros x H1 H2. apply Hne, (Inv_disjoint _ _ _ I _ _ x); assumption.
  - apply (two_objects rho phi d st g e1 e2 Hd I He1 He2).
Qed.

(** The abstract fact behind it: two orthogonal families with the same sum that are orthogonal
    across the families (different indices) coincide block by block. *)
Theorem C15_orthogonal_families_equal :
  forall (E : ips) (X Y : list E) d,
    length X = d -> length Y = d -> veq (vsum X) (vsum Y) ->
    (forall k l, (k < d)%nat -> (l < d)%nat -> k <> l ->
       inner (nth k X vzero) (nth l X vzero) = 0 /\ inner (nth k Y vzero) (nth l Y vzero) = 0
       /\ inner (nth k X vzero) (nth l Y vzero) = 0) ->
    forall k, (k < d)%nat -> veq (nth k X vzero) (nth k Y vzero).
Proof. exact (@orthogonal_families_equal). Qed.

Local Close Scope R_scope.
Local Open Scope nat_scope.

(** A history over a 3-block partition, Point.counter starting at 3: a combination is decomposed
    (object 7), a leaf is created elsewhere, a twin object 9 with the same dictionary is decomposed,
    object 7 is asked again, a block of object 7 (its leaf 4) is itself decomposed. *)
Definition ex_ops : list op :=
  [OGet 7 [(0%nat, 1%Q); (2%nat, (-1 # 2)%Q)] 0; OLeaf; OGet 9 [(0%nat, 1%Q); (2%nat, (-1 # 2)%Q)] 2;
   OGet 7 [] 1; OGet 11 [(4%nat, 1%Q)] 2].

Example C15_example_ok : ok (init_partition 3 3) ex_ops.
Proof.
  lazy. repeat split; try (intros x H; lia); repeat constructor; cbn; lia.
Qed.

Example C15_example_trace :
  let st := fst (trace (init_partition 3 3) [] ex_ops) in
  let g := snd (trace (init_partition 3 3) [] ex_ops) in
  map e_obj g = [7; 9; 11]%nat /\ map e_n g = [3; 6; 8]%nat /\ bp_next st = 10%nat
  /\ length (partition_constraints st) = 27%nat
  /\ map (fun b => dump_pdict b) (blocks_of 3 (nth 0 g (mkE 0 [] 0)))
     = map dump_pdict [[(3%nat, 1%Q)]; [(4%nat, 1%Q)];
                       [(0%nat, 1%Q); (2%nat, (-1 # 2)%Q); (3%nat, (-1)%Q); (4%nat, (-1)%Q)]]
  /\ nth 0 (partition_constraints st) ([], Ineq) = ([(KG 4 3, 1%Q)], Equ).
Proof. vm_compute. repeat split. Qed.

(** a PEP with an unused 2-block partition, the 3-block partition above and a used one-block
    partition: exactly the 27 relations of the 3-block partition reach the wrapper *)
Example C15_example_solve :
  let hs := [(2, 0, []); (3, 3, ex_ops); (1, 10, [OGet 0 [(0%nat, 1%Q)] 0])] in
  (forall h, In h hs -> h_ok h)
  /\ length (sent_partition_constraints (map h_state hs)) = 27
  /\ sent_partition_constraints (map h_state hs) = partition_constraints (h_state (3, 3, ex_ops)).
Proof.
  cbv zeta. split.
  - intros h [<-|[<-|[<-|[]]]]; [exact I|exact C15_example_ok|].
    lazy. repeat split; try (intros x H; lia); repeat constructor; cbn; lia.
  - cbn [map sent_partition_constraints flat_map].
    rewrite (constraints_none (h_state (2, 0, []))) by (right; reflexivity).
    rewrite (constraints_none (h_state (1, 10, _))) by (left; reflexivity).
    rewrite !app_nil_r. split; [vm_compute|]; reflexivity.
Qed.

(** the hypotheses of C15_real are satisfiable: R^3, blocks {0, 2} and {1} *)
Example C15_example_partition :
  forall i, (i < 3)%nat -> ((fun i => i mod 2) i < 2)%nat.
Proof. intros i _. apply Nat.mod_upper_bound. discriminate. Qed.

(** two distinct entries with equal dictionaries exist in the example history *)
Example C15_example_twins :
  let g := snd (trace (init_partition 3 3) [] ex_ops) in
  exists e1 e2, In e1 g /\ In e2 g /\ e1 <> e2 /\ e_pd e1 = e_pd e2.
Proof.
  cbv zeta. vm_compute trace. cbn [snd]. eexists; eexists. split; [left; reflexivity|].
  split; [right; left; reflexivity|]. split; [discriminate|reflexivity].
Qed.

Print Assumptions C15_sum_back_call.
Print Assumptions C15_sum_back.
Print Assumptions C15_fresh.
Print Assumptions C15_idempotent.
Print Assumptions C15_one_block.
Print Assumptions C15_constraints_exact_list.
Print Assumptions C15_constraints_exact.
Print Assumptions C15_solve_sent_exact.
Print Assumptions C15_solve_sent_meaning.
Print Assumptions C15_real.
Print Assumptions C15_masks.
Print Assumptions C15_two_objects.
Print Assumptions C15_orthogonal_families_equal.
