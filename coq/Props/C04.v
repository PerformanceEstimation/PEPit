(** C04 — class constraints are complete and independent of the declaration order.
    The general statements and everything about the generated plans and formulas are proved in
    Proofs/ClassGenLemmas.v, Proofs/C04Lemmas.v, Proofs/FormulaEq.v, the sufficiency constructions in
    Proofs/C04Sufficiency.v; their corollaries about the model alone are proved here.

    How the pieces add up.  [C04_pairs_*]: the generic pair generator emits, for lists l1 l2, exactly one
    constraint per selected pair of positions, selected = "not the same triplet object, and i <= j under the
    symmetry flag" (same list: every i <> j, resp. every i < j).  [C04_symmetric_flag_sound]: every formula any
    shipped class passes with symmetry=True is symmetric in (i,j).  [C04_shipped_complete]: hence for every shipped
    class the conjunction of the generated scalar constraints is the conjunction over ALL ordered pairs of distinct
    recorded samples (all samples for one-point conditions) of the statement's formula; [C04_formula_*] (41): that
    formula is the reference condition of Spec/Reference.v.  [C04_order_independent], [C04_lmi_order_independent]:
    recording the samples in another order gives the same conjunction / a congruent LMI.
    Known finding F-C04b: [C04_skew_diagonal_refuted] / [C04_skew_offdiagonal_partial].  (F-C04c, the tuple
    equality of BlockSmoothConvexFunction, was repaired in /repo b61687d: [C04_block_same_xg_regression].) *)
From Coq Require Import List Reals Qreals String Permutation.
From PV Require Import Base.IPS Model.Dict Model.Terms Model.ClassGen Spec.Sem Spec.Reference.
From PV Require Import Proofs.DictLemmas Proofs.SemLemmas Proofs.ClassGenLemmas Proofs.FormulaEq Proofs.C04Lemmas.
From PV Require Import Gen.Classes.
Import ListNotations.
Local Open Scope R_scope.

(** The constraints appended to list_of_class_constraints by add_constraints_from_two_lists_of_points are, in
    order, the images of the list [sel_pairs] of selected (position, sample) pairs ... *)
Theorem C04_pairs_flat :
  forall st l1 l2 cname f sym,
    flatten_opts (gen_pairs st l1 l2 cname f sym)
    = map (fun ab => pcitem st cname f (fst ab) (snd ab)) (sel_pairs sym l1 l2).
Proof. exact gen_pairs_flat. Qed.

(** ... which contains exactly the pairs of positions that are not skipped: different triplet objects, and
    i <= j when symmetry=True (for two different lists, e.g. stationary points x all points: every pair of
    distinct samples) ... *)
Theorem C04_pairs_selected :
  forall sym l1 l2 i si j sj,
    In ((i, si), (j, sj)) (sel_pairs sym l1 l2) <->
    nth_error l1 i = Some si /\ nth_error l2 j = Some sj /\
    (s_uid si <> s_uid sj /\ (sym = true -> (i <= j)%nat)).
Proof. exact sel_pairs_In. Qed.

(** ... each pair of positions at most once. *)
Theorem C04_pairs_once :
  forall sym l1 l2, NoDup (map (fun ab => (fst (fst ab), fst (snd ab))) (sel_pairs sym l1 l2)).
Proof. exact sel_pairs_NoDup. Qed.

Theorem C04_pairs_spec :
  forall st l1 l2 cname f sym c,
    In c (flatten_opts (gen_pairs st l1 l2 cname f sym)) <->
    exists i j si sj, nth_error l1 i = Some si /\ nth_error l2 j = Some sj /\ pair_selected sym i j si sj /\
                      c = mkC (Some (pair_name st cname si sj i j)) (inst st f si sj).
Proof. exact gen_pairs_spec. Qed.

(** The same list on both sides, distinct triplet objects: every ordered pair i <> j (symmetry=False), every
    unordered pair i < j (symmetry=True). *)
Theorem C04_pairs_same_list :
  forall (l : list sample) sym i j si sj,
    NoDup (map s_uid l) -> nth_error l i = Some si -> nth_error l j = Some sj ->
    (pair_selected sym i j si sj <-> i <> j /\ (sym = true -> (i < j)%nat)).
Proof. exact pair_selected_same_list. Qed.

Theorem C04_symmetric_flag_sound :
  forall name plan f, In (name, plan) all_plans -> In f (sym_formulas plan) ->
    forall (E : ips) (par : nat -> R) (up : nat -> E) (ux : nat -> R),
      denoteC par up ux f <-> denoteC par (swapP up) (swapX ux) f.
Proof. intros name plan f Hin Hf. exact (proj1 (symmetric_flag name plan f Hin Hf)). Qed.

Theorem C04_symmetry_halving_lossless :
  forall (E : ips) (rho : nat -> E) (phi : nat -> R) st l cname f,
    (forall si sj, In si l -> In sj l ->
                   (holds rho phi (inst st f si sj) <-> holds rho phi (inst st f sj si))) ->
    (all_hold rho phi (flatten_opts (gen_pairs st l l cname f true)) <->
     all_hold rho phi (flatten_opts (gen_pairs st l l cname f false))).
Proof.
  intros E rho phi st l cname f Hsym. rewrite (pairs_sym_complete rho phi st l cname f Hsym), pairs_nosym_complete.
  tauto.
Qed.

Theorem C04_pairs_nosym_complete :
  forall (E : ips) (rho : nat -> E) (phi : nat -> R) st l1 l2 cname f,
    all_hold rho phi (flatten_opts (gen_pairs st l1 l2 cname f false)) <->
    forall si sj, In si l1 -> In sj l2 -> s_uid si <> s_uid sj -> holds rho phi (inst st f si sj).
Proof. exact @pairs_nosym_complete. Qed.

Theorem C04_pairs_sym_complete :
  forall (E : ips) (rho : nat -> E) (phi : nat -> R) st l cname f,
    (forall si sj, In si l -> In sj l ->
                   (holds rho phi (inst st f si sj) <-> holds rho phi (inst st f sj si))) ->
    (all_hold rho phi (flatten_opts (gen_pairs st l l cname f true)) <->
     forall si sj, In si l -> In sj l -> s_uid si <> s_uid sj -> holds rho phi (inst st f si sj)).
Proof. exact @pairs_sym_complete. Qed.

(** a generated constraint object holds at a valuation iff the formula written in the source holds of the two
    samples (then [C04_formula_*]: iff the reference condition holds) *)
Theorem C04_inst_holds_denote :
  forall (E : ips) (rho : nat -> E) (phi : nat -> R) st f si sj,
    wf_state st -> wf_sample si -> wf_sample sj -> cdef (parR st) f ->
    (holds rho phi (inst st f si sj) <-> denoteC (parR st) (upR rho st si sj) (uxR rho phi st si sj) f).
Proof. exact @inst_holds_denote. Qed.

(** For every shipped class, every number of recorded samples: the generated scalar class constraints hold iff,
    for every statement of add_class_constraints, its condition holds on ALL required pairs / points. *)
Theorem C04_shipped_complete :
  forall (E : ips) (rho : nat -> E) (phi : nat -> R) name plan st,
    In (name, plan) all_plans -> wf_state st ->
    (all_hold rho phi (g_cons (run_plan plan st)) <->
     forall it, In it plan -> item_full rho phi (start_state plan st) it).
Proof. exact @shipped_complete. Qed.

(** "Stationary sample" is a property of the recorded data (zero gradient: the gradient's decomposition prunes to
    the empty dictionary), whichever way it was recorded -- stationary_point(), add_point with a zero gradient,
    stationary_point() of a composite c*f.  The list the implementation keeps is an input of the model; the
    class-generation stream checks on every case that it is exactly the zero-gradient samples ([stat_consistent]);
    the automatic stationary point preserves this ... *)
Theorem C04_stationary_list_is_data :
  forall plan st, stat_consistent st -> stat_consistent (start_state plan st).
Proof.
  intros plan st H. apply start_state_ind; [exact H|]. intros Es. unfold stat_consistent in *. cbn.
  rewrite filter_app, <- H, Es. reflexivity.
Qed.

(** ... and then the "stationary samples x all samples" statements (ConvexQGFunction, RsiEbFunction) stand for one
    condition per (recorded zero-gradient sample, other recorded sample). *)
Theorem C04_stationary_pairs_complete :
  forall (E : ips) (rho : nat -> E) (phi : nat -> R) st cname f sym,
    stat_consistent st ->
    (item_full rho phi st (Pairs LStationary LPoints cname f sym) <->
     forall si sj, In si (f_points st) -> zero_grad si = true -> In sj (f_points st) -> s_uid si <> s_uid sj ->
                   holds rho phi (inst st f si sj)).
Proof.
  intros E rho phi st cname f sym Hc. cbn [item_full get_list]. rewrite Hc. split.
  - intros H si sj Hi Hz Hj Hu. apply H; [apply filter_In; split; assumption|exact Hj|exact Hu].
  - intros H si sj Hi Hj Hu. apply filter_In in Hi as [Hi Hz]. apply H; assumption.
Qed.

(** Recording the same samples in another order (any permutation of list_of_points, of
    list_of_stationary_points with the same first element, of T.list_of_points) gives the same set. *)
Theorem C04_order_independent :
  forall (E : ips) (rho : nat -> E) (phi : nat -> R) name plan st st',
    In (name, plan) all_plans -> perm_equiv st st' -> wf_state st -> wf_state st' ->
    (all_hold rho phi (g_cons (run_plan plan st)) <-> all_hold rho phi (g_cons (run_plan plan st'))).
Proof. exact @shipped_order_independent. Qed.

Theorem C04_plan_order_independent :
  forall (E : ips) (rho : nat -> E) (phi : nat -> R) plan st st',
    auto_head_only plan = true -> perm_equiv st st' ->
    (forall it, In it plan -> sym_ok rho phi (start_state plan st) it) ->
    (forall it, In it plan -> sym_ok rho phi (start_state plan st') it) ->
    (all_hold rho phi (g_cons (run_plan plan st)) <-> all_hold rho phi (g_cons (run_plan plan st'))).
Proof. exact @plan_order_independent. Qed.

(** LMIs: c^T M c of the generated matrix is the quadratic form over (coefficient, sample) pairs ... *)
Theorem C04_lmi_qform :
  forall (E : ips) (rho : nat -> E) (phi : nat -> R) st l entry c,
    mat_qform (evalM rho phi (map (fun si => map (fun sj => instX st entry si sj) (get_list st l)) (get_list st l))) c
    = qform (lmi_entry rho phi st entry) (combine c (get_list st l)).
Proof. intros E rho phi st l entry c. rewrite lmi_matrix. apply qform_matrix. Qed.

(** ... which is invariant under permutations: a permutation of the samples is a congruence P M P^T, symmetry
    and positive semi-definiteness are preserved. *)
Theorem C04_psd_perm :
  forall (A : Type) (e : A -> A -> R) l l', Permutation l l' -> psd_on e l -> psd_on e l'.
Proof. exact @psd_perm. Qed.

Theorem C04_lmi_order_independent :
  forall (E : ips) (rho : nat -> E) (phi : nat -> R) st st' l entry,
    perm_equiv st st' ->
    (psd_on (lmi_entry rho phi st entry) (get_list st l) <-> psd_on (lmi_entry rho phi st' entry) (get_list st' l)).
Proof.
  intros E rho phi st st' l entry Hpe. rewrite (lmi_entry_perm rho phi st st' entry Hpe).
  pose proof (get_list_perm st st' l Hpe) as Hp. split; apply psd_perm; [exact Hp|].
  apply Permutation_sym. exact Hp.
Qed.

(** where every generated constraint / LMI comes from (used by C03) *)
Theorem C04_run_plan_items_spec :
  forall plan st c,
    In c (g_cons (run_plan plan st)) <->
    exists pre it post, plan = pre ++ it :: post /\ item_src (g_state (run_plan pre st)) it c.
Proof. exact run_plan_items_spec. Qed.

Theorem C04_run_plan_items_spec_simple :
  forall plan st c, auto_head_only plan = true ->
    (In c (g_cons (run_plan plan st)) <-> exists it, In it plan /\ item_src (start_state plan st) it c).
Proof. exact run_plan_items_spec_simple. Qed.

Theorem C04_run_plan_lmis_spec_simple :
  forall plan st m, auto_head_only plan = true ->
    (In m (g_lmis (run_plan plan st)) <-> exists it, In it plan /\ item_lmi_src (start_state plan st) it m).
Proof. exact run_plan_lmis_spec_simple. Qed.

Theorem C04_shipped_plans_auto_head :
  forall name plan, In (name, plan) all_plans -> auto_head_only plan = true.
Proof. exact shipped_auto_head. Qed.

(** no empty LMI (/repo 818e4b8: the linear operator classes guard their LMI by `if N > 0`): the guarded LMI statement generates the matrix over the samples iff there is at least one sample ... *)
Theorem C04_guarded_lmi_iff :
  forall st l entry m,
    In m (item_lmis st (Guarded (GNonEmpty l) (LMI l entry))) <->
    get_list st l <> [] /\ m = map (fun si => map (fun sj => instX st entry si sj) (get_list st l)) (get_list st l).
Proof.
  intros st l entry m. cbn [item_lmis guard_true]. destruct (get_list st l) as [|a la] eqn:E.
  - split; [intros []|intros [H _]; congruence].
  - cbn [In]. split.
    + intros [<-|[]]. split; [discriminate|reflexivity].
    + intros [_ ->]. left. reflexivity.
Qed.

(** ... a plan all of whose LMI statements are guarded never generates a 0 x 0 LMI ... *)
Theorem C04_no_empty_lmi :
  forall plan st m,
    auto_head_only plan = true -> forallb lmi_guarded plan = true ->
    In m (g_lmis (run_plan plan st)) -> m <> [].
Proof. exact no_empty_lmi. Qed.

(** ... and the LMI statements of LinearOperator (both), SymmetricLinearOperator and SkewSymmetricLinearOperator, as
    found in the sources, ARE guarded: whatever was recorded (nothing, samples of the operator only, of its
    transpose only), every generated LMI has size >= 1.  (The unguarded form is translated to the plain [LMI] item,
    for which this fails.) *)
Theorem C04_linear_classes_no_empty_lmi :
  forall st m,
    (In m (g_lmis (run_plan plan_LinearOperator st)) -> m <> []) /\
    (In m (g_lmis (run_plan plan_SymmetricLinearOperator st)) -> m <> []) /\
    (In m (g_lmis (run_plan plan_SkewSymmetricLinearOperator st)) -> m <> []).
Proof. exact linear_classes_no_empty_lmi. Qed.

(** known finding F-C04b *)
Theorem C04_skew_diagonal_refuted :
  exists st si, f_points st = [si] /\
    g_cons (run_plan plan_SkewSymmetricLinearOperator st) = [] /\
    exists (rho : nat -> R1) (phi : nat -> R),
      psd_on (lmi_entry rho phi st lmi_SkewSymmetricLinearOperator_1) (f_points st) /\
      ref_skew (evalP rho (s_x si)) (evalP rho (s_g si)) (evalP rho (s_x si)) (evalP rho (s_g si)) <> 0.
Proof. exact skew_diagonal_refuted. Qed.

Theorem C04_skew_offdiagonal_partial :
  forall (E : ips) (rho : nat -> E) (phi : nat -> R) st,
    wf_state st ->
    (all_hold rho phi (g_cons (run_plan plan_SkewSymmetricLinearOperator st)) <->
     forall si sj, In si (f_points st) -> In sj (f_points st) -> s_uid si <> s_uid sj ->
                   ref_skew (evalP rho (s_x si)) (evalP rho (s_g si)) (evalP rho (s_x sj)) (evalP rho (s_g sj)) = 0).
Proof. exact @skew_offdiagonal_partial. Qed.

(** LinearOperator: the adjoint equalities range over two DIFFERENT lists (samples of the operator x samples of
    its transpose) *)
Theorem C04_linear_adjoint_complete :
  forall (E : ips) (rho : nat -> E) (phi : nat -> R) st,
    wf_state st ->
    (all_hold rho phi (g_cons (run_plan plan_LinearOperator st)) <->
     forall si sj, In si (f_points st) -> In sj (f_tpoints st) -> s_uid si <> s_uid sj ->
                   ref_lin_adjoint (evalP rho (s_x si)) (evalP rho (s_g si))
                                   (evalP rho (s_x sj)) (evalP rho (s_g sj)) = 0).
Proof. exact @linear_adjoint_complete. Qed.

(** regression for the repaired F-C04c (/repo b61687d): two distinct samples (x, g, f1), (x, g, f2) of a
    BlockSmoothConvexFunction holding the same Point objects x and g both get their conditions *)
Example C04_block_same_xg_regression :
  map c_name (g_cons (run_plan plan_BlockSmoothConvexFunction block_witness))
  = [Some "IC_Function_0_smoothness_convexity_block_0(Point_0, Point_1)"%string;
     Some "IC_Function_0_smoothness_convexity_block_0(Point_1, Point_0)"%string].
Proof. exact block_same_xg_regression. Qed.

(** every formula found in the sources denotes its literature reference condition *)
Section Formulas.
  Context {E : ips}.
  Variable par : nat -> R.
  Variable up : nat -> E.
  Variable ux : nat -> R.
  Notation xi := (up 0%nat). Notation gi := (up 1%nat). Notation xj := (up 2%nat). Notation gj := (up 3%nat).
  Notation xs := (up 4%nat). Notation vv := (up 5%nat). Notation gik := (up 6%nat). Notation gjk := (up 7%nat).
  Notation fi := (ux 0%nat). Notation fj := (ux 1%nat). Notation fs := (ux 2%nat).
  Notation pL := (par 0%nat). Notation pmu := (par 1%nat). Notation pM := (par 2%nat). Notation pD := (par 3%nat).
  Notation pbeta := (par 4%nat). Notation prho := (par 5%nat). Notation pLk := (par 6%nat).

  Theorem C04_formula_convex : cdef par f_ConvexFunction_convexity_constraint_i_j /\ lhs_minus_rhs par up ux f_ConvexFunction_convexity_constraint_i_j = (ref_convex xi xj gj fi fj, Ineq).
  Proof. exact (feq_convex par up ux). Qed.

  Theorem C04_formula_ind_value : cdef par f_ConvexIndicatorFunction_value_constraint_i /\ lhs_minus_rhs par up ux f_ConvexIndicatorFunction_value_constraint_i = (ref_ind_value fi, Equ).
  Proof. exact (feq_ind_value par up ux). Qed.

  Theorem C04_formula_ind_normal : cdef par f_ConvexIndicatorFunction_convexity_constraint_i_j /\ lhs_minus_rhs par up ux f_ConvexIndicatorFunction_convexity_constraint_i_j = (ref_ind_normal xi xj gj, Ineq).
  Proof. exact (feq_ind_normal par up ux). Qed.

  Theorem C04_formula_ind_diameter : cdef par f_ConvexIndicatorFunction_diameter_constraint_i_j /\ lhs_minus_rhs par up ux f_ConvexIndicatorFunction_diameter_constraint_i_j = (ref_diameter pD xi xj, Ineq).
  Proof. exact (feq_ind_diameter par up ux). Qed.

  Theorem C04_formula_clip_bound : cdef par f_ConvexLipschitzFunction_lipschitz_continuity_constraint_i /\ lhs_minus_rhs par up ux f_ConvexLipschitzFunction_lipschitz_continuity_constraint_i = (ref_bounded_g pM gi, Ineq).
  Proof. exact (feq_clip_bound par up ux). Qed.

  Theorem C04_formula_clip_convex : cdef par f_ConvexLipschitzFunction_convexity_constraint_i_j /\ lhs_minus_rhs par up ux f_ConvexLipschitzFunction_convexity_constraint_i_j = (ref_convex xi xj gj fi fj, Ineq).
  Proof. exact (feq_clip_convex par up ux). Qed.

  Theorem C04_formula_qg_convex : cdef par f_ConvexQGFunction_convexity_constraint_i_j /\ lhs_minus_rhs par up ux f_ConvexQGFunction_convexity_constraint_i_j = (ref_convex xi xj gj fi fj, Ineq).
  Proof. exact (feq_qg_convex par up ux). Qed.

  Theorem C04_formula_qg_qg : pL <> 0 -> cdef par f_ConvexQGFunction_qg_convexity_constraint_i_j /\ lhs_minus_rhs par up ux f_ConvexQGFunction_qg_convexity_constraint_i_j = (ref_qg pL xi xj gj fi fj, Ineq).
  Proof. exact (feq_qg_qg par up ux). Qed.

  Theorem C04_formula_sup_fenchel : cdef par f_ConvexSupportFunction_fenchel_value_constraint_i /\ lhs_minus_rhs par up ux f_ConvexSupportFunction_fenchel_value_constraint_i = (ref_sup_fenchel xi gi fi, Equ).
  Proof. exact (feq_sup_fenchel par up ux). Qed.

  Theorem C04_formula_sup_bound : cdef par f_ConvexSupportFunction_lipschitz_continuity_constraint_i /\ lhs_minus_rhs par up ux f_ConvexSupportFunction_lipschitz_continuity_constraint_i = (ref_bounded_g pM gi, Ineq).
  Proof. exact (feq_sup_bound par up ux). Qed.

  Theorem C04_formula_sup_convex : cdef par f_ConvexSupportFunction_convexity_constraint_i_j /\ lhs_minus_rhs par up ux f_ConvexSupportFunction_convexity_constraint_i_j = (ref_sup_convex xj gi gj, Ineq).
  Proof. exact (feq_sup_convex par up ux). Qed.

  Theorem C04_formula_rsi : cdef par f_RsiEbFunction_rsi_constraints_i_j /\ lhs_minus_rhs par up ux f_RsiEbFunction_rsi_constraints_i_j = (ref_strong_monotone pmu xi gi xj gj, Ineq).
  Proof. exact (feq_rsi par up ux). Qed.

  Theorem C04_formula_eb : cdef par f_RsiEbFunction_eb_constraints_i_j /\ lhs_minus_rhs par up ux f_RsiEbFunction_eb_constraints_i_j = (ref_lipschitz pL xi gi xj gj, Ineq).
  Proof. exact (feq_eb par up ux). Qed.

  Theorem C04_formula_smooth_convex : pL <> 0 -> cdef par f_SmoothConvexFunction_smoothness_convexity_constraint_i_j /\ lhs_minus_rhs par up ux f_SmoothConvexFunction_smoothness_convexity_constraint_i_j = (ref_smooth_convex pL xi gi xj gj fi fj, Ineq).
  Proof. exact (feq_smooth_convex par up ux). Qed.

  Theorem C04_formula_scl_smooth_convex : pL <> 0 -> cdef par f_SmoothConvexLipschitzFunction_smoothness_convexity_constraint_i_j /\ lhs_minus_rhs par up ux f_SmoothConvexLipschitzFunction_smoothness_convexity_constraint_i_j = (ref_smooth_convex pL xi gi xj gj fi fj, Ineq).
  Proof. exact (feq_scl_smooth_convex par up ux). Qed.

  Theorem C04_formula_scl_bound : cdef par f_SmoothConvexLipschitzFunction_lipschitz_continuity_constraint_i /\ lhs_minus_rhs par up ux f_SmoothConvexLipschitzFunction_lipschitz_continuity_constraint_i = (ref_bounded_g pM gi, Ineq).
  Proof. exact (feq_scl_bound par up ux). Qed.

  Theorem C04_formula_smooth : pL <> 0 -> cdef par f_SmoothFunction_smoothness_i_j /\ lhs_minus_rhs par up ux f_SmoothFunction_smoothness_i_j = (ref_smooth pL xi gi xj gj fi fj, Ineq).
  Proof. exact (feq_smooth par up ux). Qed.

  Theorem C04_formula_ssc : pL <> 0 -> pmu <> pL -> cdef par f_SmoothStronglyConvexFunction_smoothness_strong_convexity_constraint_i_j /\ lhs_minus_rhs par up ux f_SmoothStronglyConvexFunction_smoothness_strong_convexity_constraint_i_j = (ref_smooth_strongly_convex pmu pL xi gi xj gj fi fj, Ineq).
  Proof. exact (feq_ssc par up ux). Qed.

  Theorem C04_formula_quad_value : cdef par f_SmoothStronglyConvexQuadraticFunction_value_constraint_i /\ lhs_minus_rhs par up ux f_SmoothStronglyConvexQuadraticFunction_value_constraint_i = (ref_quad_value xi gi xs fi fs, Equ).
  Proof. exact (feq_quad_value par up ux). Qed.

  Theorem C04_formula_quad_sym : cdef par f_SmoothStronglyConvexQuadraticFunction_symmetry_constraint_i_j /\ lhs_minus_rhs par up ux f_SmoothStronglyConvexQuadraticFunction_symmetry_constraint_i_j = (ref_quad_sym xi gi xj gj xs, Equ).
  Proof. exact (feq_quad_sym par up ux). Qed.

  Theorem C04_formula_quad_lmi : xdef par lmi_SmoothStronglyConvexQuadraticFunction_1 /\ denoteX par up ux lmi_SmoothStronglyConvexQuadraticFunction_1 = ref_quad_lmi pmu pL xi gi xj gj xs.
  Proof. exact (feq_quad_lmi par up ux). Qed.

  Theorem C04_formula_strongly_convex : cdef par f_StronglyConvexFunction_strong_convexity_constraint_i_j /\ lhs_minus_rhs par up ux f_StronglyConvexFunction_strong_convexity_constraint_i_j = (ref_strongly_convex pmu xi xj gj fi fj, Ineq).
  Proof. exact (feq_strongly_convex par up ux). Qed.

  Theorem C04_formula_cocoercive : cdef par f_CocoerciveOperator_cocoercivity_constraint_i_j /\ lhs_minus_rhs par up ux f_CocoerciveOperator_cocoercivity_constraint_i_j = (ref_cocoercive pbeta xi gi xj gj, Ineq).
  Proof. exact (feq_cocoercive par up ux). Qed.

  Theorem C04_formula_csm_cocoercive : cdef par f_CocoerciveStronglyMonotoneOperator_cocoercivity_constraint_i_j /\ lhs_minus_rhs par up ux f_CocoerciveStronglyMonotoneOperator_cocoercivity_constraint_i_j = (ref_cocoercive pbeta xi gi xj gj, Ineq).
  Proof. exact (feq_csm_cocoercive par up ux). Qed.

  Theorem C04_formula_csm_strong : cdef par f_CocoerciveStronglyMonotoneOperator_strong_monotonicity_constraint_i_j /\ lhs_minus_rhs par up ux f_CocoerciveStronglyMonotoneOperator_strong_monotonicity_constraint_i_j = (ref_strong_monotone pmu xi gi xj gj, Ineq).
  Proof. exact (feq_csm_strong par up ux). Qed.

  Theorem C04_formula_lin_adjoint : cdef par f_LinearOperator_adjoint_constraint_i_j /\ lhs_minus_rhs par up ux f_LinearOperator_adjoint_constraint_i_j = (ref_lin_adjoint xi gi xj gj, Equ).
  Proof. exact (feq_lin_adjoint par up ux). Qed.

  Theorem C04_formula_lin_lmi1 : xdef par lmi_LinearOperator_1 /\ denoteX par up ux lmi_LinearOperator_1 = ref_lin_lmi pL xi gi xj gj.
  Proof. exact (feq_lin_lmi1 par up ux). Qed.

  Theorem C04_formula_lin_lmi2 : xdef par lmi_LinearOperator_2 /\ denoteX par up ux lmi_LinearOperator_2 = ref_lin_lmi pL xi gi xj gj.
  Proof. exact (feq_lin_lmi2 par up ux). Qed.

  Theorem C04_formula_lipschitz : cdef par f_LipschitzOperator_lipschitz_continuity_constraint_i_j /\ lhs_minus_rhs par up ux f_LipschitzOperator_lipschitz_continuity_constraint_i_j = (ref_lipschitz pL xi gi xj gj, Ineq).
  Proof. exact (feq_lipschitz par up ux). Qed.

  Theorem C04_formula_lsm_strong : cdef par f_LipschitzStronglyMonotoneOperator_strong_monotonicity_constraint_i_j /\ lhs_minus_rhs par up ux f_LipschitzStronglyMonotoneOperator_strong_monotonicity_constraint_i_j = (ref_strong_monotone pmu xi gi xj gj, Ineq).
  Proof. exact (feq_lsm_strong par up ux). Qed.

  Theorem C04_formula_lsm_lipschitz : cdef par f_LipschitzStronglyMonotoneOperator_lipschitz_continuity_constraint_i_j /\ lhs_minus_rhs par up ux f_LipschitzStronglyMonotoneOperator_lipschitz_continuity_constraint_i_j = (ref_lipschitz pL xi gi xj gj, Ineq).
  Proof. exact (feq_lsm_lipschitz par up ux). Qed.

  Theorem C04_formula_monotone : cdef par f_MonotoneOperator_monotonicity_constraint_i_j /\ lhs_minus_rhs par up ux f_MonotoneOperator_monotonicity_constraint_i_j = (ref_monotone xi gi xj gj, Ineq).
  Proof. exact (feq_monotone par up ux). Qed.

  Theorem C04_formula_neg_comonotone : cdef par f_NegativelyComonotoneOperator_negative_comonotonicity_constraint_i_j /\ lhs_minus_rhs par up ux f_NegativelyComonotoneOperator_negative_comonotonicity_constraint_i_j = (ref_neg_comonotone prho xi gi xj gj, Ineq).
  Proof. exact (feq_neg_comonotone par up ux). Qed.

  Theorem C04_formula_nonexpansive : cdef par f_NonexpansiveOperator_nonexpansiveness_constraint_i_j /\ lhs_minus_rhs par up ux f_NonexpansiveOperator_nonexpansiveness_constraint_i_j = (ref_nonexpansive xi gi xj gj, Ineq).
  Proof. exact (feq_nonexpansive par up ux). Qed.

  Theorem C04_formula_inf_displacement : cdef par f_NonexpansiveOperator_infimal_displacement_vector_constraint_i /\ lhs_minus_rhs par up ux f_NonexpansiveOperator_infimal_displacement_vector_constraint_i = (ref_inf_displacement vv xi gi, Ineq).
  Proof. exact (feq_inf_displacement par up ux). Qed.

  Theorem C04_formula_skew : cdef par f_SkewSymmetricLinearOperator_antisymmetric_linear_constraint_i_j /\ lhs_minus_rhs par up ux f_SkewSymmetricLinearOperator_antisymmetric_linear_constraint_i_j = (ref_skew xi gi xj gj, Equ).
  Proof. exact (feq_skew par up ux). Qed.

  Theorem C04_formula_skew_lmi : xdef par lmi_SkewSymmetricLinearOperator_1 /\ denoteX par up ux lmi_SkewSymmetricLinearOperator_1 = ref_lin_lmi pL xi gi xj gj.
  Proof. exact (feq_skew_lmi par up ux). Qed.

  Theorem C04_formula_strongly_monotone : cdef par f_StronglyMonotoneOperator_strong_monotonicity_constraint_i_j /\ lhs_minus_rhs par up ux f_StronglyMonotoneOperator_strong_monotonicity_constraint_i_j = (ref_strong_monotone pmu xi gi xj gj, Ineq).
  Proof. exact (feq_strongly_monotone par up ux). Qed.

  Theorem C04_formula_sym : cdef par f_SymmetricLinearOperator_symmetric_linear_constraint_i_j /\ lhs_minus_rhs par up ux f_SymmetricLinearOperator_symmetric_linear_constraint_i_j = (ref_sym xi gi xj gj, Equ).
  Proof. exact (feq_sym par up ux). Qed.

  Theorem C04_formula_sym_lmi : xdef par lmi_SymmetricLinearOperator_1 /\ denoteX par up ux lmi_SymmetricLinearOperator_1 = ref_sym_lmi pmu pL xi gi xj gj.
  Proof. exact (feq_sym_lmi par up ux). Qed.

  Theorem C04_formula_block_smooth : pLk <> 0 -> cdef par f_BlockSmoothConvexFunction_smoothness_convexity_block /\ lhs_minus_rhs par up ux f_BlockSmoothConvexFunction_smoothness_convexity_block = (ref_block_smooth pLk xi xj gj gik gjk fi fj, Ineq).
  Proof. exact (feq_block_smooth par up ux). Qed.

  (** all 41 at once (one [Print Assumptions] covers them) *)
  Theorem C04_formulas_all :
    (cdef par f_ConvexFunction_convexity_constraint_i_j /\ lhs_minus_rhs par up ux f_ConvexFunction_convexity_constraint_i_j = (ref_convex xi xj gj fi fj, Ineq)) /\
    (cdef par f_ConvexIndicatorFunction_value_constraint_i /\ lhs_minus_rhs par up ux f_ConvexIndicatorFunction_value_constraint_i = (ref_ind_value fi, Equ)) /\
    (cdef par f_ConvexIndicatorFunction_convexity_constraint_i_j /\ lhs_minus_rhs par up ux f_ConvexIndicatorFunction_convexity_constraint_i_j = (ref_ind_normal xi xj gj, Ineq)) /\
    (cdef par f_ConvexIndicatorFunction_diameter_constraint_i_j /\ lhs_minus_rhs par up ux f_ConvexIndicatorFunction_diameter_constraint_i_j = (ref_diameter pD xi xj, Ineq)) /\
    (cdef par f_ConvexLipschitzFunction_lipschitz_continuity_constraint_i /\ lhs_minus_rhs par up ux f_ConvexLipschitzFunction_lipschitz_continuity_constraint_i = (ref_bounded_g pM gi, Ineq)) /\
    (cdef par f_ConvexLipschitzFunction_convexity_constraint_i_j /\ lhs_minus_rhs par up ux f_ConvexLipschitzFunction_convexity_constraint_i_j = (ref_convex xi xj gj fi fj, Ineq)) /\
    (cdef par f_ConvexQGFunction_convexity_constraint_i_j /\ lhs_minus_rhs par up ux f_ConvexQGFunction_convexity_constraint_i_j = (ref_convex xi xj gj fi fj, Ineq)) /\
    (pL <> 0 -> cdef par f_ConvexQGFunction_qg_convexity_constraint_i_j /\ lhs_minus_rhs par up ux f_ConvexQGFunction_qg_convexity_constraint_i_j = (ref_qg pL xi xj gj fi fj, Ineq)) /\
    (cdef par f_ConvexSupportFunction_fenchel_value_constraint_i /\ lhs_minus_rhs par up ux f_ConvexSupportFunction_fenchel_value_constraint_i = (ref_sup_fenchel xi gi fi, Equ)) /\
    (cdef par f_ConvexSupportFunction_lipschitz_continuity_constraint_i /\ lhs_minus_rhs par up ux f_ConvexSupportFunction_lipschitz_continuity_constraint_i = (ref_bounded_g pM gi, Ineq)) /\
    (cdef par f_ConvexSupportFunction_convexity_constraint_i_j /\ lhs_minus_rhs par up ux f_ConvexSupportFunction_convexity_constraint_i_j = (ref_sup_convex xj gi gj, Ineq)) /\
    (cdef par f_RsiEbFunction_rsi_constraints_i_j /\ lhs_minus_rhs par up ux f_RsiEbFunction_rsi_constraints_i_j = (ref_strong_monotone pmu xi gi xj gj, Ineq)) /\
    (cdef par f_RsiEbFunction_eb_constraints_i_j /\ lhs_minus_rhs par up ux f_RsiEbFunction_eb_constraints_i_j = (ref_lipschitz pL xi gi xj gj, Ineq)) /\
    (pL <> 0 -> cdef par f_SmoothConvexFunction_smoothness_convexity_constraint_i_j /\ lhs_minus_rhs par up ux f_SmoothConvexFunction_smoothness_convexity_constraint_i_j = (ref_smooth_convex pL xi gi xj gj fi fj, Ineq)) /\
    (pL <> 0 -> cdef par f_SmoothConvexLipschitzFunction_smoothness_convexity_constraint_i_j /\ lhs_minus_rhs par up ux f_SmoothConvexLipschitzFunction_smoothness_convexity_constraint_i_j = (ref_smooth_convex pL xi gi xj gj fi fj, Ineq)) /\
    (cdef par f_SmoothConvexLipschitzFunction_lipschitz_continuity_constraint_i /\ lhs_minus_rhs par up ux f_SmoothConvexLipschitzFunction_lipschitz_continuity_constraint_i = (ref_bounded_g pM gi, Ineq)) /\
    (pL <> 0 -> cdef par f_SmoothFunction_smoothness_i_j /\ lhs_minus_rhs par up ux f_SmoothFunction_smoothness_i_j = (ref_smooth pL xi gi xj gj fi fj, Ineq)) /\
    (pL <> 0 -> pmu <> pL -> cdef par f_SmoothStronglyConvexFunction_smoothness_strong_convexity_constraint_i_j /\ lhs_minus_rhs par up ux f_SmoothStronglyConvexFunction_smoothness_strong_convexity_constraint_i_j = (ref_smooth_strongly_convex pmu pL xi gi xj gj fi fj, Ineq)) /\
    (cdef par f_SmoothStronglyConvexQuadraticFunction_value_constraint_i /\ lhs_minus_rhs par up ux f_SmoothStronglyConvexQuadraticFunction_value_constraint_i = (ref_quad_value xi gi xs fi fs, Equ)) /\
    (cdef par f_SmoothStronglyConvexQuadraticFunction_symmetry_constraint_i_j /\ lhs_minus_rhs par up ux f_SmoothStronglyConvexQuadraticFunction_symmetry_constraint_i_j = (ref_quad_sym xi gi xj gj xs, Equ)) /\
    (xdef par lmi_SmoothStronglyConvexQuadraticFunction_1 /\ denoteX par up ux lmi_SmoothStronglyConvexQuadraticFunction_1 = ref_quad_lmi pmu pL xi gi xj gj xs) /\
    (cdef par f_StronglyConvexFunction_strong_convexity_constraint_i_j /\ lhs_minus_rhs par up ux f_StronglyConvexFunction_strong_convexity_constraint_i_j = (ref_strongly_convex pmu xi xj gj fi fj, Ineq)) /\
    (cdef par f_CocoerciveOperator_cocoercivity_constraint_i_j /\ lhs_minus_rhs par up ux f_CocoerciveOperator_cocoercivity_constraint_i_j = (ref_cocoercive pbeta xi gi xj gj, Ineq)) /\
    (cdef par f_CocoerciveStronglyMonotoneOperator_cocoercivity_constraint_i_j /\ lhs_minus_rhs par up ux f_CocoerciveStronglyMonotoneOperator_cocoercivity_constraint_i_j = (ref_cocoercive pbeta xi gi xj gj, Ineq)) /\
    (cdef par f_CocoerciveStronglyMonotoneOperator_strong_monotonicity_constraint_i_j /\ lhs_minus_rhs par up ux f_CocoerciveStronglyMonotoneOperator_strong_monotonicity_constraint_i_j = (ref_strong_monotone pmu xi gi xj gj, Ineq)) /\
    (cdef par f_LinearOperator_adjoint_constraint_i_j /\ lhs_minus_rhs par up ux f_LinearOperator_adjoint_constraint_i_j = (ref_lin_adjoint xi gi xj gj, Equ)) /\
    (xdef par lmi_LinearOperator_1 /\ denoteX par up ux lmi_LinearOperator_1 = ref_lin_lmi pL xi gi xj gj) /\
    (xdef par lmi_LinearOperator_2 /\ denoteX par up ux lmi_LinearOperator_2 = ref_lin_lmi pL xi gi xj gj) /\
    (cdef par f_LipschitzOperator_lipschitz_continuity_constraint_i_j /\ lhs_minus_rhs par up ux f_LipschitzOperator_lipschitz_continuity_constraint_i_j = (ref_lipschitz pL xi gi xj gj, Ineq)) /\
    (cdef par f_LipschitzStronglyMonotoneOperator_strong_monotonicity_constraint_i_j /\ lhs_minus_rhs par up ux f_LipschitzStronglyMonotoneOperator_strong_monotonicity_constraint_i_j = (ref_strong_monotone pmu xi gi xj gj, Ineq)) /\
    (cdef par f_LipschitzStronglyMonotoneOperator_lipschitz_continuity_constraint_i_j /\ lhs_minus_rhs par up ux f_LipschitzStronglyMonotoneOperator_lipschitz_continuity_constraint_i_j = (ref_lipschitz pL xi gi xj gj, Ineq)) /\
    (cdef par f_MonotoneOperator_monotonicity_constraint_i_j /\ lhs_minus_rhs par up ux f_MonotoneOperator_monotonicity_constraint_i_j = (ref_monotone xi gi xj gj, Ineq)) /\
    (cdef par f_NegativelyComonotoneOperator_negative_comonotonicity_constraint_i_j /\ lhs_minus_rhs par up ux f_NegativelyComonotoneOperator_negative_comonotonicity_constraint_i_j = (ref_neg_comonotone prho xi gi xj gj, Ineq)) /\
    (cdef par f_NonexpansiveOperator_nonexpansiveness_constraint_i_j /\ lhs_minus_rhs par up ux f_NonexpansiveOperator_nonexpansiveness_constraint_i_j = (ref_nonexpansive xi gi xj gj, Ineq)) /\
    (cdef par f_NonexpansiveOperator_infimal_displacement_vector_constraint_i /\ lhs_minus_rhs par up ux f_NonexpansiveOperator_infimal_displacement_vector_constraint_i = (ref_inf_displacement vv xi gi, Ineq)) /\
    (cdef par f_SkewSymmetricLinearOperator_antisymmetric_linear_constraint_i_j /\ lhs_minus_rhs par up ux f_SkewSymmetricLinearOperator_antisymmetric_linear_constraint_i_j = (ref_skew xi gi xj gj, Equ)) /\
    (xdef par lmi_SkewSymmetricLinearOperator_1 /\ denoteX par up ux lmi_SkewSymmetricLinearOperator_1 = ref_lin_lmi pL xi gi xj gj) /\
    (cdef par f_StronglyMonotoneOperator_strong_monotonicity_constraint_i_j /\ lhs_minus_rhs par up ux f_StronglyMonotoneOperator_strong_monotonicity_constraint_i_j = (ref_strong_monotone pmu xi gi xj gj, Ineq)) /\
    (cdef par f_SymmetricLinearOperator_symmetric_linear_constraint_i_j /\ lhs_minus_rhs par up ux f_SymmetricLinearOperator_symmetric_linear_constraint_i_j = (ref_sym xi gi xj gj, Equ)) /\
    (xdef par lmi_SymmetricLinearOperator_1 /\ denoteX par up ux lmi_SymmetricLinearOperator_1 = ref_sym_lmi pmu pL xi gi xj gj) /\
    (pLk <> 0 -> cdef par f_BlockSmoothConvexFunction_smoothness_convexity_block /\ lhs_minus_rhs par up ux f_BlockSmoothConvexFunction_smoothness_convexity_block = (ref_block_smooth pLk xi xj gj gik gjk fi fj, Ineq)).
  Proof. exact (conj C04_formula_convex (conj C04_formula_ind_value (conj C04_formula_ind_normal (conj C04_formula_ind_diameter (conj C04_formula_clip_bound (conj C04_formula_clip_convex (conj C04_formula_qg_convex (conj C04_formula_qg_qg (conj C04_formula_sup_fenchel (conj C04_formula_sup_bound (conj C04_formula_sup_convex (conj C04_formula_rsi (conj C04_formula_eb (conj C04_formula_smooth_convex (conj C04_formula_scl_smooth_convex (conj C04_formula_scl_bound (conj C04_formula_smooth (conj C04_formula_ssc (conj C04_formula_quad_value (conj C04_formula_quad_sym (conj C04_formula_quad_lmi (conj C04_formula_strongly_convex (conj C04_formula_cocoercive (conj C04_formula_csm_cocoercive (conj C04_formula_csm_strong (conj C04_formula_lin_adjoint (conj C04_formula_lin_lmi1 (conj C04_formula_lin_lmi2 (conj C04_formula_lipschitz (conj C04_formula_lsm_strong (conj C04_formula_lsm_lipschitz (conj C04_formula_monotone (conj C04_formula_neg_comonotone (conj C04_formula_nonexpansive (conj C04_formula_inf_displacement (conj C04_formula_skew (conj C04_formula_skew_lmi (conj C04_formula_strongly_monotone (conj C04_formula_sym (conj C04_formula_sym_lmi C04_formula_block_smooth)))))))))))))))))))))))))))))))))))))))). Qed.
End Formulas.

Definition ex_s (k : nat) : sample :=
  mkSample [(k, 1%Q)] [((k + 3)%nat, 1%Q)] [(KF k, 1%Q)] None k (10 + k) (20 + k) [].
Definition ex_state (l : list sample) : fstate :=
  mkF "Function_0" (fun _ => 1%Q) (fun _ => false) l [] [] None 6 3 30 0 (fun _ => 0%Q).

(** (hand-written plans and formula, so that the example does not depend on the generated plans) *)
Definition ex_f : cterm := CLeS (XSub (XSq (PSub (PVar 1) (PVar 3))) (XSq (PSub (PVar 0) (PVar 2)))) (SNum 0).
Definition ex_plan (sym : bool) : list plan_item := [Pairs LPoints LPoints "cond" ex_f sym].

Lemma ex_state_wf (ks : list nat) : wf_state (ex_state (map ex_s ks)).
Proof.
  split; [|split; [intros s []|split; [intros s []|exact I]]].
  intros s Hs. apply in_map_iff in Hs as [k [<- _]]. repeat split; apply NoDupKeys_single.
Qed.

(** three samples recorded in two orders: the hypotheses of [C04_plan_order_independent] /
    [C04_order_independent] are met; without the symmetry flag the 6 ordered pairs are generated, with it the
    3 unordered ones *)
Example C04_example :
  let st := ex_state [ex_s 0; ex_s 1; ex_s 2] in
  let st' := ex_state [ex_s 2; ex_s 0; ex_s 1] in
  perm_equiv st st' /\ wf_state st /\ wf_state st' /\
  In ("ConvexFunction"%string, plan_ConvexFunction) all_plans /\
  auto_head_only (ex_plan true) = true /\
  List.length (g_cons (run_plan (ex_plan false) st)) = 6%nat /\
  List.length (g_cons (run_plan (ex_plan true) st)) = 3%nat /\
  sym_formulas (ex_plan true) = [ex_f] /\
  map c_name (g_cons (run_plan (ex_plan true) st'))
  = [Some "IC_Function_0_cond(Point_0, Point_1)"%string;
     Some "IC_Function_0_cond(Point_0, Point_2)"%string;
     Some "IC_Function_0_cond(Point_1, Point_2)"%string].
Proof.
  cbv zeta. split; [|split; [|split; [|split; [|split; [|split; [|split; [|split]]]]]]].
  - unfold perm_equiv, ex_state. cbn. repeat split; try reflexivity.
    apply Permutation_sym. exact (Permutation_cons_app [ex_s 0; ex_s 1] [] (ex_s 2) (Permutation_refl _)).
  - exact (ex_state_wf [0; 1; 2]%nat).
  - exact (ex_state_wf [2; 0; 1]%nat).
  - repeat first [left; reflexivity | right].
  - reflexivity.
  - vm_compute. reflexivity.
  - vm_compute. reflexivity.
  - reflexivity.
  - vm_compute. reflexivity.
Qed.

Print Assumptions C04_pairs_flat.
Print Assumptions C04_pairs_selected.
Print Assumptions C04_pairs_once.
Print Assumptions C04_pairs_spec.
Print Assumptions C04_pairs_same_list.
Print Assumptions C04_symmetric_flag_sound.
Print Assumptions C04_symmetry_halving_lossless.
Print Assumptions C04_pairs_nosym_complete.
Print Assumptions C04_pairs_sym_complete.
Print Assumptions C04_inst_holds_denote.
Print Assumptions C04_shipped_complete.
Print Assumptions C04_stationary_list_is_data.
Print Assumptions C04_stationary_pairs_complete.
Print Assumptions C04_order_independent.
Print Assumptions C04_plan_order_independent.
Print Assumptions C04_lmi_qform.
Print Assumptions C04_psd_perm.
Print Assumptions C04_lmi_order_independent.
Print Assumptions C04_run_plan_items_spec.
Print Assumptions C04_run_plan_items_spec_simple.
Print Assumptions C04_run_plan_lmis_spec_simple.
Print Assumptions C04_shipped_plans_auto_head.
Print Assumptions C04_guarded_lmi_iff.
Print Assumptions C04_no_empty_lmi.
Print Assumptions C04_linear_classes_no_empty_lmi.
Print Assumptions C04_skew_diagonal_refuted.
Print Assumptions C04_skew_offdiagonal_partial.
Print Assumptions C04_linear_adjoint_complete.
Print Assumptions C04_formulas_all.

(** SUFFICIENCY ("a finite primal value is attained by a real member of the class"), for the classes where it
    is elementary (Proofs/C04Sufficiency.v).  Whenever a finite list of triples (x_i, g_i, f_i) of an arbitrary
    inner-product space satisfies the reference conditions of the class on ALL ordered pairs, there EXISTS a real
    member of the class (Spec/Classes.v) of which every triple is a genuine sample (value and subgradient).
    [convex_member] is [True] by definition, so the convexity of the constructed function ([convex_seg]: convex
    domain, value below the chord) is part of each conclusion.  StronglyConvexFunction(mu), mu >= 0: the maximum of
    the minorants f_j + <g_j, . - x_j> + mu/2 |. - x_j|^2; ConvexFunction: the same at mu = 0 (the max-affine
    interpolant); ConvexIndicatorFunction(D), D finite or not: the indicator of the convex hull of the x_i (the
    diameter bound is proved to extend from the points to their hull); further down ConvexLipschitzFunction (the
    max-affine interpolant again), ConvexSupportFunction (the support function of the hull of the g_i) and the
    graph-defined operator classes (the finite graph itself).  For the smooth classes, QG, RSI/EB, the quadratics and the
    linear operators sufficiency is the cited theorem and stays in the trusted base: there C04 is partial. *)
From PV Require Import Spec.Classes Proofs.C04Sufficiency.

Theorem C04_sufficiency_convex :
  forall (E : ips) (l : list (@triple E)),
    l <> [] ->
    (forall xi gi fi xj gj fj, In (xi, gi, fi) l -> In (xj, gj, fj) l -> ref_convex xi xj gj fi fj <= 0) ->
    exists F : @fn E,
      convex_member F /\ convex_seg F /\ (forall x, dom F x) /\
      forall s, In s l -> genuine_sub F s.
Proof. exact @suff_convex. Qed.

Theorem C04_sufficiency_indicator :
  forall (E : ips) (D : option R) (l : list (@triple E)),
    (forall x g f, In (x, g, f) l -> ref_ind_value f = 0) /\
    (forall xi gi fi xj gj fj, In (xi, gi, fi) l -> In (xj, gj, fj) l -> ref_ind_normal xi xj gj <= 0) /\
    match D with
    | Some d => forall xi gi fi xj gj fj, In (xi, gi, fi) l -> In (xj, gj, fj) l -> ref_diameter d xi xj <= 0
    | None => True
    end ->
    exists F : @fn E,
      indicator_member D F /\ convex_seg F /\
      (forall x, dom F x <-> hull (fun u => exists g f, In (u, g, f) l) x) /\
      forall s, In s l -> genuine_sub F s.
Proof. exact @suff_indicator. Qed.

Theorem C04_sufficiency_strongly_convex :
  forall (E : ips) (mu : R) (l : list (@triple E)),
    0 <= mu -> l <> [] ->
    (forall xi gi fi xj gj fj, In (xi, gi, fi) l -> In (xj, gj, fj) l ->
                               ref_strongly_convex mu xi xj gj fi fj <= 0) ->
    exists F : @fn E,
      strongly_convex_member mu F /\ convex_seg F /\ (forall x, dom F x) /\
      forall s, In s l -> genuine_sub F s.
Proof. exact @suff_strongly_convex. Qed.

(** what the hull used above is: the points, closed under segments; inside every half-space and every ball that
    contains the points *)
Theorem C04_sufficiency_hull_spec :
  forall (E : ips) (P : E -> Prop),
    (forall x, P x -> hull P x) /\
    (forall y z t, hull P y -> hull P z -> 0 <= t <= 1 -> hull P (seg y z t)) /\
    (forall g b y, (forall u, P u -> inner u g <= b) -> hull P y -> inner y g <= b) /\
    (forall z r y, (forall u, P u -> nrm2 (vsub u z) <= r) -> hull P y -> nrm2 (vsub y z) <= r).
Proof. exact (fun E P => conj (@hull_pt E P) (conj (@hull_convex E P) (conj (@hull_halfspace E P) (@hull_ball E P)))). Qed.

(** non-vacuity: three samples of |x|, of the indicator of [-1,1] (D = 2), of x^2 (mu = 2) on the real line meet
    the hypotheses *)
Example C04_sufficiency_examples :
  (ex_abs <> [] /\ convex_cond ex_abs) /\ indicator_cond (Some 2) ex_ind /\
  (ex_sq <> [] /\ strongly_convex_cond 2 ex_sq).
Proof.
  exact (conj (conj (proj1 suff_convex_nonvacuous) (proj1 (proj2 suff_convex_nonvacuous)))
              (conj (proj1 suff_indicator_nonvacuous)
                    (conj (proj1 suff_strongly_convex_nonvacuous) (proj1 (proj2 suff_strongly_convex_nonvacuous))))).
Qed.

Print Assumptions C04_sufficiency_convex.
Print Assumptions C04_sufficiency_indicator.
Print Assumptions C04_sufficiency_strongly_convex.
Print Assumptions C04_sufficiency_hull_spec.

(** sufficiency for ConvexLipschitzFunction(M), ConvexSupportFunction(M), and the operator
    classes that Spec/Classes.v defines on graphs *)

(** ConvexLipschitzFunction(M): the max-affine interpolant is M-Lipschitz when every |g_i|^2 <= M^2 (each affine
    piece by Cauchy-Schwarz, a finite max of M-Lipschitz functions is M-Lipschitz); only M^2 occurs, no sign
    condition on M is needed. *)
Theorem C04_sufficiency_convex_lipschitz :
  forall (E : ips) (M : R) (l : list (@triple E)),
    l <> [] ->
    (forall xi gi fi xj gj fj, In (xi, gi, fi) l -> In (xj, gj, fj) l -> ref_convex xi xj gj fi fj <= 0) ->
    (forall x g f, In (x, g, f) l -> ref_bounded_g M g <= 0) ->
    exists F : @fn E,
      lipschitz_fn M F /\ convex_member F /\ convex_seg F /\
      forall s, In s l -> genuine_sub F s.
Proof. exact @suff_convex_lipschitz. Qed.

(** ConvexSupportFunction(M), M finite or not: C = convex hull of the g_i, sigma = max_i <g_i, .>; beyond
    [support_member] (sigma dominates <c, .> on C; C inside the ball of radius M) the conclusion records that C
    is convex and that sigma x is attained in C at every x, i.e. sigma IS the support function of C. *)
Theorem C04_sufficiency_support :
  forall (E : ips) (M : option R) (l : list (@triple E)),
    l <> [] ->
    (forall x g f, In (x, g, f) l -> ref_sup_fenchel x g f = 0) /\
    (forall xi gi fi xj gj fj, In (xi, gi, fi) l -> In (xj, gj, fj) l -> ref_sup_convex xj gi gj <= 0) /\
    match M with
    | Some m => forall x g f, In (x, g, f) l -> ref_bounded_g m g <= 0
    | None => True
    end ->
    exists (C : E -> Prop) (sigma : E -> R),
      support_member M C sigma /\
      (forall c c' t, C c -> C c' -> 0 <= t <= 1 -> C (seg c c' t)) /\
      (forall x, exists c, C c /\ inner c x = sigma x) /\
      forall s, In s l -> genuine_support C sigma s.
Proof. exact @suff_support. Qed.

(** Operator classes defined on graphs (monotone, strongly monotone, cocoercive, negatively comonotone, Lipschitz,
    nonexpansive): interpolation BY THE FINITE GRAPH ITSELF.  [graph_of l x g := exists f, In (x, g, f) l];
    [all_pairs r l := forall xi gi fi xj gj fj, In (xi,gi,fi) l -> In (xj,gj,fj) l -> r xi gi xj gj <= 0].
    The finite graph is a member of the class iff the reference condition holds on all ordered pairs, and every
    sample is a genuine sample of it; this is what the first-principles definitions admit.  The extension to a
    maximal monotone / everywhere-defined Lipschitz operator (Zorn, Kirszbraun-Valentine) is not proved and stays
    in the trusted base. *)
Theorem C04_sufficiency_graph_classes :
  forall (E : ips) (l : list (@triple E)),
    (forall s, In s l -> genuine_op (graph_of l) s) /\
    (all_pairs ref_monotone l <-> monotone_op (graph_of l)) /\
    (forall mu, all_pairs (ref_strong_monotone mu) l <-> strongly_monotone_op mu (graph_of l)) /\
    (forall beta, all_pairs (ref_cocoercive beta) l <-> cocoercive_op beta (graph_of l)) /\
    (forall rho, all_pairs (ref_neg_comonotone rho) l <-> neg_comonotone_op rho (graph_of l)) /\
    (forall L, all_pairs (ref_lipschitz L) l <-> lipschitz_op L (graph_of l)) /\
    (all_pairs ref_nonexpansive l <-> nonexpansive_op (graph_of l)).
Proof. exact @suff_graph_classes. Qed.

(** non-vacuity: the three triples (-1,-1,1), (0,0,0), (1,1,1) on the real line are samples of |x| as a
    1-Lipschitz convex function, as the support function of [-1,1] (M = 1), and of a monotone nonexpansive graph *)
Example C04_sufficiency_examples2 :
  bounded_cond 1 ex_abs /\ support_cond (Some 1) ex_abs /\
  all_pairs ref_monotone ex_abs /\ all_pairs ref_nonexpansive ex_abs.
Proof.
  exact (conj (proj1 suff_lipschitz_nonvacuous)
              (conj (proj1 suff_support_nonvacuous)
                    (conj (proj1 suff_graph_nonvacuous) (proj1 (proj2 suff_graph_nonvacuous))))).
Qed.

Print Assumptions C04_sufficiency_convex_lipschitz.
Print Assumptions C04_sufficiency_support.
Print Assumptions C04_sufficiency_graph_classes.
