(** C06 — Point / expression algebra is a faithful vector-space and inner-product calculus.
    The theorems about the operators restate lemmas of Proofs/SemLemmas.v and Proofs/DictLemmas.v, which C03, C04, C08
    and C09 use as well; the no-mutation clause is a generated decidable obligation (Model/PurityPlan.v over
    Gen/Purity.v). *)
From Coq Require Import List Reals Qreals.
From PV Require Import Base.IPS Model.Dict Model.Terms Spec.Sem Proofs.DictLemmas Proofs.SemLemmas.
From Coq Require Import String.
From PV Require Import Model.PurityPlan Gen.Purity.
Import ListNotations.
Local Open Scope R_scope.

(** For every finite tree of DSL operators over points, every inner-product space, every valuation
    of the leaves and every scalar (zero, negative, repeated operands, cancellations, mirrored
    products are all just trees): the dictionary computed by the operator overloads evaluates to the
    mathematical meaning of the tree.  Variables may be bound to arbitrary well-formed objects. *)
Theorem C06_tree_points :
  forall (E : ips) (rho : nat -> E) (penv : nat -> Q) (vp : nat -> pdict),
    (forall v, NoDupKeys nat (vp v)) ->
    forall t, pdef (fun p => Q2R (penv p)) t ->
      veq (evalP rho (compileP penv vp t))
          (denoteP (fun p => Q2R (penv p)) (fun v => evalP rho (vp v)) t).
Proof. exact (@compileP_denote). Qed.

Theorem C06_tree_expressions :
  forall (E : ips) (rho : nat -> E) (phi : nat -> R) (penv : nat -> Q) (vp : nat -> pdict) (vx : nat -> edict),
    (forall v, NoDupKeys nat (vp v)) -> (forall v, NoDupKeys ekey (vx v)) ->
    forall t, xdef (fun p => Q2R (penv p)) t ->
      evalE rho phi (compileX penv vp vx t)
      = denoteX (fun p => Q2R (penv p)) (fun v => evalP rho (vp v)) (fun v => evalE rho phi (vx v)) t.
Proof. exact (@compileX_denote). Qed.

(** A comparison yields a constraint whose expression is left-minus-right (right-minus-left for >=,
    the same up to sign for a reflected ==) with the sense written ... *)
Theorem C06_comparisons :
  forall (E : ips) (rho : nat -> E) (phi : nat -> R) (penv : nat -> Q) (vp : nat -> pdict) (vx : nat -> edict),
    (forall v, NoDupKeys nat (vp v)) -> (forall v, NoDupKeys ekey (vx v)) ->
    forall t, cdef (fun p => Q2R (penv p)) t ->
      (evalE rho phi (fst (compileC penv vp vx t)), snd (compileC penv vp vx t))
      = lhs_minus_rhs (fun p => Q2R (penv p)) (fun v => evalP rho (vp v)) (fun v => evalE rho phi (vx v)) t.
Proof. exact (@compileC_denote). Qed.

(** ... hence the constraint object holds exactly when the comparison written in the source does. *)
Theorem C06_constraint_meaning :
  forall (E : ips) (rho : nat -> E) (phi : nat -> R) (penv : nat -> Q) (vp : nat -> pdict) (vx : nat -> edict),
    (forall v, NoDupKeys nat (vp v)) -> (forall v, NoDupKeys ekey (vx v)) ->
    forall t, cdef (fun p => Q2R (penv p)) t ->
      (holds rho phi (compileC penv vp vx t)
       <-> denoteC (fun p => Q2R (penv p)) (fun v => evalP rho (vp v)) (fun v => evalE rho phi (vx v)) t).
Proof. exact (@compileC_holds). Qed.

(** Every operator returns a dictionary with unique keys (the representation invariant the other
    theorems assume of variables is re-established by every result). *)
Theorem C06_wf :
  forall (penv : nat -> Q) (vp : nat -> pdict) (vx : nat -> edict),
    (forall v, NoDupKeys nat (vp v)) -> (forall v, NoDupKeys ekey (vx v)) ->
    (forall t, NoDupKeys nat (compileP penv vp t)) /\
    (forall t, NoDupKeys ekey (compileX penv vp vx t)) /\
    (forall t, NoDupKeys ekey (fst (compileC penv vp vx t))).
Proof.
  intros penv vp vx Hp Hx. split; [|split]; intro t.
  - exact (compileP_wf penv vp Hp t).
  - exact (compileX_wf penv vp vx Hp Hx t).
  - exact (compileC_wf penv vp vx Hp Hx t).
Qed.

(** Pruning removes exactly the entries whose coefficient is zero. *)
Theorem C06_prune_exact :
  forall (K : Type) (d : dict K) k v, In (k, v) (prune d) <-> (In (k, v) d /\ ~ (v == 0)%Q).
Proof. exact In_prune. Qed.

(** Non-vacuity: a concrete tree with a cancellation, a zero scalar and a mirrored product; the
    hypotheses of the theorems above are met (on the real line) and the compiled constraint is
    3 - f0 - <x0,x1> + <x1,x1> <= 0, the zero-weight mirrored key having been pruned. *)
Example C06_example :
  let t := CGe (XAdd (XInner (PSub (PVar 0) (PVar 1)) (PVar 1)) (XInner (PVar 1) (PScal (SNum 0) (PVar 0))))
               (XSSub (SNum (3 # 1)) (XVar 0)) in
  let c := compileC (fun _ => 0%Q) (fun v => [(v, 1%Q)]) (fun v => [(KF v, 1%Q)]) t in
  cdef (fun _ => 0) t
  /\ dict_eqb ekey_eqb (fst c) [(KG 0 1, (-1) # 1); (KG 1 1, 1 # 1); (KF 0, (-1) # 1); (K1, 3 # 1)]%Q = true
  /\ snd c = Ineq.
Proof. cbv zeta. split; [cbn; tauto|]. split; vm_compute; reflexivity. Qed.

Local Open Scope string_scope.

(** "Operations never alter their operands", as an obligation over the SOURCE, regenerated on every run
    (translator/tr_purity.py, fail-closed, -> Gen/Purity.v).  In every operator method of class Point and class Expression
    (binary, reflected, unary, comparison, and any in-place dunder that may be added), in the three constructors they call
    (where only the object under construction may be written) and in the dictionary helpers merge_dict / prune_dict /
    multiply_dicts / symmetrize_dict -- all of which must be present -- no statement stores into, deletes from, updates in
    place, or calls a mutating method on, an object that may be reachable from a parameter (`self`, `other`, the dict
    arguments), no such object is handed to code outside the analysed set, nothing lies outside the grammar of the
    analysis, and every helper returns a fresh dictionary.  The only writes found are the class counters / registries
    updated by the constructors ([PGlobal], listed in Gen/Purity.v). *)
Theorem C06_operators_do_not_write_operands :
  purity_ok analysed purity_items helper_returns_fresh = true.
Proof. vm_compute. reflexivity. Qed.

(** Non-vacuity of the obligation: the same generated lists are rejected as soon as one write through an operand is
    added (the accumulating `__add__`), one item is outside the grammar, one expected method has not been analysed, or one
    helper may hand back its argument. *)
Example C06_purity_obligation_rejects :
  purity_ok analysed (PWrite WSubscript "Expression.__add__" "self.decomposition_dict[key] = value" :: purity_items)
            helper_returns_fresh = false
  /\ purity_ok analysed (POther "Point.__sub__" "nested function" :: purity_items) helper_returns_fresh = false
  /\ purity_ok (filter (fun e => negb (pair_eqb e ("Point", "__rmul__"))) analysed) purity_items helper_returns_fresh = false
  /\ purity_ok analysed purity_items (("merge_dict", false) :: helper_returns_fresh) = false
  /\ purity_ok analysed purity_items [] = false.
Proof. vm_compute. repeat split; reflexivity. Qed.

Print Assumptions C06_tree_points.
Print Assumptions C06_tree_expressions.
Print Assumptions C06_comparisons.
Print Assumptions C06_constraint_meaning.
Print Assumptions C06_wf.
Print Assumptions C06_prune_exact.
Print Assumptions C06_operators_do_not_write_operands.
