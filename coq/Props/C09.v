(** C09 — no real run of a modelled method on a real function beats the returned bound.
    The property theorems.  The invariants of a run are in Proofs/MethodLemmas.v, the worlds and the state the class
    generator starts from in Proofs/C09Compose*.v ([run_state_genuine]).  A class theorem below is that lemma followed by
    the class' theorem of Proofs/C03Assembly.v; the composition is done here, except for the three that the worked
    examples of Proofs/ use as well and that have a name there ([run_satisfies_convex_any],
    [run_satisfies_smooth_strongly_convex_any], [run_satisfies_convex_indicator]). *)
From Coq Require Import List Reals Qreals.
From PV Require Import Base.IPS Model.Dict Model.Terms Model.Sent Model.Cvxpy Model.Method Spec.Sem Spec.World Spec.KKT
  Model.ClassGen Spec.Classes Proofs.MethodLemmas Proofs.C09Bound Proofs.C03Core Proofs.C03Assembly Proofs.C09Compose.
From PV Require Import Gen.Classes.
Import ListNotations.
Local Open Scope R_scope.

(** For every inner-product space, every world (a real oracle for each leaf function whose outputs
    are genuine samples of that function), every well-formed program of any length and every initial
    valuation of the leaves: after the real run, EVERY recorded triple is a genuine sample of its
    function at the values the run gave to the leaves.  Programs may contain proximal steps ([MProx], the
    model of PEPit.primitive_steps.proximal_step) on the functions of the world that have a proximal
    operator ([steps_ok]; [mwf] asks for a positive step size). *)
Theorem C09_recorded_samples_are_genuine :
  forall (E : ips) (W : @world E) (ops : list mop) (vs : (nat -> E) * (nat -> R)),
    mwf ops minit = true -> steps_ok W ops = true ->
    forall f t, In (f, t) (m_samples (mrun ops minit)) ->
      Gen W f (sample_at (E := E) (fst (wrun W ops minit vs)) (snd (wrun W ops minit vs)) t).
Proof.
  intros E W ops vs Hwf Hpx f t Hin.
  exact (proj2 (world_samples_genuine_init W ops vs Hwf Hpx f t Hin)).
Qed.

(** The run never changes the value of a leaf that existed before it, nor of a free leaf created
    during it: starting points and optima are whatever the initial valuation (constrained only by
    the user's initial condition) says. *)
Theorem C09_existing_leaves_keep_values :
  forall (E : ips) (W : @world E) (ops : list mop) (s : mstate) (vs : (nat -> E) * (nat -> R)),
    (forall i, (i < m_np s)%nat -> fst (wrun W ops s vs) i = fst vs i) /\
    (forall i, (i < m_ne s)%nat -> snd (wrun W ops s vs) i = snd vs i).
Proof. exact (@wrun_keeps). Qed.

Theorem C09_free_leaves_keep_values :
  forall (E : ips) (W : @world E) (ops1 ops2 : list mop) (s : mstate) (vs : (nat -> E) * (nat -> R)),
    fst (wrun W (ops1 ++ MFresh :: ops2) s vs) (m_np (mrun ops1 s)) = fst (wrun W ops1 s vs) (m_np (mrun ops1 s)).
Proof. exact (@wrun_free_leaf). Qed.

(** Weak duality at a real valuation: the Gram matrix of the values of the leaf points is symmetric
    PSD and the Gram reading of every expression at it is the expression's value, so a valuation under
    which every item sent to the solver holds (class constraints: C03; step constraints: C08;
    partition constraints: C15; the user's initial condition: assumption) is a feasible point of the
    SDP, and any dual certificate (C01: identity, signs, PSD multipliers) bounds the objective. *)
Theorem C09_real_valuation_bounded :
  forall (E : ips) (rho : nat -> E) (phi : nat -> R)
         (np : nat) (obj : edict) (tracked : sent) (duals : list Cvxpy.dval) (entries : list (option (list (list Q)))) (res : list (list Q)) (tau : R),
    length duals = length tracked -> length entries = length tracked ->
    certificate_identity obj (combine (combine tracked duals) entries) res tau ->
    dual_feasible (combine (combine tracked duals) entries) ->
    rank1sum res np ->
    Forall (item_holds_at rho phi) tracked ->
    evalE rho phi obj <= tau.
Proof. exact (@real_valuation_bounded). Qed.

(** The performance of the run: PEPit maximises a fresh leaf o under the rows  o - metric_k <= 0 ; no
    other item mentions o.  Whatever the real run achieves -- any t below all its metric values, in
    particular the smallest metric -- is below the certified bound tau. *)
Theorem C09_performance_bounded :
  forall (E : ips) (rho : nat -> E) (phi : nat -> R) (o np : nat)
         (metrics : list (item * edict)) (others : sent)
         (duals : list Cvxpy.dval) (entries : list (option (list (list Q)))) (res : list (list Q)) (tau t : R),
    let tracked := map fst metrics ++ others in
    length duals = length tracked -> length entries = length tracked ->
    certificate_identity [(KF o, 1%Q)] (combine (combine tracked duals) entries) res tau ->
    dual_feasible (combine (combine tracked duals) entries) ->
    rank1sum res np ->
    Forall (fun im => is_metric_row rho o (fst im) (snd im)) metrics ->
    Forall (fun it => item_mentions o it = false) others ->
    Forall (item_holds_at rho phi) others ->
    (forall im, In im metrics -> t <= evalE rho phi (snd im)) ->
    t <= tau.
Proof. exact (@performance_bounded). Qed.

(** Composition with C03, over the class plans and formulas REGENERATED from the sources: for ANY run
    (free points, stationary points, evaluations at arbitrary combinations; any length) of ANY method on
    any real function of the class, every interpolation constraint PEPit generates from what it recorded
    holds at the values of the run.  First a differentiable class and a non-differentiable one, in the worlds
    made of one member ([dfn_world], [fn_world]); the other classes follow below, and further down, after the
    Bregman steps, these two again for any world (the two [_any_world] theorems). *)
Theorem C09_run_satisfies_class_constraints_smooth_strongly_convex :
  forall (E : ips) (mu L : R) (qmu qL : Q) (F : @dfn E) (xs : E)
         (Hxs : veq (dgrad F xs) vzero) (Hext : respects_veq F) (hp : bool) (res : R -> E -> E) (Hres : prox_spec (genuine_grad F) (dval F) hp res)
         (ie : bool -> R -> E -> E) (Hie : inexact_spec (dgrad F) ie)
         (hs : bool) (ls : E -> list E -> E) (Hls : ls_spec (dgrad F) hs ls)
         (ops : list mop) (vs : (nat -> E) * (nat -> R)),
    0 <= mu < L -> smooth_strongly_convex_member mu L F ->
    Q2R qL = L -> Q2R qmu = mu ->
    mwf ops minit = true -> Forall op_nodup ops ->
    let W := dfn_world F xs Hxs Hext hp res Hres ie Hie hs ls Hls in steps_ok W ops = true ->
    let par := fun p => match p with 0%nat => qL | 1%nat => qmu | _ => 0%Q end in
    all_satisfied (fst (wrun W ops minit vs)) (snd (wrun W ops minit vs))
      (run_plan plan_SmoothStronglyConvexFunction (fstate_of par (mrun ops minit) 0)).
Proof.
  intros. apply (run_satisfies_smooth_strongly_convex_any W mu L qmu qL F 0 ops vs); try assumption.
  (* [Gen] of [dfn_world] is [genuine_grad F] *)
  exact (fun t H => H).
Qed.

Theorem C09_run_satisfies_class_constraints_convex :
  forall (E : ips) (F : @fn E) (sel : E -> E) (Hsel : forall x, subgrad F x (sel x))
         (xs : E) (Hxs : subgrad F xs vzero) (Hext : fn_respects_veq F) (hp : bool) (res : R -> E -> E) (Hres : prox_spec (genuine_sub F) (val F) hp res)
         (ops : list mop) (vs : (nat -> E) * (nat -> R)),
    mwf ops minit = true -> Forall op_nodup ops ->
    let W := fn_world F sel Hsel xs Hxs Hext hp res Hres in steps_ok W ops = true ->
    all_satisfied (fst (wrun W ops minit vs)) (snd (wrun W ops minit vs))
      (run_plan plan_ConvexFunction (fstate_of (fun _ => 0%Q) (mrun ops minit) 0)).
Proof.
  intros. apply (run_satisfies_convex_any W F 0 ops vs); try assumption.
  (* [Gen] of [fn_world] is [genuine_sub F] *)
  exact (fun t H => H).
Qed.

(** Non-vacuity: two gradient steps x1 = x0 - 1/2 g0, x2 = x1 - 1/2 g1 on a leaf function, run in the
    world "f(x) = x^2 on the real line": the program is well formed and records two samples. *)
Example C09_example_program :
  let ops := [MStat 0; MFresh; MEval 0 [(1%nat, 1%Q)]; MEval 0 [(1%nat, 1%Q); (2%nat, (-1 # 2)%Q)]] in
  mwf ops minit = true /\ length (m_samples (mrun ops minit)) = 3%nat
  /\ length (g_cons (run_plan plan_SmoothStronglyConvexFunction (fstate_of (fun _ => 1%Q) (mrun ops minit) 0))) = 6%nat.
Proof. cbv zeta. split; [|split]; vm_compute; reflexivity. Qed.

Print Assumptions C09_recorded_samples_are_genuine.
Print Assumptions C09_existing_leaves_keep_values.
Print Assumptions C09_free_leaves_keep_values.
Print Assumptions C09_real_valuation_bounded.
Print Assumptions C09_performance_bounded.
Print Assumptions C09_run_satisfies_class_constraints_smooth_strongly_convex.
Print Assumptions C09_run_satisfies_class_constraints_convex.

(** Composition with C03 for the other classes (worlds: Proofs/C09ComposeAll.v).
    Same shape as the two theorems above: for every program of any length, every initial valuation, every real
    member of the class (parameters in the class' range, given to PEPit as rationals), run in the world made of
    that member: every class constraint / LMI generated from the recorded samples is satisfied at the values
    of the run.  Worlds: [dfn_world] (differentiable function with a stationary point), [fn_world] (finite convex
    function, total subgradient selection, minimiser), [pfn_world] (extended-valued: selection on the domain,
    hypothesis "every recorded evaluation point is in the domain at the values of the run"), [support_world],
    [graph_world] (single-valued selection T of a graph A that respects veq, with a zero xs), [lin_world] /
    [lin2_world] (a linear map; with its transpose as function 1 of the run).  ConvexQG / RsiEb: programs that
    declare a stationary point ([MStat 0] occurs), so PEPit creates none itself.  [set_inf (inf_flag p o)] sets the
    [np.inf] flag of parameter p when the member's optional parameter is [None].
    Not composed: SmoothStronglyConvexQuadraticFunction, BlockSmoothConvexFunction. *)
From PV Require Import Proofs.C04Lemmas Proofs.C09ComposeAll.

(** every recorded stationary sample (empty gradient dictionary) is valued at the world's stationary point
    (provided no linear-optimization step is taken along the zero direction: such a step records an empty
    gradient dictionary at a point of the set that need not be the stationary point; likewise no Bregman gradient
    step to the zero dual point and no Bregman proximal step of step size 0 -- for a well-formed program, whose
    Bregman proximal steps have a positive step size, the dual point recorded by such a step mentions the fresh
    subgradient leaf) *)
Theorem C09_stationary_samples_at_stationary_point :
  forall (E : ips) (W : @world E) (ops : list mop) (vs : (nat -> E) * (nat -> R)) (par : nat -> Q) (f : nat) sm,
    mwf ops minit = true ->
    forallb linopt_dir_nonzero ops = true ->
    In sm (f_stat (fstate_of par (mrun ops minit) f)) ->
    In sm (f_points (fstate_of par (mrun ops minit) f)) /\ s_g sm = [] /\
    veq (px (fst (wrun W ops minit vs)) sm) (fst (stat W f)).
Proof. intros E W ops vs par f sm. exact (f_stat_at_stat W par ops vs f sm). Qed.
Print Assumptions C09_stationary_samples_at_stationary_point.

Theorem C09_run_satisfies_class_constraints_smooth_convex :
  forall (E : ips) (F : @dfn E) (xs : E) (Hxs : veq (dgrad F xs) vzero) (Hext : respects_veq F)
         (hp : bool) (res : R -> E -> E) (Hres : prox_spec (genuine_grad F) (dval F) hp res)
         (ie : bool -> R -> E -> E) (Hie : inexact_spec (dgrad F) ie)
         (hs : bool) (ls : E -> list E -> E) (Hls : ls_spec (dgrad F) hs ls)
         (ops : list mop) (vs : (nat -> E) * (nat -> R)),
    mwf ops minit = true -> Forall op_nodup ops ->
    let W := dfn_world F xs Hxs Hext hp res Hres ie Hie hs ls Hls in steps_ok W ops = true ->
    forall (L : R) (qL : Q), 0 < L -> smooth_convex_member L F -> Q2R qL = L ->
        all_satisfied (fst (wrun W ops minit vs)) (snd (wrun W ops minit vs))
      (run_plan plan_SmoothConvexFunction (fstate_of (par_at 0 qL) (mrun ops minit) 0)).
Proof.
  intros. destruct (run_state_genuine W (par_at 0 qL) ops vs 0) as [Hst Hgen]; [assumption..|].
  apply (c03_SmoothConvexFunction _ _ L F); assumption.
Qed.
Print Assumptions C09_run_satisfies_class_constraints_smooth_convex.

Theorem C09_run_satisfies_class_constraints_smooth :
  forall (E : ips) (F : @dfn E) (xs : E) (Hxs : veq (dgrad F xs) vzero) (Hext : respects_veq F)
         (hp : bool) (res : R -> E -> E) (Hres : prox_spec (genuine_grad F) (dval F) hp res)
         (ie : bool -> R -> E -> E) (Hie : inexact_spec (dgrad F) ie)
         (hs : bool) (ls : E -> list E -> E) (Hls : ls_spec (dgrad F) hs ls)
         (ops : list mop) (vs : (nat -> E) * (nat -> R)),
    mwf ops minit = true -> Forall op_nodup ops ->
    let W := dfn_world F xs Hxs Hext hp res Hres ie Hie hs ls Hls in steps_ok W ops = true ->
    forall (L : R) (qL : Q), 0 < L -> smooth_member L F -> Q2R qL = L ->
        all_satisfied (fst (wrun W ops minit vs)) (snd (wrun W ops minit vs))
      (run_plan plan_SmoothFunction (fstate_of (par_at 0 qL) (mrun ops minit) 0)).
Proof.
  intros. destruct (run_state_genuine W (par_at 0 qL) ops vs 0) as [Hst Hgen]; [assumption..|].
  apply (c03_SmoothFunction _ _ L F); assumption.
Qed.
Print Assumptions C09_run_satisfies_class_constraints_smooth.

Theorem C09_run_satisfies_class_constraints_smooth_convex_lipschitz :
  forall (E : ips) (F : @dfn E) (xs : E) (Hxs : veq (dgrad F xs) vzero) (Hext : respects_veq F)
         (hp : bool) (res : R -> E -> E) (Hres : prox_spec (genuine_grad F) (dval F) hp res)
         (ie : bool -> R -> E -> E) (Hie : inexact_spec (dgrad F) ie)
         (hs : bool) (ls : E -> list E -> E) (Hls : ls_spec (dgrad F) hs ls)
         (ops : list mop) (vs : (nat -> E) * (nat -> R)),
    mwf ops minit = true -> Forall op_nodup ops ->
    let W := dfn_world F xs Hxs Hext hp res Hres ie Hie hs ls Hls in steps_ok W ops = true ->
    forall (L M : R) (qL qM : Q),
    0 < L -> 0 <= M -> smooth_convex_lipschitz_member L M F -> Q2R qL = L -> Q2R qM = M ->
        all_satisfied (fst (wrun W ops minit vs)) (snd (wrun W ops minit vs))
      (run_plan plan_SmoothConvexLipschitzFunction (fstate_of (par_at2 0 qL 2 qM) (mrun ops minit) 0)).
Proof.
  intros. destruct (run_state_genuine W (par_at2 0 qL 2 qM) ops vs 0) as [Hst Hgen]; [assumption..|].
  apply (c03_SmoothConvexLipschitzFunction _ _ L M F); assumption.
Qed.
Print Assumptions C09_run_satisfies_class_constraints_smooth_convex_lipschitz.

(** the world's stationary point is the xs of [rsi_eb_member] *)
Theorem C09_run_satisfies_class_constraints_rsi_eb :
  forall (E : ips) (F : @dfn E) (xs : E) (Hxs : veq (dgrad F xs) vzero) (Hext : respects_veq F)
         (hp : bool) (res : R -> E -> E) (Hres : prox_spec (genuine_grad F) (dval F) hp res)
         (ie : bool -> R -> E -> E) (Hie : inexact_spec (dgrad F) ie)
         (hs : bool) (ls : E -> list E -> E) (Hls : ls_spec (dgrad F) hs ls)
         (ops : list mop) (vs : (nat -> E) * (nat -> R)),
    mwf ops minit = true -> Forall op_nodup ops ->
    let W := dfn_world F xs Hxs Hext hp res Hres ie Hie hs ls Hls in steps_ok W ops = true ->
    forall (mu L : R) (qmu qL : Q),
    rsi_eb_member mu L F xs -> Q2R qL = L -> Q2R qmu = mu -> In (MStat 0) ops ->
        all_satisfied (fst (wrun W ops minit vs)) (snd (wrun W ops minit vs))
      (run_plan plan_RsiEbFunction (fstate_of (par_at2 0 qL 1 qmu) (mrun ops minit) 0)).
Proof.
  intros E F xs Hxs Hext hp res Hres ie Hie hs ls Hls ops vs Hwf Hnd W Hpx mu L qmu qL HF HqL Hqmu Hin.
  set (par := par_at2 0 qL 1 qmu).
  destruct (run_state_genuine W par ops vs 0 Hwf Hpx Hnd) as [Hst Hgen].
  pose proof (mstat_f_stat par ops 0 Hin) as Hne.
  (* [dfn_world] has no linear minimisation oracle and no Bregman step: every stationary sample comes from [MStat] *)
  pose proof (fun sm => f_stat_at_stat W par ops vs 0 sm Hwf
                (no_lmo_nonzero W ops (fun _ => eq_refl) (fun _ => eq_refl) (fun _ _ => eq_refl) Hpx)) as Hstat.
  apply (c03_RsiEbFunction _ _ mu L F); try assumption; rewrite (start_state_recorded _ _ Hne); try assumption.
  - intros sm Hsm. exact (rsi_eb_member_veq F xs mu L _ Hext HF (proj2 (proj2 (Hstat sm Hsm)))).
  - intros sm Hsm. exact (Hgen sm (proj1 (Hstat sm Hsm))).
Qed.
Print Assumptions C09_run_satisfies_class_constraints_rsi_eb.

Theorem C09_run_satisfies_class_constraints_convex_lipschitz :
  forall (E : ips) (F : @fn E) (sel : E -> E) (Hsel : forall x, subgrad F x (sel x))
         (xs : E) (Hxs : subgrad F xs vzero) (Hext : fn_respects_veq F) (hp : bool) (res : R -> E -> E) (Hres : prox_spec (genuine_sub F) (val F) hp res)
         (ops : list mop) (vs : (nat -> E) * (nat -> R)),
    mwf ops minit = true -> Forall op_nodup ops ->
    let W := fn_world F sel Hsel xs Hxs Hext hp res Hres in steps_ok W ops = true ->
    forall (M : R) (qM : Q), 0 <= M -> lipschitz_fn M F -> Q2R qM = M ->
        all_satisfied (fst (wrun W ops minit vs)) (snd (wrun W ops minit vs))
      (run_plan plan_ConvexLipschitzFunction (fstate_of (par_at 2 qM) (mrun ops minit) 0)).
Proof.
  intros. destruct (run_state_genuine W (par_at 2 qM) ops vs 0) as [Hst Hgen]; [assumption..|].
  apply (c03_ConvexLipschitzFunction _ _ M F); assumption.
Qed.
Print Assumptions C09_run_satisfies_class_constraints_convex_lipschitz.

(** the world's stationary point is a minimiser *)
Theorem C09_run_satisfies_class_constraints_convex_qg :
  forall (E : ips) (F : @fn E) (sel : E -> E) (Hsel : forall x, subgrad F x (sel x))
         (xs : E) (Hxs : subgrad F xs vzero) (Hext : fn_respects_veq F) (hp : bool) (res : R -> E -> E) (Hres : prox_spec (genuine_sub F) (val F) hp res)
         (ops : list mop) (vs : (nat -> E) * (nat -> R)),
    mwf ops minit = true -> Forall op_nodup ops ->
    let W := fn_world F sel Hsel xs Hxs Hext hp res Hres in steps_ok W ops = true ->
    forall (L : R) (qL : Q), 0 < L -> qg_member L F -> Q2R qL = L -> In (MStat 0) ops ->
        all_satisfied (fst (wrun W ops minit vs)) (snd (wrun W ops minit vs))
      (run_plan plan_ConvexQGFunction (fstate_of (par_at 0 qL) (mrun ops minit) 0)).
Proof.
  intros E F sel Hsel xs Hxs Hext hp res Hres ops vs Hwf Hnd W Hpx L qL HL HF HqL Hin.
  set (par := par_at 0 qL).
  destruct (run_state_genuine W par ops vs 0 Hwf Hpx Hnd) as [Hst Hgen].
  pose proof (mstat_f_stat par ops 0 Hin) as Hne.
  apply (c03_ConvexQGFunction_recorded _ _ L F); try assumption.
  (* [fn_world] has no linear minimisation oracle and no Bregman step: every stationary sample comes from [MStat] *)
  intros sm Hsm. destruct (f_stat_at_stat W par ops vs 0 sm Hwf
      (no_lmo_nonzero W ops (fun _ => eq_refl) (fun _ => eq_refl) (fun _ _ => eq_refl) Hpx) Hsm) as (Hp & Hg & _).
  pose proof (Hgen sm Hp) as G. unfold sval, pg in G. rewrite Hg in G. exact G.
Qed.
Print Assumptions C09_run_satisfies_class_constraints_convex_qg.

(** extended-valued: the subgradient selection lives on the domain; the run only evaluates points of the domain *)
Theorem C09_run_satisfies_class_constraints_strongly_convex :
  forall (E : ips) (F : @fn E) (sel : E -> E) (Hsel : forall x, dom F x -> subgrad F x (sel x))
         (xs : E) (Hxs : subgrad F xs vzero) (Hext : fn_respects_veq F) (hp : bool) (res : R -> E -> E) (Hres : prox_spec (genuine_sub F) (val F) hp res)
         (hl : bool) (lm : E -> E) (Hlm : lmo_spec (genuine_sub F) (val F) hl lm)
         (ops : list mop) (vs : (nat -> E) * (nat -> R)),
    mwf ops minit = true -> Forall op_nodup ops ->
    let W := pfn_world F sel Hsel xs Hxs Hext hp res Hres hl lm Hlm in steps_ok W ops = true ->
    forall (mu : R) (qmu : Q), 0 <= mu -> strongly_convex_member mu F -> Q2R qmu = mu ->
        (forall sm, In sm (f_points (fstate_of (par_at 1 qmu) (mrun ops minit) 0)) -> dom F (px (fst (wrun W ops minit vs)) sm)) ->
    all_satisfied (fst (wrun W ops minit vs)) (snd (wrun W ops minit vs))
      (run_plan plan_StronglyConvexFunction (fstate_of (par_at 1 qmu) (mrun ops minit) 0)).
Proof.
  intros E F sel Hsel xs Hxs Hext hp res Hres hl lm Hlm ops vs Hwf Hnd W Hpx mu qmu Hmu HF Hq Hdom.
  destruct (run_state_genuine W (par_at 1 qmu) ops vs 0 Hwf Hpx Hnd) as [Hst Hgen].
  apply (c03_StronglyConvexFunction _ _ mu F); try assumption.
  intros sm Hsm. exact (Hgen sm Hsm (Hdom sm Hsm)).
Qed.
Print Assumptions C09_run_satisfies_class_constraints_strongly_convex.

(** F the indicator of its domain, the oracle a selection of the normal cone on the set *)
Theorem C09_run_satisfies_class_constraints_convex_indicator :
  forall (E : ips) (F : @fn E) (sel : E -> E) (Hsel : forall x, dom F x -> subgrad F x (sel x))
         (xs : E) (Hxs : subgrad F xs vzero) (Hext : fn_respects_veq F) (hp : bool) (res : R -> E -> E) (Hres : prox_spec (genuine_sub F) (val F) hp res)
         (hl : bool) (lm : E -> E) (Hlm : lmo_spec (genuine_sub F) (val F) hl lm)
         (ops : list mop) (vs : (nat -> E) * (nat -> R)),
    mwf ops minit = true -> Forall op_nodup ops ->
    let W := pfn_world F sel Hsel xs Hxs Hext hp res Hres hl lm Hlm in steps_ok W ops = true ->
    forall (D : option R) (qD : Q), indicator_member D F -> (forall d, D = Some d -> Q2R qD = d) ->
        (forall sm, In sm (f_points (fstate_of (par_at 3 qD) (mrun ops minit) 0)) -> dom F (px (fst (wrun W ops minit vs)) sm)) ->
    all_satisfied (fst (wrun W ops minit vs)) (snd (wrun W ops minit vs))
      (run_plan plan_ConvexIndicatorFunction (set_inf (inf_flag 3 D) (fstate_of (par_at 3 qD) (mrun ops minit) 0))).
Proof. exact (@run_satisfies_convex_indicator). Qed.
Print Assumptions C09_run_satisfies_class_constraints_convex_indicator.

(** sigma the support function of C, the oracle an argmax selection; a minimiser xs exists (0 in C, sigma xs = 0) *)
Theorem C09_run_satisfies_class_constraints_convex_support :
  forall (E : ips) (C : E -> Prop) (sigma : E -> R) (sel : E -> E)
         (Hsel : forall x, C (sel x) /\ inner (sel x) x = sigma x)
         (xs : E) (Hzero : C vzero) (Hxs : sigma xs = 0)
         (HCext : forall g g' : E, veq g g' -> C g -> C g') (Hsext : forall x x' : E, veq x x' -> sigma x = sigma x')
         (hp : bool) (res : R -> E -> E) (Hres : prox_spec (genuine_support C sigma) sigma hp res)
         (M : option R) (qM : Q) (ops : list mop) (vs : (nat -> E) * (nat -> R)),
    support_member M C sigma -> (forall m, M = Some m -> Q2R qM = m) ->
    mwf ops minit = true -> Forall op_nodup ops ->
    let W := support_world C sigma sel Hsel xs Hzero Hxs HCext Hsext hp res Hres in steps_ok W ops = true ->
    all_satisfied (fst (wrun W ops minit vs)) (snd (wrun W ops minit vs))
      (run_plan plan_ConvexSupportFunction (set_inf (inf_flag 2 M) (fstate_of (par_at 2 qM) (mrun ops minit) 0))).
Proof.
  intros E C sigma sel Hsel xs Hzero Hxs HCext Hsext hp res Hres M qM ops vs HF Hq Hwf Hnd W Hpx.
  destruct (run_state_genuine W (par_at 2 qM) ops vs 0 Hwf Hpx Hnd) as [Hst Hgen].
  apply (c03_ConvexSupportFunction _ _ M C sigma); try assumption.
  destruct M as [m|]; cbn; [split; [reflexivity|exact (Hq m eq_refl)]|reflexivity].
Qed.
Print Assumptions C09_run_satisfies_class_constraints_convex_support.

(** operator classes: T a single-valued selection of the graph A, A xs 0, A respects veq *)
Theorem C09_run_satisfies_class_constraints_monotone :
  forall (E : ips) (A : @graph E) (T : E -> E) (HT : forall x, A x (T x)) (xs : E) (Hxs : A xs vzero)
         (Hext : graph_respects_veq A) (hp : bool) (res : R -> E -> E) (Hres : prox_spec (genuine_op A) (fun _ => 0) hp res)
         (ops : list mop) (vs : (nat -> E) * (nat -> R)),
    mwf ops minit = true -> Forall op_nodup ops ->
    let W := graph_world A T HT xs Hxs Hext hp res Hres in steps_ok W ops = true -> monotone_op A ->
        all_satisfied (fst (wrun W ops minit vs)) (snd (wrun W ops minit vs))
      (run_plan plan_MonotoneOperator (fstate_of (fun _ => 0%Q) (mrun ops minit) 0)).
Proof.
  intros. destruct (run_state_genuine W (fun _ => 0%Q) ops vs 0) as [Hst Hgen]; [assumption..|].
  apply (c03_MonotoneOperator _ _ A); assumption.
Qed.
Print Assumptions C09_run_satisfies_class_constraints_monotone.

Theorem C09_run_satisfies_class_constraints_strongly_monotone :
  forall (E : ips) (A : @graph E) (T : E -> E) (HT : forall x, A x (T x)) (xs : E) (Hxs : A xs vzero)
         (Hext : graph_respects_veq A) (hp : bool) (res : R -> E -> E) (Hres : prox_spec (genuine_op A) (fun _ => 0) hp res)
         (ops : list mop) (vs : (nat -> E) * (nat -> R)),
    mwf ops minit = true -> Forall op_nodup ops ->
    let W := graph_world A T HT xs Hxs Hext hp res Hres in steps_ok W ops = true ->
    forall (mu : R) (qmu : Q), strongly_monotone_op mu A -> Q2R qmu = mu ->
        all_satisfied (fst (wrun W ops minit vs)) (snd (wrun W ops minit vs))
      (run_plan plan_StronglyMonotoneOperator (fstate_of (par_at 1 qmu) (mrun ops minit) 0)).
Proof.
  intros. destruct (run_state_genuine W (par_at 1 qmu) ops vs 0) as [Hst Hgen]; [assumption..|].
  apply (c03_StronglyMonotoneOperator _ _ mu A); assumption.
Qed.
Print Assumptions C09_run_satisfies_class_constraints_strongly_monotone.

Theorem C09_run_satisfies_class_constraints_cocoercive :
  forall (E : ips) (A : @graph E) (T : E -> E) (HT : forall x, A x (T x)) (xs : E) (Hxs : A xs vzero)
         (Hext : graph_respects_veq A) (hp : bool) (res : R -> E -> E) (Hres : prox_spec (genuine_op A) (fun _ => 0) hp res)
         (ops : list mop) (vs : (nat -> E) * (nat -> R)),
    mwf ops minit = true -> Forall op_nodup ops ->
    let W := graph_world A T HT xs Hxs Hext hp res Hres in steps_ok W ops = true ->
    forall (beta : R) (qbeta : Q), cocoercive_op beta A -> Q2R qbeta = beta ->
        all_satisfied (fst (wrun W ops minit vs)) (snd (wrun W ops minit vs))
      (run_plan plan_CocoerciveOperator (fstate_of (par_at 4 qbeta) (mrun ops minit) 0)).
Proof.
  intros. destruct (run_state_genuine W (par_at 4 qbeta) ops vs 0) as [Hst Hgen]; [assumption..|].
  apply (c03_CocoerciveOperator _ _ beta A); assumption.
Qed.
Print Assumptions C09_run_satisfies_class_constraints_cocoercive.

Theorem C09_run_satisfies_class_constraints_negatively_comonotone :
  forall (E : ips) (A : @graph E) (T : E -> E) (HT : forall x, A x (T x)) (xs : E) (Hxs : A xs vzero)
         (Hext : graph_respects_veq A) (hp : bool) (res : R -> E -> E) (Hres : prox_spec (genuine_op A) (fun _ => 0) hp res)
         (ops : list mop) (vs : (nat -> E) * (nat -> R)),
    mwf ops minit = true -> Forall op_nodup ops ->
    let W := graph_world A T HT xs Hxs Hext hp res Hres in steps_ok W ops = true ->
    forall (rh : R) (qrho : Q), neg_comonotone_op rh A -> Q2R qrho = rh ->
        all_satisfied (fst (wrun W ops minit vs)) (snd (wrun W ops minit vs))
      (run_plan plan_NegativelyComonotoneOperator (fstate_of (par_at 5 qrho) (mrun ops minit) 0)).
Proof.
  intros. destruct (run_state_genuine W (par_at 5 qrho) ops vs 0) as [Hst Hgen]; [assumption..|].
  apply (c03_NegativelyComonotoneOperator _ _ rh A); assumption.
Qed.
Print Assumptions C09_run_satisfies_class_constraints_negatively_comonotone.

Theorem C09_run_satisfies_class_constraints_lipschitz :
  forall (E : ips) (A : @graph E) (T : E -> E) (HT : forall x, A x (T x)) (xs : E) (Hxs : A xs vzero)
         (Hext : graph_respects_veq A) (hp : bool) (res : R -> E -> E) (Hres : prox_spec (genuine_op A) (fun _ => 0) hp res)
         (ops : list mop) (vs : (nat -> E) * (nat -> R)),
    mwf ops minit = true -> Forall op_nodup ops ->
    let W := graph_world A T HT xs Hxs Hext hp res Hres in steps_ok W ops = true ->
    forall (L : R) (qL : Q), lipschitz_op L A -> Q2R qL = L ->
        all_satisfied (fst (wrun W ops minit vs)) (snd (wrun W ops minit vs))
      (run_plan plan_LipschitzOperator (fstate_of (par_at 0 qL) (mrun ops minit) 0)).
Proof.
  intros. destruct (run_state_genuine W (par_at 0 qL) ops vs 0) as [Hst Hgen]; [assumption..|].
  apply (c03_LipschitzOperator _ _ L A); assumption.
Qed.
Print Assumptions C09_run_satisfies_class_constraints_lipschitz.

(** no infimal displacement vector declared *)
Theorem C09_run_satisfies_class_constraints_nonexpansive :
  forall (E : ips) (A : @graph E) (T : E -> E) (HT : forall x, A x (T x)) (xs : E) (Hxs : A xs vzero)
         (Hext : graph_respects_veq A) (hp : bool) (res : R -> E -> E) (Hres : prox_spec (genuine_op A) (fun _ => 0) hp res)
         (ops : list mop) (vs : (nat -> E) * (nat -> R)),
    mwf ops minit = true -> Forall op_nodup ops ->
    let W := graph_world A T HT xs Hxs Hext hp res Hres in steps_ok W ops = true -> nonexpansive_op A ->
        all_satisfied (fst (wrun W ops minit vs)) (snd (wrun W ops minit vs))
      (run_plan plan_NonexpansiveOperator (fstate_of (fun _ => 0%Q) (mrun ops minit) 0)).
Proof.
  intros. destruct (run_state_genuine W (fun _ => 0%Q) ops vs 0) as [Hst Hgen]; [assumption..|].
  apply (c03_NonexpansiveOperator _ _ A); try assumption. intros d Hd. discriminate Hd.
Qed.
Print Assumptions C09_run_satisfies_class_constraints_nonexpansive.

Theorem C09_run_satisfies_class_constraints_lipschitz_strongly_monotone :
  forall (E : ips) (A : @graph E) (T : E -> E) (HT : forall x, A x (T x)) (xs : E) (Hxs : A xs vzero)
         (Hext : graph_respects_veq A) (hp : bool) (res : R -> E -> E) (Hres : prox_spec (genuine_op A) (fun _ => 0) hp res)
         (ops : list mop) (vs : (nat -> E) * (nat -> R)),
    mwf ops minit = true -> Forall op_nodup ops ->
    let W := graph_world A T HT xs Hxs Hext hp res Hres in steps_ok W ops = true ->
    forall (mu L : R) (qmu qL : Q), lipschitz_strongly_monotone_op mu L A -> Q2R qL = L -> Q2R qmu = mu ->
        all_satisfied (fst (wrun W ops minit vs)) (snd (wrun W ops minit vs))
      (run_plan plan_LipschitzStronglyMonotoneOperator (fstate_of (par_at2 0 qL 1 qmu) (mrun ops minit) 0)).
Proof.
  intros. destruct (run_state_genuine W (par_at2 0 qL 1 qmu) ops vs 0) as [Hst Hgen]; [assumption..|].
  apply (c03_LipschitzStronglyMonotoneOperator _ _ mu L A); assumption.
Qed.
Print Assumptions C09_run_satisfies_class_constraints_lipschitz_strongly_monotone.

Theorem C09_run_satisfies_class_constraints_cocoercive_strongly_monotone :
  forall (E : ips) (A : @graph E) (T : E -> E) (HT : forall x, A x (T x)) (xs : E) (Hxs : A xs vzero)
         (Hext : graph_respects_veq A) (hp : bool) (res : R -> E -> E) (Hres : prox_spec (genuine_op A) (fun _ => 0) hp res)
         (ops : list mop) (vs : (nat -> E) * (nat -> R)),
    mwf ops minit = true -> Forall op_nodup ops ->
    let W := graph_world A T HT xs Hxs Hext hp res Hres in steps_ok W ops = true ->
    forall (mu beta : R) (qmu qbeta : Q), cocoercive_strongly_monotone_op mu beta A -> Q2R qmu = mu -> Q2R qbeta = beta ->
        all_satisfied (fst (wrun W ops minit vs)) (snd (wrun W ops minit vs))
      (run_plan plan_CocoerciveStronglyMonotoneOperator (fstate_of (par_at2 1 qmu 4 qbeta) (mrun ops minit) 0)).
Proof.
  intros. destruct (run_state_genuine W (par_at2 1 qmu 4 qbeta) ops vs 0) as [Hst Hgen]; [assumption..|].
  apply (c03_CocoerciveStronglyMonotoneOperator _ _ mu beta A); assumption.
Qed.
Print Assumptions C09_run_satisfies_class_constraints_cocoercive_strongly_monotone.

(** linear operators: g = M x, stationary point 0 *)
Theorem C09_run_satisfies_class_constraints_symmetric_linear :
  forall (E : ips) (M : E -> E) (HM : linear M) (hp : bool) (res : R -> E -> E) (Hres : prox_spec (genuine_lin M) (fun _ => 0) hp res)
         (ops : list mop) (vs : (nat -> E) * (nat -> R)),
    mwf ops minit = true -> Forall op_nodup ops ->
    let W := lin_world M HM hp res Hres in steps_ok W ops = true ->
    forall (mu L : R) (qmu qL : Q), sa_bounded mu L M -> Q2R qL = L -> Q2R qmu = mu ->
        all_satisfied (fst (wrun W ops minit vs)) (snd (wrun W ops minit vs))
      (run_plan plan_SymmetricLinearOperator (fstate_of (par_at2 0 qL 1 qmu) (mrun ops minit) 0)).
Proof.
  intros. destruct (run_state_genuine W (par_at2 0 qL 1 qmu) ops vs 0) as [Hst Hgen]; [assumption..|].
  apply (c03_SymmetricLinearOperator _ _ mu L M); assumption.
Qed.
Print Assumptions C09_run_satisfies_class_constraints_symmetric_linear.

Theorem C09_run_satisfies_class_constraints_skew_symmetric_linear :
  forall (E : ips) (M : E -> E) (HM : linear M) (hp : bool) (res : R -> E -> E) (Hres : prox_spec (genuine_lin M) (fun _ => 0) hp res)
         (ops : list mop) (vs : (nat -> E) * (nat -> R)),
    mwf ops minit = true -> Forall op_nodup ops ->
    let W := lin_world M HM hp res Hres in steps_ok W ops = true ->
    forall (L : R) (qL : Q), skew_bounded L M -> Q2R qL = L ->
        all_satisfied (fst (wrun W ops minit vs)) (snd (wrun W ops minit vs))
      (run_plan plan_SkewSymmetricLinearOperator (fstate_of (par_at 0 qL) (mrun ops minit) 0)).
Proof.
  intros. destruct (run_state_genuine W (par_at 0 qL) ops vs 0) as [Hst Hgen]; [assumption..|].
  apply (c03_SkewSymmetricLinearOperator _ _ L M); assumption.
Qed.
Print Assumptions C09_run_satisfies_class_constraints_skew_symmetric_linear.

(** LinearOperator: the operator is function 0 of the run, its transpose ([self.T]) function 1 *)
Theorem C09_run_satisfies_class_constraints_linear :
  forall (E : ips) (M Mt : E -> E) (HM : linear M) (HMt : linear Mt) (L : R) (qL : Q)
         (ops : list mop) (vs : (nat -> E) * (nat -> R)),
    bounded_pair L M Mt -> Q2R qL = L ->
    mwf ops minit = true -> Forall op_nodup ops ->
    let W := lin2_world M Mt HM HMt in steps_ok W ops = true ->
    all_satisfied (fst (wrun W ops minit vs)) (snd (wrun W ops minit vs))
      (run_plan plan_LinearOperator (fstate_of2 (par_at 0 qL) (mrun ops minit) 0 1)).
Proof.
  intros. destruct (run_state_genuine2 W (par_at 0 qL) ops vs 0 1) as (Hst & Hgen & HgenT); [assumption..|].
  apply (c03_LinearOperator _ _ L M Mt); assumption.
Qed.
Print Assumptions C09_run_satisfies_class_constraints_linear.

(** Non-vacuity of the two-function state: x = Point(); y = A.gradient(x); u = Point(); v = A.T.gradient(u) *)
Example C09_example_linear_program :
  let ops := [MFresh; MEval 0 [(0%nat, 1%Q)]; MFresh; MEval 1 [(2%nat, 1%Q)]; MEval 0 [(0%nat, 1%Q); (3%nat, (1 # 2)%Q)]] in
  mwf ops minit = true /\
  length (g_cons (run_plan plan_LinearOperator (fstate_of2 (par_at 0 1%Q) (mrun ops minit) 0 1))) = 2%nat /\
  length (g_lmis (run_plan plan_LinearOperator (fstate_of2 (par_at 0 1%Q) (mrun ops minit) 0 1))) = 2%nat.
Proof. cbv zeta. split; [|split]; vm_compute; reflexivity. Qed.

(** Proximal methods.
    [MProx f p gamma] models  x, gx, fx = proximal_step(p, f, gamma)  (one fresh subgradient leaf, one fresh value
    leaf, the recorded point is the combination p - gamma * gx).  In the real run the subgradient leaf gets
    (x0 - prox)/gamma and the value leaf the value at the proximal point, so that the recorded point evaluates to
    the proximal point.  Every theorem above quantifies over all programs, proximal steps included, for worlds
    given a proximal operator ([hp = true] and [prox_spec ... res]); with [hp = false], [steps_ok] says that the
    program takes no proximal step.  For a convex function the specification [prox_spec] is met by its proximal
    operator in the usual sense (minimiser of gamma F + 1/2 |. - x0|^2): this is C08's optimality theorem. *)
From PV Require Spec.StepsSpec Proofs.DictLemmas.
From PV Require Import Proofs.C09Prox.

Theorem C09_proximal_operator_meets_specification :
  forall (E : ips) (F : @fn E) (res : R -> E -> E),
    StepsSpec.convex_fn F ->
    (forall gamma x0, 0 < gamma -> StepsSpec.is_prox F gamma x0 (res gamma x0)) ->
    prox_spec (genuine_sub F) (val F) true res.
Proof. exact (@is_prox_spec). Qed.
Print Assumptions C09_proximal_operator_meets_specification.

(** Non-vacuity: two proximal-point steps (gamma = 1/2, then 1) on f(x) = x^2, prox_{gamma f}(x0) = x0/(1 + 2 gamma):
    the program is well formed, the world has the proximal operator, two samples are recorded, the second
    recorded point is valued x0/6, and the two convexity constraints generated from the samples hold. *)
Example C09_proximal_point_example :
  forall vs : (nat -> R1) * (nat -> R),
  mwf prox_point_program minit = true /\ steps_ok sq_world prox_point_program = true /\
  Forall op_nodup prox_point_program /\
  List.length (m_samples (mrun prox_point_program minit)) = 2%nat /\
  List.length (g_cons (run_plan plan_ConvexFunction (fstate_of (fun _ => 0%Q) (mrun prox_point_program minit) 0))) = 2%nat /\
  (forall x g fx, nth_error (m_samples (mrun prox_point_program minit)) 1 = Some (0%nat, (x, g, fx)) ->
     evalP (fst (wrun sq_world prox_point_program minit vs)) x = fst vs 0%nat / 6) /\
  all_satisfied (fst (wrun sq_world prox_point_program minit vs)) (snd (wrun sq_world prox_point_program minit vs))
    (run_plan plan_ConvexFunction (fstate_of (fun _ => 0%Q) (mrun prox_point_program minit) 0)).
Proof. exact proximal_point_example. Qed.

(** Frank-Wolfe-type methods.
    [MLinOpt f dir] models  x, gx, fx = linear_optimization_step(dir, f)  (one fresh POINT leaf, one fresh value leaf,
    the recorded "gradient" is the dictionary of -dir).  In the real run the point leaf gets a minimiser of <d, .>
    over the set (the world's linear minimisation oracle, [lmo_genuine]) and the value leaf the value there.
    [steps_ok] asks that such steps are taken only on functions of the world that have the oracle ([pfn_world] with
    [hl = true]: ConvexIndicatorFunction, StronglyConvexFunction theorems above).  For the indicator of a set the
    specification is met by any minimiser of <d, .> over the set: C08's normal-cone theorem. *)
Theorem C09_linear_minimisation_oracle_meets_specification :
  forall (E : ips) (F : @fn E) (lm : E -> E),
    (forall z, dom F z -> val F z = 0) ->
    (forall d, StepsSpec.is_linopt F d (lm d)) ->
    lmo_spec (genuine_sub F) (val F) true lm.
Proof. exact (@is_linopt_spec). Qed.
Print Assumptions C09_linear_minimisation_oracle_meets_specification.

(** Non-vacuity: x0 = Point() in [-1, 1]; d = Point(); s, _, _ = linear_optimization_step(d, ind);
    ind.oracle((x0 + s)/2), in the world "indicator of [-1, 1]" with lmo(d) = -1 if d >= 0 else 1 *)
Example C09_frank_wolfe_example :
  forall vs : (nat -> R1) * (nat -> R),
  -1 <= fst vs 0%nat <= 1 ->
  mwf frank_wolfe_program minit = true /\ steps_ok box_world frank_wolfe_program = true /\
  Forall op_nodup frank_wolfe_program /\
  List.length (m_samples (mrun frank_wolfe_program minit)) = 2%nat /\
  fst (wrun box_world frank_wolfe_program minit vs) 2%nat = box_lm (Q2R 1 * fst vs 1%nat + 0) /\
  List.length (g_cons (run_plan plan_ConvexIndicatorFunction
     (set_inf (inf_flag 3 (Some 2)) (fstate_of (par_at 3 2%Q) (mrun frank_wolfe_program minit) 0)))) = 6%nat /\
  all_satisfied (fst (wrun box_world frank_wolfe_program minit vs)) (snd (wrun box_world frank_wolfe_program minit vs))
    (run_plan plan_ConvexIndicatorFunction
       (set_inf (inf_flag 3 (Some 2)) (fstate_of (par_at 3 2%Q) (mrun frank_wolfe_program minit) 0))).
Proof. exact frank_wolfe_example. Qed.

(** Inexact gradient methods.
    [MInexact f p relative eps] models  x, dx0, fx0 = inexact_gradient_step(p, f, gamma, eps, notion): the oracle call
    at p (recorded as for [MEval]), the fresh direction leaf dx0, and the accuracy constraint
    (gx0 - dx0)^2 - eps^2 [* gx0^2] <= 0  added to the function ([m_cons]; the constraint dictionary is compared with
    the real step's by the recording stream).  In the real run dx0 is valued by the world's inexact oracle
    ([inexact], within the accuracy of the exact output: [inexact_bound]; [dfn_world] takes any such oracle
    [ie], the other worlds use the exact output).  The theorems above cover these programs (no flag is needed:
    every world has an inexact oracle), and every constraint the steps (inexact gradient steps, exact line
    searches) added to the functions holds at the values of the run: *)
Theorem C09_recorded_step_constraints_hold :
  forall (E : ips) (W : @world E) (ops : list mop) (vs : (nat -> E) * (nat -> R)) (f : nat) (c : edict * sense),
    mwf ops minit = true -> steps_ok W ops = true ->
    In (f, c) (m_cons (mrun ops minit)) ->
    holds (fst (wrun W ops minit vs)) (snd (wrun W ops minit vs)) c.
Proof. exact (@world_constraints_hold). Qed.
Print Assumptions C09_recorded_step_constraints_hold.

(** what the recorded accuracy constraint means under any valuation (gx0 is leaf n, dx0 leaf S n) *)
Theorem C09_inexact_constraint_meaning :
  forall (E : ips) (rho : nat -> E) (phi : nat -> R) (n : nat) (relative : bool) (eps : Q),
    holds rho phi (inexact_cons n relative eps) <->
    nrm2 (vsub (rho n) (rho (S n))) <= Q2R eps ^ 2 * (if relative then nrm2 (rho n) else 1).
Proof. exact (@inexact_cons_holds). Qed.
Print Assumptions C09_inexact_constraint_meaning.

(** Non-vacuity: x0 = Point(); inexact_gradient_step(x0, f, gamma, 1/2, 'absolute') on f(x) = x^2 with the inexact
    oracle d = 2x + eps *)
Example C09_inexact_gradient_example :
  forall vs : (nat -> R1) * (nat -> R),
  mwf inexact_program minit = true /\ steps_ok sq_inexact_world inexact_program = true /\
  List.length (m_samples (mrun inexact_program minit)) = 1%nat /\
  m_np (mrun inexact_program minit) = 3%nat /\
  fst (wrun sq_inexact_world inexact_program minit vs) 2%nat = sq_ie false (Q2R (1 # 2)) (Q2R 1 * fst vs 0%nat + 0) /\
  (exists c, m_cons (mrun inexact_program minit) = [(0%nat, c)] /\
             holds (fst (wrun sq_inexact_world inexact_program minit vs)) (snd (wrun sq_inexact_world inexact_program minit vs)) c).
Proof. exact inexact_gradient_example. Qed.

(** Exact line searches.
    [MLineSearch f x0 dirs] models  x, gx, fx = exact_linesearch_step(x0, f, dirs): the fresh POINT leaf x, the oracle
    call at it, and the constraints (x - x0) * gx == 0 and d * gx == 0 (one per direction) added to the function.  In
    the real run x is valued by the world's line search ([ls_orth]; [dfn_world] with [hs = true]), then the
    gradient / value leaves by the oracle there.  [C09_recorded_step_constraints_hold] covers these constraints; their
    meaning under any valuation (x is leaf n, gx leaf S n): *)
Theorem C09_linesearch_constraint_meaning :
  forall (E : ips) (rho : nat -> E) (phi : nat -> R) (n : nat) (x0 d : pdict),
    DictLemmas.NoDupKeys nat x0 -> DictLemmas.NoDupKeys nat d ->
    (holds rho phi (ls_cons0 n x0) <-> inner (vsub (rho n) (evalP rho x0)) (rho (S n)) = 0) /\
    (holds rho phi (ls_cons n d) <-> inner (evalP rho d) (rho (S n)) = 0).
Proof. intros E rho phi n x0 d H0 Hd. split; [exact (ls_cons0_holds rho phi n x0 H0)|exact (ls_cons_holds rho phi n d Hd)]. Qed.
Print Assumptions C09_linesearch_constraint_meaning.

(** a minimiser of a differentiable F over x0 + span(ds) meets the specification: C08's orthogonality theorem *)
Theorem C09_exact_linesearch_meets_specification :
  forall (E : ips) (F : @dfn E) (ls : E -> list E -> E),
    StepsSpec.gateaux F -> StepsSpec.dfn_ext F ->
    (forall x0 ds, StepsSpec.is_linesearch F x0 ds (ls x0 ds)) ->
    ls_spec (dgrad F) true ls.
Proof. exact (@is_linesearch_spec). Qed.
Print Assumptions C09_exact_linesearch_meets_specification.

(** Non-vacuity: x0 = Point(); g0 = f.gradient(x0); exact_linesearch_step(x0, f, [g0]) on f(x) = x^2 *)
Example C09_linesearch_example :
  forall vs : (nat -> R1) * (nat -> R),
  mwf linesearch_program minit = true /\ steps_ok sq_ls_world linesearch_program = true /\
  Forall op_nodup linesearch_program /\
  List.length (m_samples (mrun linesearch_program minit)) = 2%nat /\
  List.length (m_cons (mrun linesearch_program minit)) = 2%nat /\
  (forall f c, In (f, c) (m_cons (mrun linesearch_program minit)) ->
     holds (fst (wrun sq_ls_world linesearch_program minit vs)) (snd (wrun sq_ls_world linesearch_program minit vs)) c) /\
  forall (L mu : R) (qL qmu : Q), 0 <= mu < L -> smooth_strongly_convex_member mu L sq_D -> Q2R qL = L -> Q2R qmu = mu ->
    all_satisfied (fst (wrun sq_ls_world linesearch_program minit vs)) (snd (wrun sq_ls_world linesearch_program minit vs))
      (run_plan plan_SmoothStronglyConvexFunction
         (fstate_of (fun p => match p with 0%nat => qL | 1%nat => qmu | _ => 0%Q end) (mrun linesearch_program minit) 0)).
Proof. exact linesearch_example. Qed.

(** The epsilon-subgradient step and the two Bregman steps.
    [MEpsSub f p] models  x, g0, f0, epsilon = epsilon_subgradient_step(p, f, gamma): the fresh point leaf g0, the
    oracle call f.value(p) (fresh gradient and value leaves, recorded as for [MEval]), the fresh value leaf epsilon,
    the fresh leaves y, fy, the sample (y, g0, fy) and the constraint  f0 + (g0 * y - fy) - g0 * p <= epsilon  added to
    the function.  [MBregGrad h gx0 sx0 gamma] models  x, sx, hx = bregman_gradient_step(gx0, sx0, h, gamma): fresh
    leaves x, hx and the sample (x, sx0 - gamma gx0, hx) on the mirror map.  [MBregProx h f sx0 gamma] models
    x, sx, hx, gx, fx = bregman_proximal_step(sx0, h, f, gamma): fresh leaves x, gx, fx, hx, the sample (x, gx, fx) on
    f and then (x, sx0 - gamma gx, hx) on h.  What is recorded, for every state (compared with the real steps by the
    recording stream): *)
From PV Require Import Proofs.C09Steps.

Theorem C09_new_steps_record :
  forall s : mstate,
  (forall f p, mstep s (MEpsSub f p) =
     mkM (3 + m_np s) (3 + m_ne s)
         (m_samples s ++ [(f, (p, [(S (m_np s), 1%Q)], [(KF (m_ne s), 1%Q)]));
                          (f, ([(S (S (m_np s)), 1%Q)], [(m_np s, 1%Q)], [(KF (S (S (m_ne s))), 1%Q)]))])
         (m_cons s ++ [(f, epssub_cons (m_np s) (m_ne s) p)])) /\
  (forall h gx0 sx0 gamma, mstep s (MBregGrad h gx0 sx0 gamma) =
     mkM (1 + m_np s) (1 + m_ne s)
         (m_samples s ++ [(h, ([(m_np s, 1%Q)], breg_dual sx0 gx0 gamma, [(KF (m_ne s), 1%Q)]))]) (m_cons s)) /\
  (forall h f sx0 gamma, mstep s (MBregProx h f sx0 gamma) =
     mkM (2 + m_np s) (2 + m_ne s)
         (m_samples s ++ [(f, ([(m_np s, 1%Q)], [(S (m_np s), 1%Q)], [(KF (m_ne s), 1%Q)]));
                          (h, ([(m_np s, 1%Q)], breg_dual sx0 [(S (m_np s), 1%Q)] gamma, [(KF (S (m_ne s)), 1%Q)]))])
         (m_cons s)).
Proof. repeat split. Qed.
Print Assumptions C09_new_steps_record.

(** In the real run the fresh leaves are valued by the world's epsilon-subgradient oracle ([epssub], every world has
    one: [epssub_spec]), mirror map inverse ([mirror], [mirror_genuine], flag [has_mirror]) and Bregman proximal
    operator ([bprox], [bprox_genuine], flag [has_bprox]; [mwf] asks for a positive step size).  The theorems above
    ([C09_recorded_samples_are_genuine], [C09_existing_leaves_keep_values], [C09_free_leaves_keep_values],
    [C09_recorded_step_constraints_hold]) are about ALL programs, these steps included.  What the recorded
    epsilon-subgradient constraint means under any valuation (g0 is leaf n, y leaf S (S n); f0, epsilon, fy the value
    leaves e, S e, S (S e)): *)
Theorem C09_epsilon_subgradient_constraint_meaning :
  forall (E : ips) (rho : nat -> E) (phi : nat -> R) (n e : nat) (p : pdict),
    DictLemmas.NoDupKeys nat p ->
    (holds rho phi (epssub_cons n e p) <->
     phi e + (inner (rho n) (rho (S (S n))) - phi (S (S e))) - inner (rho n) (evalP rho p) <= phi (S e)).
Proof. exact (@epssub_cons_holds). Qed.
Print Assumptions C09_epsilon_subgradient_constraint_meaning.

(** ... and in the real run: the values given to the leaves g0 and epsilon make g0 an epsilon-subgradient of F at the
    value of p in the first-principles sense (for all z in dom F: F z >= F x0 + <g0, z - x0> - eps), for every world
    whose genuine samples of f are subgradient samples of F *)
Theorem C09_epsilon_subgradient_step_real :
  forall (E : ips) (W : @world E) (F : @fn E) (f : nat) (p : pdict) (s : mstate) (vs : (nat -> E) * (nat -> R)),
    (forall t, Gen W f t -> genuine_sub F t) -> dom F (evalP (fst vs) p) ->
    let vs' := wstep W vs s (MEpsSub f p) in
    StepsSpec.eps_subgrad F (snd vs' (S (m_ne s))) (evalP (fst vs) p) (fst vs' (m_np s)).
Proof. exact (@epssub_step_real). Qed.
Print Assumptions C09_epsilon_subgradient_step_real.

(** an epsilon-subgradient oracle of a function F whose conjugate is attained meets the specification (C08) *)
Theorem C09_epsilon_subgradient_oracle_meets_specification :
  forall (E : ips) (F : @fn E) (sel : E -> E) (g : E -> E) (ep : E -> R) (y : E -> E),
    (forall x0, StepsSpec.eps_subgrad F (ep x0) x0 (g x0)) -> (forall x0, subgrad F (y x0) (g x0)) ->
    forall x0 : E,
      genuine_sub F (y x0, g x0, val F (y x0)) /\
      snd (sel x0, val F x0) + (inner (g x0) (y x0) - val F (y x0)) - inner (g x0) x0 <= ep x0.
Proof. exact (@is_epssub_spec). Qed.
Print Assumptions C09_epsilon_subgradient_oracle_meets_specification.

(** the dual point recorded by the two Bregman steps, under any valuation *)
Theorem C09_bregman_dual_point_meaning :
  forall (E : ips) (rho : nat -> E) (sx0 g : pdict) (gamma : Q),
    DictLemmas.NoDupKeys nat sx0 -> DictLemmas.NoDupKeys nat g ->
    veq (evalP rho (breg_dual sx0 g gamma)) (vsub (evalP rho sx0) (vscal (Q2R gamma) (evalP rho g))).
Proof. exact (@breg_dual_value). Qed.
Print Assumptions C09_bregman_dual_point_meaning.

(** the minimiser of  gamma <g0, .> + h - <s0, .>  is the minimiser of  h - <s0 - gamma g0, .>; for a Gateaux-
    differentiable mirror map it meets the specification of [mirror] (C08's optimality theorem) *)
Theorem C09_bregman_gradient_step_dual_form :
  forall (E : ips) (H : @dfn E) (gamma : R) (g0 s0 x : E),
    StepsSpec.is_bregman_gradient H gamma g0 s0 x <->
    StepsSpec.is_bregman_gradient H 1 vzero (vsub s0 (vscal gamma g0)) x.
Proof. exact (@bregman_gradient_dual). Qed.
Print Assumptions C09_bregman_gradient_step_dual_form.

Theorem C09_mirror_map_meets_specification :
  forall (E : ips) (H : @dfn E) (mir : E -> E),
    StepsSpec.gateaux H -> (forall s, StepsSpec.is_bregman_gradient H 1 vzero s (mir s)) ->
    forall s, genuine_grad H (mir s, s, dval H (mir s)).
Proof. exact (@is_mirror_spec). Qed.
Print Assumptions C09_mirror_map_meets_specification.

(** the minimiser of  gamma F + h - <s0, .>  (convex F, Gateaux-differentiable h, gamma > 0) meets the specification of
    [bprox] with gx = (s0 - grad h(x)) / gamma (C08's optimality theorem) *)
Theorem C09_bregman_proximal_operator_meets_specification :
  forall (E : ips) (F : @fn E) (H : @dfn E) (bp : R -> E -> E),
    StepsSpec.convex_fn F -> StepsSpec.gateaux H ->
    (forall gamma s0, 0 < gamma -> StepsSpec.is_bregman_prox F H gamma s0 (bp gamma s0)) ->
    forall gamma s0, 0 < gamma ->
      let x := bp gamma s0 in let gx := vscal (1 / gamma) (vsub s0 (dgrad H x)) in
      genuine_sub F (x, gx, val F x) /\ genuine_grad H (x, vsub s0 (vscal gamma gx), dval H x).
Proof. exact (@is_bprox_spec). Qed.
Print Assumptions C09_bregman_proximal_operator_meets_specification.

(** composition with C03 in ANY world (in particular a world given the three operations by [with_steps]), for any
    function index whose genuine samples are those of a real convex / mu-strongly convex L-smooth function *)
Theorem C09_run_satisfies_class_constraints_convex_any_world :
  forall (E : ips) (W : @world E) (F : @fn E) (f : nat) (ops : list mop) (vs : (nat -> E) * (nat -> R)),
    (forall t, Gen W f t -> genuine_sub F t) ->
    mwf ops minit = true -> Forall op_nodup ops -> steps_ok W ops = true ->
    all_satisfied (fst (wrun W ops minit vs)) (snd (wrun W ops minit vs))
      (run_plan plan_ConvexFunction (fstate_of (fun _ => 0%Q) (mrun ops minit) f)).
Proof. exact (@run_satisfies_convex_any). Qed.
Print Assumptions C09_run_satisfies_class_constraints_convex_any_world.

Theorem C09_run_satisfies_class_constraints_smooth_strongly_convex_any_world :
  forall (E : ips) (W : @world E) (mu L : R) (qmu qL : Q) (F : @dfn E) (f : nat) (ops : list mop) (vs : (nat -> E) * (nat -> R)),
    (forall t, Gen W f t -> genuine_grad F t) ->
    0 <= mu < L -> smooth_strongly_convex_member mu L F -> Q2R qL = L -> Q2R qmu = mu ->
    mwf ops minit = true -> Forall op_nodup ops -> steps_ok W ops = true ->
    let par := fun p => match p with 0%nat => qL | 1%nat => qmu | _ => 0%Q end in
    all_satisfied (fst (wrun W ops minit vs)) (snd (wrun W ops minit vs))
      (run_plan plan_SmoothStronglyConvexFunction (fstate_of par (mrun ops minit) f)).
Proof. exact (@run_satisfies_smooth_strongly_convex_any). Qed.
Print Assumptions C09_run_satisfies_class_constraints_smooth_strongly_convex_any_world.

(** Non-vacuity: x0 = Point(); s0 = Point(); epsilon_subgradient_step(x0, f, gamma);
    bregman_gradient_step(g0, s0, f, 1/2); bregman_proximal_step(s0 - g0/2, f, f, 1)  on f = h = x^2 with the
    epsilon-subgradient oracle g0 = 2 x0 + 1 (eps = 1/4), the mirror map inverse s/2 and the Bregman proximal
    operator s0 / (2 (1 + gamma)) *)
Example C09_new_steps_example :
  forall vs : (nat -> R1) * (nat -> R),
  mwf steps_program minit = true /\ steps_ok sq_steps_world steps_program = true /\
  Forall op_nodup steps_program /\ forallb linopt_dir_nonzero steps_program = true /\
  m_np (mrun steps_program minit) = 8%nat /\ m_ne (mrun steps_program minit) = 6%nat /\
  List.length (m_samples (mrun steps_program minit)) = 5%nat /\
  fst (wrun sq_steps_world steps_program minit vs) 2%nat = 2 * (Q2R 1 * fst vs 0%nat + 0) + 1 /\
  snd (wrun sq_steps_world steps_program minit vs) 1%nat = 1 / 4 /\
  (exists c, m_cons (mrun steps_program minit) = [(0%nat, c)] /\
             holds (fst (wrun sq_steps_world steps_program minit vs)) (snd (wrun sq_steps_world steps_program minit vs)) c) /\
  List.length (g_cons (run_plan plan_ConvexFunction (fstate_of (fun _ => 0%Q) (mrun steps_program minit) 0))) = 20%nat /\
  all_satisfied (fst (wrun sq_steps_world steps_program minit vs)) (snd (wrun sq_steps_world steps_program minit vs))
    (run_plan plan_ConvexFunction (fstate_of (fun _ => 0%Q) (mrun steps_program minit) 0)).
Proof. exact new_steps_example. Qed.

(** Inexact proximal steps.
    [MInexactProx f x0 gamma opt] models  x, gx, fx, w, v, fw, eps_var = inexact_proximal_step(x0, f, gamma, opt)  for the
    three options: the fresh leaves in the order Python allocates them, the one or two samples recorded on f and the
    accuracy constraint added to f (compared with the real step by the recording stream): *)
Theorem C09_inexact_proximal_step_records :
  forall (s : mstate) (f : nat) (x0 : pdict) (gamma : Q),
  mstep s (MInexactProx f x0 gamma PDgapI) =
    mkM (4 + m_np s) (3 + m_ne s)
        (m_samples s ++ [(f, ([(S (m_np s), 1%Q)], [(m_np s, 1%Q)], [(KF (m_ne s), 1%Q)]));
                         (f, ([(S (S (m_np s)), 1%Q)], [(S (S (S (m_np s))), 1%Q)], [(KF (S (m_ne s)), 1%Q)]))])
        (m_cons s ++ [(f, ip_cons PDgapI (m_np s) (m_ne s) x0 gamma)]) /\
  mstep s (MInexactProx f x0 gamma PDgapII) =
    mkM (2 + m_np s) (2 + m_ne s)
        (m_samples s ++ [(f, (ip2_point (m_np s) x0 gamma, [(S (m_np s), 1%Q)], [(KF (m_ne s), 1%Q)]))])
        (m_cons s ++ [(f, ip_cons PDgapII (m_np s) (m_ne s) x0 gamma)]) /\
  mstep s (MInexactProx f x0 gamma PDgapIII) =
    mkM (3 + m_np s) (3 + m_ne s)
        (m_samples s ++ [(f, ([(m_np s, 1%Q)], [(S (m_np s), 1%Q)], [(KF (S (m_ne s)), 1%Q)]));
                         (f, ([(S (S (m_np s)), 1%Q)], ip3_grad (m_np s) x0 gamma, [(KF (m_ne s), 1%Q)]))])
        (m_cons s ++ [(f, ip_cons PDgapIII (m_np s) (m_ne s) x0 gamma)]).
Proof. repeat split. Qed.
Print Assumptions C09_inexact_proximal_step_records.

(** In the real run the fresh leaves are valued by the world's approximate proximal operator ([iprox], every world has
    one: [iprox_spec]; [mwf] asks for a positive step size; for 'PD_gapII' the error leaf e gets x - x0 + gamma gx, so
    that the recorded point x0 - gamma gx + e evaluates to the approximate proximal point).  The theorems about ALL
    programs ([C09_recorded_samples_are_genuine], [C09_recorded_step_constraints_hold], ...) cover these steps.  What
    the recorded accuracy constraint means under any valuation: *)
Theorem C09_inexact_proximal_constraint_meaning :
  forall (E : ips) (opt : ipopt) (rho : nat -> E) (phi : nat -> R) (n e : nat) (x0 : pdict) (gamma : Q),
    DictLemmas.NoDupKeys nat x0 -> 0 < Q2R gamma ->
    (holds rho phi (ip_cons opt n e x0 gamma) <->
     match opt with
     | PDgapI =>
         nrm2 (vadd (vsub (rho (S (S n))) (evalP rho x0)) (vscal (Q2R gamma) (rho n))) / 2
         + Q2R gamma * (phi (S e) - phi e - inner (rho n) (vsub (rho (S (S n))) (rho (S n)))) <= phi (S (S e))
     | PDgapII => nrm2 (rho n) / 2 <= phi (S e)
     | PDgapIII =>
         Q2R gamma * (phi (S e) - phi e
                      - inner (vscal (1 / Q2R gamma) (vsub (evalP rho x0) (rho n))) (vsub (rho n) (rho (S (S n)))))
         <= phi (S (S e))
     end).
Proof. intros E opt. destruct opt; exact (ip_cons_holds _). Qed.
Print Assumptions C09_inexact_proximal_constraint_meaning.

(** the criterion of the specification is the primal-dual gap of the proximal problem (Spec/StepsSpec.v [pd_gap], the
    docstring's Phi_p(x) - Phi_d(v)) at the dual point of the option *)
Theorem C09_inexact_proximal_specification_is_primal_dual_gap :
  forall (E : ips) (W : @world E) (f : nat) (opt : ipopt) (gamma : R) (x0 : E),
    0 < gamma ->
    let r := iprox W f opt gamma x0 in
    let w := fst (fst (fst (fst r))) in let v := snd (fst (fst (fst r))) in let fw := snd (fst (fst r)) in
    let x := fst (fst (snd (fst r))) in let gx := snd (fst (snd (fst r))) in let fx := snd (snd (fst r)) in
    match opt with
    | PDgapI => StepsSpec.pd_gap gamma x0 x fx v w fw
    | PDgapII => StepsSpec.pd_gap gamma x0 x fx gx x fx
    | PDgapIII => StepsSpec.pd_gap gamma x0 x fx (vscal (1 / gamma) (vsub x0 x)) w fw
    end <= snd r.
Proof. exact (@iprox_spec_is_pd_gap). Qed.
Print Assumptions C09_inexact_proximal_specification_is_primal_dual_gap.

(** Non-vacuity: x0 = Point(); inexact_proximal_step(x0, f, 1/2, 'PD_gapI'); inexact_proximal_step(x0, f, 1, 'PD_gapII');
    inexact_proximal_step(x0, f, 2, 'PD_gapIII')  on f(x) = x^2 with the exact proximal operator (accuracy 0) *)
Example C09_inexact_proximal_example :
  forall vs : (nat -> R1) * (nat -> R),
  mwf inexact_prox_program minit = true /\ steps_ok sq_steps_world inexact_prox_program = true /\
  Forall op_nodup inexact_prox_program /\ forallb linopt_dir_nonzero inexact_prox_program = true /\
  m_np (mrun inexact_prox_program minit) = 10%nat /\ m_ne (mrun inexact_prox_program minit) = 8%nat /\
  List.length (m_samples (mrun inexact_prox_program minit)) = 5%nat /\
  List.length (m_cons (mrun inexact_prox_program minit)) = 3%nat /\
  fst (wrun sq_steps_world inexact_prox_program minit vs) 3%nat = (Q2R 1 * fst vs 0%nat + 0) / (1 + 2 * Q2R (1 # 2)) /\
  snd (wrun sq_steps_world inexact_prox_program minit vs) 2%nat = 0 /\
  (forall f c, In (f, c) (m_cons (mrun inexact_prox_program minit)) ->
     holds (fst (wrun sq_steps_world inexact_prox_program minit vs)) (snd (wrun sq_steps_world inexact_prox_program minit vs)) c) /\
  all_satisfied (fst (wrun sq_steps_world inexact_prox_program minit vs)) (snd (wrun sq_steps_world inexact_prox_program minit vs))
    (run_plan plan_ConvexFunction (fstate_of (fun _ => 0%Q) (mrun inexact_prox_program minit) 0)).
Proof. exact inexact_prox_example. Qed.

(** A SHIPPED example is a program of the op language: the literal is the trace of
    PEPit/examples/unconstrained_convex_minimization/proximal_point.py, wc_proximal_point(gamma = 0.1, n = 3) (the test
    parameters; 0.1 as the exact rational the float is) produced by harness/extrace.py on the real PEPit
    (func.stationary_point(); set_initial_point(); three proximal_step calls).  It is well-formed (every theorem above
    applies to it), meets the non-degeneracy guard, and yields the counters / the four samples the real run records; the
    stream `examples-as-programs` compares the complete state for all convertible shipped examples on every run. *)
From PV Require Import Proofs.C09Shipped.
Example C09_shipped_proximal_point_is_a_program :
  mwf shipped_proximal_point_program minit = true /\
  forallb linopt_dir_nonzero shipped_proximal_point_program = true /\
  m_np (mrun shipped_proximal_point_program minit) = 5%nat /\
  m_ne (mrun shipped_proximal_point_program minit) = 4%nat /\
  List.length (m_samples (mrun shipped_proximal_point_program minit)) = 4%nat /\
  m_cons (mrun shipped_proximal_point_program minit) = [] /\
  nth_error (m_samples (mrun shipped_proximal_point_program minit)) 3 =
    Some (0%nat, ([(1%nat, 1%Q); (2%nat, Qopp shipped_gamma); (3%nat, Qopp shipped_gamma); (4%nat, Qopp shipped_gamma)],
                  [(4%nat, 1%Q)], [(KF 3, 1%Q)])).
Proof. exact shipped_proximal_point_example. Qed.
