(** C01 — the returned upper bound is backed by a complete, checkable dual certificate.
    Where each dual sits in the solver's vector; under the solver assumption the certificate identity holds and
    the reconstruction returns tau; the dual matrix of an LMI is the symmetric part of its entry multipliers;
    weak duality, exact and with multipliers dual feasible up to eps; what the reconstruction satisfies with no
    assumption on the solver; the regression for the formula used before the repair of F-C01a; examples.
    Models: Model/Cvxpy.v (emit, recover, assign), Model/Cert.v (reconstruct); solver assumption: Spec/KKT.v ([kkt_dual] = shapes + [stationary]). *)
From Coq Require Import List QArith Reals Qreals Lra.
From PV Require Import Base.IPS Model.Dict Model.Terms Model.Sent Model.Cvxpy Model.Cert
     Spec.GramSem Spec.KKT Proofs.DictLemmas Proofs.SemLemmas Proofs.C01Layout Proofs.C01Gram Proofs.C01Identity
     Proofs.C01Refuted Proofs.C01Examples Proofs.PSDLemmas Proofs.C01Tolerance.
Import ListNotations.
Local Open Scope R_scope.

(** For EVERY tracked list (any interleaving of scalar constraints and LMIs of any sizes) and every
    dual vector with one entry per solver constraint: _recover_dual_values returns
    [residual; dual at the main row of item 0; ...; dual at the main row of item n-1], its final assertion
    holds, and entries_dual_variable_value of an LMI is the block of n*m duals that follows its main row,
    reshaped row-major (nothing for a scalar constraint); assign_dual_values gives item k the k-th main dual;
    the main row of item k is its own <=/==/>> row; consecutive main positions differ by 1 (scalar) or 1 + n*m
    (LMI), the rows in between being exactly the n*m entry equalities of that LMI; nothing is left over. *)
Theorem C01_layout :
  forall (tracked : sent) (temp : list dval),
    length temp = length (emit tracked) ->
    let exposed_duals := map (fun k => nth (main_pos tracked k) temp dnone) (seq 0 (length tracked)) in
    let exposed_entries :=
      map (fun k => entries_of_item temp (main_pos tracked k) (nth k tracked (SC [] Ineq))) (seq 0 (length tracked)) in
    recover tracked temp = (nth 0 temp dnone :: exposed_duals, nth 0 temp dnone, S (length tracked), exposed_entries)
    /\ length (nth 0 temp dnone :: exposed_duals) = S (length tracked)
    /\ assign tracked (nth 0 temp dnone :: exposed_duals) = combine tracked exposed_duals
    /\ nth 0 (emit tracked) (RLe []) = RGram
    /\ (forall k it, nth_error tracked k = Some it ->
          nth (main_pos tracked k) (emit tracked) RGram = main_row (lmi_index tracked k) it
          /\ main_pos tracked (S k) = (main_pos tracked k + width it)%nat
          /\ (forall m, it = LMI m -> forall i j, (i < nrows m)%nat -> (j < ncols m)%nat ->
                nth (main_pos tracked k + 1 + i * ncols m + j) (emit tracked) RGram
                = REnt (lmi_index tracked k) i j (entry m i j)))
    /\ main_pos tracked (length tracked) = length (emit tracked).
Proof. exact layout. Qed.

(** when every tracked object is sent once, each position shows its own duals (objects sent several times show,
    at every occurrence, the values of their LAST occurrence: Model.Cvxpy.by_object) *)
Theorem C01_objects_sent_once :
  forall (A : Type) (ids : list nat) (vals : list A) (d : A),
    NoDup ids -> length ids = length vals -> by_object ids vals d = vals.
Proof. exact @by_object_nodup. Qed.

(** HEADLINE.  Under the solver assumption (the Lagrangian of the emitted problem is constant = tau on
    {G symmetric} x F x {M_k symmetric}), for EVERY declared model - LMIs symmetric as written or not - whose
    objects are each sent once: what the objects show after assign o recover satisfies
      objective - tau = sum lambda_c e_c - <residual,G> - sum_k sum_ij u_kij e_kij   for ALL symmetric G, all F
    (u_k = entries_dual_variable_value, the multipliers of the entry correspondences of the k-th LMI);
    check_feasibility's reconstruction returns exactly tau; and the pruned symmetrised dictionary has no
    non-constant key left. *)
Theorem C01_identity :
  forall (obj : edict) (tracked : sent) (ids : list nat) (temp : list dval) (tau : R),
    wf_edict obj -> wf_sent tracked ->
    NoDup ids -> length ids = length tracked ->
    kkt_dual obj (emit tracked) temp tau ->
    let '(a, res, fd, t) := certificate obj tracked ids temp in
    certificate_identity obj a (res_matrix res) tau
    /\ Q2R t = tau
    /\ (forall k v, In (k, v) fd -> k = K1).
Proof. exact identity. Qed.

Theorem C01_identity_proj :
  forall (obj : edict) (tracked : sent) (ids : list nat) (temp : list dval) (tau : R),
    wf_edict obj -> wf_sent tracked -> NoDup ids -> length ids = length tracked ->
    kkt_dual obj (emit tracked) temp tau ->
    certificate_identity obj (fst (exposed tracked ids temp)) (res_matrix (snd (exposed tracked ids temp))) tau
    /\ Q2R (snd (certificate obj tracked ids temp)) = tau.
Proof.
  intros obj tracked ids temp tau Ho Hw Hnd Hl Hk.
  pose proof (identity obj tracked ids temp tau Ho Hw Hnd Hl Hk) as H.
  unfold certificate in *. destruct (exposed tracked ids temp) as [a res]. cbn [fst snd] in *.
  destruct H as [H1 [H2 _]]. split; assumption.
Qed.

(** stationarity in the matrix variables: the dual matrix S_k = eval_dual() of every LMI is the symmetric part of
    its entry multipliers u_k (so <u_k, E> = <S_k, E> whenever E is symmetric, e.g. at every feasible point) *)
Theorem C01_dual_matrix_is_sym_part :
  forall (obj : edict) (tracked : sent) (ids : list nat) (temp : list dval) (tau : R),
    NoDup ids -> length ids = length tracked ->
    length temp = length (emit tracked) ->
    stationary obj (emit tracked) temp tau ->
    Forall sym_ok (fst (exposed tracked ids temp)).
Proof.
  intros obj tracked ids temp tau Hnd Hids Hlen Hstat.
  rewrite length_emit in Hlen. destruct temp as [|d0 ds]; [discriminate|]. injection Hlen as Hlen.
  rewrite (exposed_shown tracked ids d0 ds Hnd Hids).
  apply (mpart_sym tracked 0%nat ds), (stationary_mpart obj tracked d0 ds tau Hlen Hstat).
Qed.

(** identity + lambda >= 0 on inequalities + residual and the dual matrices S_k finite sums of rank-one matrices
    + S_k = symmetric part of u_k  => objective <= tau at every feasible point (G symmetric PSD, every scalar
    constraint holds, every LMI matrix symmetric PSD). *)
Theorem C01_weak_duality :
  forall (np : nat) (obj : edict) (tracked : sent) (duals : list dval) (entries : list (option (list (list Q))))
         (res : list (list Q)) (tau : R),
    length duals = length tracked -> length entries = length tracked ->
    certificate_identity obj (combine (combine tracked duals) entries) res tau ->
    dual_feasible (combine (combine tracked duals) entries) ->
    rank1sum res np ->
    forall G F, feasible np tracked G F -> evalGF G F obj <= tau.
Proof. exact weak_duality. Qed.

(** the PSD x PSD pairing, with the multiplier side a finite sum of rank-one matrices ([rank1sum]) and the primal
    side symmetric with a non-negative quadratic form ([psd_qf]); Gram matrices are PSD in that primal sense *)
Theorem C01_psd_pairing :
  forall Sm A n, rank1sum Sm n -> psd_qf n A -> 0 <= mdot Sm A.
Proof. exact psd_pairing_nonneg. Qed.

Theorem C01_gram_is_psd :
  forall (E : ips) (rho : nat -> E) n, psd_qf n (fun i j => inner (rho i) (rho j)).
Proof. exact @gram_psd. Qed.

(** REGRESSION for the repaired finding F-C01a: the formula check_feasibility used BEFORE commit bd99691 (the LMI
    expressions combined with eval_dual() instead of the entry multipliers; Model.Cert.old_reconstruct) is refuted
    on an LMI that is not symmetric as written - a KKT, dual-feasible dual and a feasible point whose objective
    value is strictly above what the old formula returns - while the CURRENT formula returns tau on that very
    instance (which meets every hypothesis of C01_identity: the asymmetric non-vacuity example). *)
Theorem C01_old_formula_refuted :
  exists (np : nat) (obj : edict) (tracked : sent) (ids : list nat) (temp : list dval) (tau : R)
         (G : nat -> nat -> R) (F : nat -> R),
    wf_edict obj /\ wf_sent tracked /\ NoDup ids /\ length ids = length tracked
    /\ all_lmis_symmetric tracked = false
    /\ kkt_dual obj (emit tracked) temp tau
    /\ (let '(a, res) := exposed tracked ids temp in dual_feasible a /\ rank1sum (res_matrix res) np)
    /\ feasible np tracked G F
    /\ (let '(a, res) := exposed tracked ids temp in
        Q2R (old_reconstruct obj (res_matrix res) a) < evalGF G F obj
        /\ Q2R (reconstruct obj (res_matrix res) a) = tau).
Proof.
  exists 1%nat, w_obj, w_sent, w_ids, (w_duals (1 # 4) 1), (Q2R (1 # 4) * (81 / 100) + Q2R 1), w_G, w_F.
  split; [apply w_wf|]. split; [apply w_wf|].
  split; [apply w_ids_ok|]. split; [apply w_ids_ok|].
  split; [apply w_not_symmetric|].
  split; [apply w_kkt|].
  split; [apply w_dual_feasible|].
  split; [apply w_feasible|].
  (* the two values *)
  pose proof w_old_feasible_dual as Ho. pose proof w_new_feasible_dual as Hn.
  unfold old_value, new_value, certificate in Ho, Hn.
  destruct (exposed w_sent w_ids (w_duals (1 # 4) 1)) as [a res]. cbn [snd] in Hn.
  rewrite (proj2 w_feasible), (Qeq_eqR _ _ Ho), (Qeq_eqR _ _ Hn). split; q2r; lra.
Qed.

(** the numbers observed on the real code for [[|x1-xs|^2, t],[s+1, 1]], metric t: 0.40 before the repair, 0.90 =
    primal = dual after it *)
Theorem C01_asym_observed_value :
  kkt_dual w_obj (emit w_sent) (w_duals (5 # 9) (9 # 20)) (9 / 10)
  /\ Q2R (old_value (w_duals (5 # 9) (9 # 20))) = 2 / 5
  /\ Q2R (new_value (w_duals (5 # 9) (9 # 20))) = 9 / 10.
Proof.
  split; [|split].
  - replace (9 / 10) with (Q2R (5 # 9) * (81 / 100) + Q2R (9 # 20)) by (q2r; lra). apply w_kkt.
  - rewrite (Qeq_eqR _ _ w_old_optimal_dual). q2r. lra.
  - rewrite (Qeq_eqR _ _ w_new_optimal_dual). q2r. lra.
Qed.

(** "ALL UP TO SOLVER TOLERANCE".  (1) With NO assumption on the solver: for every dual vector of the right
    shapes, what check_feasibility computes satisfies, for all symmetric G and all F,
    objective = fd + sum multiplier x constraint - <residual, G>, where fd is the pruned symmetrised
    dictionary whose constant is the returned value and whose other entries are the "remaining terms". *)
Theorem C01_reconstruction_unconditional :
  forall (obj : edict) (tracked : sent) (ids : list nat) (temp : list dval),
    wf_edict obj -> wf_sent tracked ->
    NoDup ids -> length ids = length tracked ->
    Forall2 dual_fits (emit tracked) temp ->
    let '(a, res, fd, t) := certificate obj tracked ids temp in
    (forall G F, symG G ->
       evalGF G F obj = evalGF G F fd + multiplier_sum G F a - mdot (res_matrix res) G)
    /\ t = constant_of fd.
Proof.
  intros obj tracked ids temp Hobj Hwf Hnd Hids Hfit.
  destruct (fitting_duals tracked ids temp Hwf Hnd Hids Hfit) as [d0 [ds [-> [_ [Hexp Hok]]]]].
  unfold certificate. rewrite Hexp. split; [|reflexivity].
  intros G F HG. unfold final_dict, final_dict_of.
  destruct (sub_combination_spec G F obj (res_matrix d0) (shown tracked ds) Hobj Hok) as [Hd Hv].
  rewrite ev_symmetrized, evalGF_symm, Hv by assumption. lra.
Qed.

Theorem C01_constant_split :
  forall G F (d : edict), NoDup (keys d) ->
    evalGF G F d = Q2R (constant_of d) + evalGF G F (remaining d).
Proof.
  intros G F d Hd. rewrite !C05Lemmas.evalGF_dsum, (dsum_remaining _ d Hd). unfold get, constant_of.
  destruct (lookup ekey_eqb K1 d); cbn [evalKGF]; rewrite ?Q2R_0; lra.
Qed.

(** (2) If the multipliers are dual feasible only up to eps (inequality multipliers >= -eps, residual and LMI
    dual matrices entry-wise within eps of a sum of rank-one matrices), then at every feasible point the
    objective is at most fd(G,F) + eps x (l1 size of the constrained quantities and of G): the returned
    constant dominates the objective up to the remaining terms and eps.  The same bound on the multiplier terms
    at eps = 0 gives C01_weak_duality. *)
Theorem C01_weak_duality_tolerance :
  forall (eps : R) (np : nat) (obj fd : edict) (tracked : sent) (duals : list dval)
         (entries : list (option (list (list Q)))) (res : list (list Q)),
    0 <= eps ->
    length duals = length tracked -> length entries = length tracked ->
    (forall G F, symG G ->
       evalGF G F obj = evalGF G F fd + multiplier_sum G F (combine (combine tracked duals) entries) - mdot res G) ->
    dual_feasible_tol eps (combine (combine tracked duals) entries) ->
    near_rank1sum eps res np ->
    forall G F, feasible np tracked G F ->
      evalGF G F obj <= evalGF G F fd + eps * (slack G F tracked + abs_sum np G).
Proof. intros eps np obj fd tracked duals entries res _. apply weak_duality_tol. Qed.

Theorem C01_exact_is_tolerance_zero :
  forall a, dual_feasible a -> dual_feasible_tol 0 a.
Proof. exact dual_feasible_tol0. Qed.

(** Non-vacuity: an inexact dual for the model of C01_example (a multiplier off by 1/1000, an INDEFINITE LMI dual
    matrix within 1/1000 of a rank-one matrix): shapes fit, a remaining term (F2 - F0)/1000 is left, the returned
    constant is 2403/2000, and the tolerance hypotheses hold with eps = 1/1000. *)
Example C01_tolerance_example :
  Forall2 dual_fits (emit s_sent) t_duals
  /\ (let '(_, _, fd, t) := certificate w_obj s_sent w_ids t_duals in
      map (fun kv => (fst kv, Qred (snd kv))) (remaining fd) = [(KF 2, (1 # 1000)%Q); (KF 0, (-1 # 1000)%Q)]
      /\ Qred t = (2403 # 2000)%Q)
  /\ (let '(a, res) := exposed s_sent w_ids t_duals in
      dual_feasible_tol (1 / 1000) a /\ near_rank1sum (1 / 1000) (res_matrix res) 1).
Proof.
  split; [|split].
  - rewrite s_emit. unfold t_duals. repeat (constructor; try exact I); cbn; repeat constructor.
  - vm_compute. split; reflexivity.
  - cbn. split.
    + (* the multipliers, item by item *)
      split; [q2r; lra|].
      split; [q2r; lra|].
      split; [|split; [|split; [|exact I]]].
      * (* the dual matrix is within 1/1000 of the rank-one matrix of (1/2, -1) *)
        split; [split; [reflexivity|repeat constructor]|].
        exists [fun k => match k with 0%nat => 1 / 2 | _ => -1 end].
        apply below_2; unfold matR, matq; cbn [nth rank1_at]; q2r; apply Rabs_le; lra.
      * (* shape of the entry multipliers *) split; [reflexivity|repeat constructor].
      * (* they have the symmetric part of the dual matrix *) intros i j _ _. reflexivity.
    + (* the residual *) apply rank1sum_near; [lra|exact (rank1sum_outer [0%Q])].
Qed.

(** Non-vacuity, symmetric LMI: a model with a symmetric 2x2 LMI, a rational dual satisfying the solver assumption
    and dual feasibility, a feasible point; the reconstruction returns the constant 481/400 and the
    feasible objective value 9/10 is below it. *)
Example C01_example :
  wf_edict w_obj /\ wf_sent s_sent /\ NoDup w_ids /\ length w_ids = length s_sent
  /\ all_lmis_symmetric s_sent = true
  /\ kkt_dual w_obj (emit s_sent) s_duals (481 / 400)
  /\ (snd (certificate w_obj s_sent w_ids s_duals) == 481 # 400)%Q
  /\ (let '(a, res) := exposed s_sent w_ids s_duals in dual_feasible a /\ rank1sum (res_matrix res) 1)
  /\ feasible 1 s_sent w_G s_F /\ evalGF w_G s_F w_obj = 9 / 10.
Proof.
  split; [apply s_wf|]. split; [apply s_wf|]. split; [apply w_ids_ok|]. split; [apply w_ids_ok|].
  split; [apply s_symmetric|]. split; [apply s_kkt|].
  split; [apply s_reconstruct|]. split; [apply s_dual_feasible|]. exact s_feasible.
Qed.

(** Non-vacuity, LMI NOT symmetric as written: every hypothesis of C01_identity and C01_weak_duality is met by
    [[<p,p>, t],[s + 1, 1]]; the reconstruction returns 481/400 = tau for the dual (a, u11) = (1/4, 1) and
    9/10 = the optimum for the optimal dual. *)
Example C01_example_asymmetric :
  wf_edict w_obj /\ wf_sent w_sent /\ NoDup w_ids /\ length w_ids = length w_sent
  /\ all_lmis_symmetric w_sent = false
  /\ kkt_dual w_obj (emit w_sent) (w_duals (1 # 4) 1) (Q2R (1 # 4) * (81 / 100) + Q2R 1)
  /\ (new_value (w_duals (1 # 4) 1) == 481 # 400)%Q
  /\ (new_value (w_duals (5 # 9) (9 # 20)) == 9 # 10)%Q
  /\ (let '(a, res) := exposed w_sent w_ids (w_duals (1 # 4) 1) in dual_feasible a /\ rank1sum (res_matrix res) 1)
  /\ feasible 1 w_sent w_G w_F /\ evalGF w_G w_F w_obj = 9 / 10.
Proof.
  split; [apply w_wf|]. split; [apply w_wf|]. split; [apply w_ids_ok|]. split; [apply w_ids_ok|].
  split; [apply w_not_symmetric|]. split; [apply w_kkt|]. split; [apply w_new_feasible_dual|].
  split; [apply w_new_optimal_dual|]. split; [apply w_dual_feasible|]. exact w_feasible.
Qed.

(** layout on a concrete interleaving: scalar, 2x2 LMI, scalar, 1x1 LMI, scalar -> positions 1,2,7,8,10 of 11;
    the same constraint object sent twice shows the dual of its last occurrence at both positions *)
Example C01_layout_example :
  let l := [SC [] Ineq; LMI [[[]; []]; [[]; []]]; SC [] Equ; LMI [[[]]]; SC [] Ineq] in
  map (main_pos l) (seq 0 5) = [1; 2; 7; 8; 10]%nat /\ length (emit l) = 11%nat.
Proof. vm_compute. split; reflexivity. Qed.

Example C01_duplicate_object_example :
  map (fun p => snd (fst p)) (fst (exposed [SC [] Ineq; SC [(K1, 1%Q)] Ineq; SC [(K1, 1%Q)] Ineq] [0; 1; 1]%nat
                                         [VM []; VS 5%Q; VS 1%Q; VS 2%Q]))
  = [VS 5%Q; VS 2%Q; VS 2%Q].
Proof. vm_compute. reflexivity. Qed.

Print Assumptions C01_layout.
Print Assumptions C01_objects_sent_once.
Print Assumptions C01_identity.
Print Assumptions C01_identity_proj.
Print Assumptions C01_dual_matrix_is_sym_part.
Print Assumptions C01_weak_duality.
Print Assumptions C01_psd_pairing.
Print Assumptions C01_gram_is_psd.
Print Assumptions C01_old_formula_refuted.
Print Assumptions C01_asym_observed_value.
Print Assumptions C01_reconstruction_unconditional.
Print Assumptions C01_constant_split.
Print Assumptions C01_weak_duality_tolerance.
Print Assumptions C01_exact_is_tolerance_zero.
