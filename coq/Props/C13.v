(** C13 — solving again gives fresh, consistent answers.
    The invariants of every op sequence; what a solve sends is a function of the declared model and of the
    index of the fresh objective leaf, so repeated solves do not grow the problem; under a guard on caches every
    object evaluates to the latest solution and every sent item carries the dual of the latest solve; the
    heuristic solve; the refutations F-C13a (stale cache) and F-C13d (failed solve) on concrete programs.
    Model: Model/Resolve.v (one solve after another: fresh objective leaf, class / partition
    constraints reset-then-filled, fresh tracking lists, duals of the sent items, leaf values
    overwritten, check_feasibility caching every sent item, early return on a failed solve) over
    Model/Eval.v (eval with caches). *)
From Coq Require Import List QArith.
From PV Require Import Model.Dict Model.Terms Model.Dump Model.Sent Model.Eval Model.Resolve
  Proofs.C02Cache Proofs.C13Sent Proofs.C13Main Proofs.C13Fresh Proofs.C13Created.
Import ListNotations.
Local Open Scope nat_scope.

(** Invariants of EVERY op sequence: the PEP's lists refer to existing objects ([closed]), the metric
    dictionaries mention registered leaves only (so the next objective leaf is fresh), every stored
    constraint / LMI refers to existing expressions. *)
Theorem C13_invariants : forall ops, inv (final ops) /\ store_ok (es (final ops)).
Proof. intro ops. split; [apply run_inv, inv0|apply final_store_ok]. Qed.

(** What solve k hands to the wrapper, whatever happened before (earlier solves -- finite or not --,
    evaluations, caches, duals, tracking lists): exactly [sent_of] of the DECLARED model (metric
    dictionaries, conditions, LMIs, what the classes / partitions generate now) at the index of the
    fresh objective leaf.  A newly built model with the same declarations sends [sent_of] of the same
    declarations at ITS objective index. *)
Theorem C13_sent_fresh :
  forall s a, closed s ->
    map (item_of (es (solve s a))) (wsent (solve s a)) = sent_of (decl_of s) (length (lev (es s)))
    /\ Forall (item_ok (es (solve s a))) (wsent (solve s a)).
Proof.
  intros s a C. destruct (prepare_spec s) as (_ & _ & P). unfold solve. destruct a as [sol|]; [|exact (P C)].
  exact (sends_mono _ _ _ _ (finish_le (prepare s) sol) (P C)).
Qed.

(** ... and two objective indices change nothing but that index: the metric rows are
    [(tau, 1) :: prune (- m)], the rest does not mention tau. *)
Theorem C13_sent_up_to_objective_index :
  forall d o, (forall m, In m (d_metrics d) -> nokey o m) ->
    sent_of d o = map (fun m => SC ((KF o, 1%Q) :: prune (x_neg m)) Ineq) (d_metrics d) ++ rest_of d.
Proof. exact sent_of_fresh_form. Qed.

(** the dump compared with the implementation by the correspondence stream is the dump of [item_of] *)
Theorem C13_dump_is_item : forall st r, item_ok st r -> dump_sent_item st r = dump_item (item_of st r).
Proof.
  intros st r (o & Ho & H). unfold dump_sent_item, item_of. rewrite Ho.
  destruct (okind_of o); try contradiction; cbn [dump_item]; [reflexivity|].
  rewrite map_map. erewrite map_ext; [reflexivity|]. intro row. cbn beta. rewrite map_map. reflexivity.
Qed.

(** No growth, at full strength (class LMIs and partition constraints included): for every reachable
    state [s] and every sequence of ops that does not edit the model (solves -- finite or failed --,
    evaluations, creation of objects and leaves), the next solve sends item by item the same shapes
    (scalar / LMI, number of non-zero coefficients) as a solve in [s]; hence equal numbers of scalar
    constraints, LMIs, non-zeros. *)
Theorem C13_no_growth :
  forall s ops a a', inv s -> forallb (fun o => negb (editing o)) ops = true ->
    map shape (sent_at (solve (fst (run s ops)) a')) = map shape (sent_at (solve s a)).
Proof.
  intros s ops a a' I E. destruct (run_keeps s ops E I) as [I2 D]. unfold sent_at.
  rewrite (proj1 (C13_sent_fresh s a (proj1 I))), (proj1 (C13_sent_fresh _ a' (proj1 I2))), D.
  apply counts_indep. intros m Hm. split; [rewrite <- D in Hm|]; apply inv_fresh; assumption.
Qed.

Theorem C13_no_growth_counts :
  forall s ops a a', inv s -> forallb (fun o => negb (editing o)) ops = true ->
    let k := sent_at (solve (fst (run s ops)) a') in let k1 := sent_at (solve s a) in
    n_scalars k = n_scalars k1 /\ n_lmis k = n_lmis k1 /\ nnz k = nnz k1 /\ length k = length k1.
Proof.
  intros s ops a a' I E. cbv zeta. pose proof (C13_no_growth s ops a a' I E) as H.
  unfold n_scalars, n_lmis, nnz. rewrite H. repeat split.
  apply (f_equal (@length _)) in H. rewrite !map_length in H. exact H.
Qed.

(** Fresh values, under the guard: when the solver is called the object [x] and the expressions it
    refers to hold no cache.  After the finite solve and ANY ops that do not solve again (leaf points
    may be created since the repair e997f00), [eval] returns the cache-free value of [x] over the leaf
    tables, which are solution k followed by unassigned new leaves.  Only the empty combination
    [KPoint []] is excluded (F-C02b). *)
Theorem C13_fresh_partial :
  forall ops0 sol ops x o,
    let s := final ops0 in
    let n := length (lpv (es s)) in
    let s2 := fst (run (solve s (Some sol)) ops) in
    clean (es (prepare s)) x -> x < length (objs (es (solve s (Some sol)))) ->
    forallb quiet ops = true ->
    get_obj (es s2) x = Some o -> okind_of o <> KPoint [] ->
    snd (eval_obj (es s2) x) = pure_obj n (es s2) (okind_of o)
    /\ tail_none (map (fun i => Some (column (sP sol) i)) (seq 0 n)) (lpv (es s2))
    /\ tail_none (map (fun i => Some (nth i (sF sol) 0%Q)) (seq 0 (S (length (lev (es s)))))) (lev (es s2)).
Proof. intros ops0 sol ops x o. exact (fresh_values (final ops0) sol ops x o (final_store_ok ops0)). Qed.

(** The guard on the state BEFORE the solve: objects that exist then must hold no cache (on
    themselves and on the expressions they refer to); everything the pipeline creates at the solve
    (class constraints, class LMIs and their entries, partition constraints, metric rows) satisfies
    the guard by construction. *)
Theorem C13_guard_before_solve :
  forall s x, (x < length (objs (es s)) -> clean (es s) x) -> clean (es (prepare s)) x.
Proof.
  intros s x H. apply (grows_clean (new_leafE (es s))); [apply prepare_spec|].
  intros o Ho. exact (H (get_obj_lt (es s) x o Ho) o Ho).
Qed.

(** ... and with the decidable guard [cleanb] evaluated on the history before solve k: *)
Theorem C13_fresh_partial_guard :
  forall ops0 sol ops x o,
    let s := final ops0 in
    let n := length (lpv (es s)) in
    let s2 := fst (run (solve s (Some sol)) ops) in
    (x < length (objs (es s)) -> cleanb (es s) x = true) ->
    x < length (objs (es (solve s (Some sol)))) ->
    forallb quiet ops = true ->
    get_obj (es s2) x = Some o -> okind_of o <> KPoint [] ->
    snd (eval_obj (es s2) x) = pure_obj n (es s2) (okind_of o).
Proof.
  cbv zeta. intros ops0 sol ops x o G Hx Q Ho Hne.
  apply (C13_fresh_partial ops0 sol ops x o); try assumption.
  apply C13_guard_before_solve. intro H. apply cleanb_clean, G, H.
Qed.

(** objects built after the solve by the operators (no cache, no reference) are covered as well *)
Theorem C13_fresh_new_object :
  forall m s k ops o,
    (forall e, In e (refs_of k) -> False) -> k <> KPoint [] -> store_ok (es s) ->
    let x := length (objs (es s)) in
    let s2 := fst (run (with_es s (new_obj (es s) k)) ops) in
    forallb quiet ops = true -> get_obj (es s2) x = Some o ->
    snd (eval_obj (es s2) x) = pure_obj m (es s2) (okind_of o).
Proof.
  intros m s k ops o Hk Hne S. cbv zeta. intros Q Ho.
  apply (quiet_run_value m (with_es s (new_obj (es s) k)) ops _ (mkObj k None None)); try assumption.
  - apply (le_store_ok (es s)); [apply le_st_new_obj|exact S]. intros e He. destruct (Hk e He).
  - apply get_obj_new_obj_last.
  - apply clean_good. intros o0 H0. cbn [es with_es] in H0. rewrite get_obj_new_obj_last in H0. injection H0 as <-.
    split; [reflexivity|]. intros r' Hin. destruct (Hk _ Hin).
Qed.

(** The certificate of the latest solve: the item sent at position k carries the dual the wrapper
    returned at position k (no constraint object added twice). *)
Theorem C13_duals_latest :
  forall s sol k r d,
    closed s -> let s1 := solve s (Some sol) in
    NoDup (wsent s1) -> nth_error (wsent s1) k = Some r -> nth_error (sDual sol) k = Some d ->
    eval_dual (es s1) r = Ok d.
Proof.
  intros s sol k r d C. cbv zeta. unfold solve. change (wsent (finish (prepare s) sol)) with (wsent (prepare s)).
  intros N Hr Hd. destruct (finish_eq (prepare s) sol) as [rs ->].
  rewrite (frame_eval_dual _ _ r (eval_all_frame rs _)).
  apply (assign_duals_dual _ _ (es (prepare s)) k); try assumption.
  destruct (prepare_spec s) as (_ & _ & P). destruct (P C) as [_ O]. rewrite Forall_forall in O.
  destruct (O r (nth_error_In _ _ Hr)) as (o & -> & _). discriminate.
Qed.

(** Own constraints and LMIs of the functions (Function.add_constraint / add_psd_matrix, leaf and composite
    functions) are part of [decl_of] / [sent_of] (field [d_own]), hence covered by C13_sent_fresh and
    C13_no_growth.  The filter "has an own constraint OR an own LMI" of the sending loop drops nothing: every own
    item of every function -- also of a function that has ONLY an own LMI -- is sent. *)
Theorem C13_own_items_all_sent : forall s, own_refs s = flat_map (fun f => fst f ++ snd f) (fown s).
Proof. exact own_refs_all. Qed.

(** A solve with a dimension-reduction heuristic ([SolveH first rest]: the finite answer, then the answers of
    the heuristic re-solves): every sent item carries the dual of the FIRST answer (the certificate of the
    original problem), the leaf values are those of the LAST answer.  It is [solve s (Some (answer_of first rest))],
    so C13_sent_fresh / C13_fresh_partial / C13_no_growth apply with that answer, in any order with plain solves. *)
Theorem C13_heuristic_solve :
  forall s first rest,
    closed s ->
    let s1 := fst (step s (SolveH first rest)) in
    let lastS := last rest first in
    (forall k r d, NoDup (wsent s1) -> nth_error (wsent s1) k = Some r -> nth_error (sDual first) k = Some d ->
                   eval_dual (es s1) r = Ok d)
    /\ lpv (es s1) = map (fun i => Some (column (sP lastS) i)) (seq 0 (length (lpv (es s))))
    /\ lev (es s1) = map (fun i => Some (nth i (sF lastS) 0%Q)) (seq 0 (S (length (lev (es s))))).
Proof.
  intros s first rest C. cbv zeta. unfold step. cbn [valid_op step_valid fst].
  split; [|exact (solve_leaves s (answer_of first rest))].
  intros k r d N Hr Hd. exact (C13_duals_latest s (answer_of first rest) k r d C N Hr Hd).
Qed.

(** The CVXPY problem of a dimension-reduction heuristic has the rows of that solve's original problem plus
    exactly ONE (the bound [objective >= wc - tol]) over the same variables (F, G, one M per LMI) -- numbers that
    depend on the declared model only, at every solve index and in every history ... *)
Theorem C13_heuristic_rows :
  forall s a, closed s ->
    let l := sent_at (solve s a) in
    cvx_heuristic_rows l = S (cvx_rows l)
    /\ cvx_rows l = cvx_rows (sent_of (decl_of s) 0) /\ cvx_vars l = cvx_vars (sent_of (decl_of s) 0).
Proof.
  intros s a C. cbv zeta. unfold sent_at. rewrite (proj1 (C13_sent_fresh s a C)).
  split; [reflexivity|]. unfold cvx_rows, cvx_vars. rewrite (sizes_indep _ _ 0). split; reflexivity.
Qed.

(** ... hence they do not grow with the number of (heuristic or plain, finite or failed) solves. *)
Theorem C13_heuristic_rows_no_growth :
  forall s ops a a', inv s -> forallb (fun o => negb (editing o)) ops = true ->
    let k := sent_at (solve (fst (run s ops)) a') in let k1 := sent_at (solve s a) in
    cvx_heuristic_rows k = cvx_heuristic_rows k1 /\ cvx_rows k = cvx_rows k1 /\ cvx_vars k = cvx_vars k1.
Proof.
  intros s ops a a' I E. cbv zeta. destruct (run_keeps s ops E I) as [I2 D].
  destruct (C13_heuristic_rows s a (proj1 I)) as (_ & R1 & V1).
  destruct (C13_heuristic_rows _ a' (proj1 I2)) as (_ & R2 & V2). rewrite D in R2, V2.
  split; [|split; congruence].
  change (S (cvx_rows (sent_at (solve (fst (run s ops)) a'))) = S (cvx_rows (sent_at (solve s a)))). congruence.
Qed.

(** F-C13a: a held object whose cache dates from solve 1 keeps that number after solve 2, while a
    new object with the SAME dictionary evaluates to solution 2. *)
Theorem C13_refuted_stale :
  exists ops r r', ops = c13a_prog /\
    okind_of (nth r (objs (es (final ops))) (mkObj (KPoint []) None None)) =
    okind_of (nth r' (objs (es (final ops))) (mkObj (KPoint []) None None)) /\
    snd (eval_obj (es (final ops)) r') = Ok (VNum 4%Q) /\ snd (eval_obj (es (final ops)) r) = Ok (VNum 1%Q)
    /\ pure_obj 2 (es (final ops)) (KExpr dist2) = Ok (VNum 4%Q).
Proof.
  exists c13a_prog, 0, 9. split; [reflexivity|]. split; [vm_compute; reflexivity|].
  split; [vm_compute; reflexivity|]. split; vm_compute; reflexivity.
Qed.

(** F-C13d: a solve without a finite value leaves every leaf value in place (mechanism) ... *)
Theorem C13_failed_solve_keeps_leaves :
  forall s, closed s ->
    lpv (es (solve s None)) = lpv (es s) /\ lev (es (solve s None)) = lev (es s) ++ [None].
Proof. intros s _. exact (prepare_leaves s). Qed.

(** ... so a held object still answers with the numbers of the previous solve, whereas the same model
    newly built and solved (unbounded) raises "must be solved". *)
Theorem C13_refuted_failed :
  snd (eval_obj (es (final (removelast (removelast (removelast (removelast c13d_prog)))))) 0) = Ok (VNum 1%Q)
  /\ snd (eval_obj (es (final c13d_fresh_prog)) 0) = Raise EUnsolved.
Proof. split; vm_compute; reflexivity. Qed.

(** Non-vacuity of the guard of C13_fresh_partial and of no-growth: a model with one class template
    (one scalar constraint, one 1x1 LMI) and one partition equality, solved twice; an object created
    between the solves is clean when the second solver call happens and evaluates to solution 2; the
    two solves send 4 items each (1 metric row, 1 class constraint, 1 class LMI, 1 partition equality). *)
Definition c13_ex : list op :=
  [NewLeafP; NewLeafP; NewLeafE; AddMetric (ELeaf 0);
   SetTemplates [mkFT [([(KG 0 1, 1%Q)], Ineq)] [[[[(KG 0 0, 1%Q)]]]]] [[[(KG 1 1, 1%Q)]]];
   Solve (Some (mkSol [[1%Q; 0%Q]; [0%Q; 0%Q]] [1%Q; 1%Q] [VNum 1%Q; VNum 2%Q; VMat [[3%Q]]; VNum 4%Q]));
   MkExpr dist2].
Example C13_example :
  let s := final c13_ex in
  let x := 8 in
  let sol2 := mkSol [[3%Q; 0%Q]; [0%Q; 0%Q]] [5%Q; 5%Q; 5%Q] [VNum 1%Q; VNum 2%Q; VMat [[3%Q]]; VNum 4%Q] in
  okind_of (nth x (objs (es s)) (mkObj (KPoint []) None None)) = KExpr dist2
  /\ clean (es (prepare s)) x
  /\ snd (eval_obj (es (solve s (Some sol2))) x) = Ok (VNum 9%Q)
  /\ length (wsent s) = 4 /\ length (wsent (solve s (Some sol2))) = 4
  /\ eval_dual (es (solve s (Some sol2))) 12 = Ok (VMat [[3%Q]]).
Proof.
  cbv zeta. split; [vm_compute; reflexivity|]. split.
  - apply C13_guard_before_solve. intros _. apply cleanb_clean. vm_compute. reflexivity.
  - repeat split; vm_compute; reflexivity.
Qed.

Print Assumptions C13_invariants.
Print Assumptions C13_sent_fresh.
Print Assumptions C13_sent_up_to_objective_index.
Print Assumptions C13_dump_is_item.
Print Assumptions C13_no_growth.
Print Assumptions C13_no_growth_counts.
Print Assumptions C13_fresh_partial.
Print Assumptions C13_guard_before_solve.
Print Assumptions C13_fresh_partial_guard.
Print Assumptions C13_fresh_new_object.
Print Assumptions C13_duals_latest.
Print Assumptions C13_own_items_all_sent.
Print Assumptions C13_heuristic_solve.
Print Assumptions C13_heuristic_rows.
Print Assumptions C13_heuristic_rows_no_growth.
Print Assumptions C13_refuted_stale.
Print Assumptions C13_failed_solve_keeps_leaves.
Print Assumptions C13_refuted_failed.
