(** C07 — Oracle bookkeeping is coherent for leaf and composite functions (model: Model/Func.v).
    The theorems of the property: the invariant [inv] holds after every accepted op sequence and is refuted
    without the guard; what [oracle] / [value] return is recorded; the clauses I1-I6 of the property read off
    [inv] for the state [run ops]; the lookup by dictionary is equality of points as vectors; the class rule
    for [reuse_gradient]; examples; last, the same invariant along the primitive STEP programs.

    [run ops] is the state of the model of PEPit/function.py after the op sequence [ops]
    (NewPoint / NewExpr / NewLeaf / Combine / Direct / Oracle / Gradient / Value / Stationary / Fixed / AddPoint,
    on leaf and composite functions, in any order).  [ops_ok ops] is the decidable side condition:
      [op_scoped]  ids exist, dictionaries have unique keys, a composite has >= 1 operand, user-level add_point
                   on a point not yet recorded for the function or its terms (how the primitive steps call it);
      [op_guard]   no composite is the zero function: its weights (built as Python builds them since /repo
                   5162ea4: bare scaling first, then merge-and-PRUNE per [+]) are neither a bare zero scaling
                   [{f: 0}] (F-C07d) nor empty because everything cancelled (F-C07c); a dictionary handed
                   directly to the constructor ([Direct]) has no zero weight and is not empty (F-C07e); no
                   query point has an explicit zero coefficient (F-C07b).  Cancelling weights such as f1 + f2 - f2 are ACCEPTED
                   (the repaired F-C07a; see [C07_regression_cancelled_weights]).
    Without [op_guard] the statement is refuted ([C07_inv_refuted_*]). *)
From Coq Require Import String List Reals Qreals.
From PV Require Import Gen.Classes.
From PV Require Import Base.IPS Model.Dict Model.Terms Model.Func Spec.Sem
  Proofs.DictLemmas Proofs.SemLemmas Proofs.C07Dict Proofs.C07Inv Proofs.C07Main Proofs.C07Thm Proofs.C07InvB.
From PV Require Model.StepsRT Model.StepsFunc Proofs.C08Composite.
Import ListNotations.
Local Open Scope R_scope.

(** The invariant (I0 well-formedness / flatness, I1, I2, I3, stationary samples, I6; see [inv_gen] in
    Proofs/C07Inv.v) holds initially, is preserved by every op, hence holds after EVERY accepted op
    sequence (induction on the list, no bound on its length). *)
Theorem C07_inv_init : inv init.
Proof. exact init_inv. Qed.

Theorem C07_inv_step :
  forall s o, inv s -> op_scoped s o = true -> op_guard s o = true -> inv (step s o).
Proof. exact step_inv. Qed.

Theorem C07_inv_partial : forall ops, ops_ok ops = true -> inv (run ops).
Proof. exact inv_partial. Qed.

(** The executable form of the invariant ([inv_b], Proofs/C07InvB.v: meanings compared as pruned
    differences of dictionaries, the choice of I3 found by enumeration) is sound for [inv]. *)
Theorem C07_inv_b_sound : forall s, inv_b s = true -> inv s.
Proof. exact inv_b_sound. Qed.

(** Unguarded statement refuted: well-scoped op sequences that break the invariant. *)
Theorem C07_inv_refuted_zero_scaling :     (* F-C07d: F = 0*f keeps {f: 0}; F.oracle(x) records two fresh leaves for the zero function *)
  exists ops, ops_scoped ops = true /\ ~ inv (run ops).
Proof.
  exists ops_zero_scaling. split; [vm_compute; reflexivity|].
  apply (free_value_of_zero_function_refute _ 1%nat [(0%nat, 1%Q)] [(1%nat, 1%Q)]); vm_compute; auto with arith.
Qed.

Theorem C07_inv_refuted_all_weights_cancel : (* F-C07c: stationary point of f - f records a free value for the zero function *)
  exists ops, ops_scoped ops = true /\ ~ inv (run ops).
Proof.
  exists ops_all_cancel. split; [vm_compute; reflexivity|].
  apply (free_value_of_zero_function_refute _ 1%nat [(0%nat, 1%Q)] []); vm_compute; auto with arith.
Qed.

Theorem C07_inv_refuted_ctor_zero_weight : (* F-C07e: {f1: 1, f2: 0} handed to the constructor: a LEAF gets two values at x *)
  exists ops, ops_scoped ops = true /\ ~ inv (run ops).
Proof.
  exists ops_ctor_zero_weight. split; [vm_compute; reflexivity|].
  apply (two_values_refute _ 0%nat [(0%nat, 1%Q)] [(1%nat, 1%Q)] [(0%nat, 1%Q)] [(2%nat, 1%Q)]); vm_compute; auto with arith.
Qed.

Theorem C07_inv_refuted_zero_query :       (* F-C07b: 0*y queried twice: two values at the point {} *)
  exists ops, ops_scoped ops = true /\ ~ inv (run ops).
Proof.
  exists ops_zero_query. split; [vm_compute; reflexivity|].
  apply (two_values_refute _ 0%nat [] [(1%nat, 1%Q)] [] [(2%nat, 1%Q)]); vm_compute; auto with arith.
Qed.

(** What a call returns is a sample recorded for the function at a point equal to the query (so I1/I2/I3
    speak about every returned object): "one value however often and through whichever route it is queried". *)
Theorem C07_oracle_returns_recorded :
  forall s f p, (f < nfun s)%nat -> wfq s p ->
    let s' := fst (oracle s f p) in
    let g := fst (snd (oracle s f p)) in
    let v := snd (snd (oracle s f p)) in
    exists x0, In (x0, g, v) (f_pts (getf s' f)) /\ dict_eqb Nat.eqb x0 p = true.
Proof. exact oracle_returns_recorded. Qed.

Theorem C07_value_returns_recorded :
  forall s f p, (f < nfun s)%nat -> wfq s p ->
    let s' := fst (value s f p) in
    let v := snd (value s f p) in
    exists x0 g, In (x0, g, v) (f_pts (getf s' f)) /\ dict_eqb Nat.eqb x0 p = true.
Proof.
  intros s f p Hf Hq. cbv zeta. unfold value. destruct (find_pt (f_pts (getf s f)) p) as [[g0 v0]|] eqn:Hfp.
  - destruct (find_pt_Some _ _ _ _ Hfp) as (x0 & H1 & H2). exists x0, g0. auto.
  - pose proof (oracle_returns_recorded s f p Hf Hq) as H. cbv zeta in H.
    destruct (oracle s f p) as [s' [g v]]. destruct H as (x0 & H1 & H2). exists x0, g. auto.
Qed.

(** The clauses of the property, for the state after any accepted op sequence. *)

(** composite dictionaries only contain distinct leaves, with non-zero weights (recursion depth 2) *)
Theorem C07_flat :
  forall ops, ops_ok ops = true -> let s := run ops in
  forall F, (F < nfun s)%nat -> f_leaf (getf s F) = false ->
    NoDup (keys (f_w (getf s F))) /\
    forall k q, In (k, q) (f_w (getf s F)) ->
      (k < nfun s)%nat /\ f_leaf (getf s k) = true /\ f_w (getf s k) = [(k, 1%Q)] /\ ~ (q == 0)%Q.
Proof.
  intros ops H s F HF Hl. pose proof (inv_partial ops H) as Hinv. fold s in Hinv.
  split; [apply (inv_compw s Hinv F HF Hl)|].
  intros k q Hin. destruct (comp_term s F k q Hinv HF Hl Hin) as (Hk & Hkl & Hq).
  repeat split; auto. apply (inv_leafw s Hinv k Hk Hkl).
Qed.

(** I1 — a function has one value per point: two samples recorded at equal decompositions have values
    with the same meaning under every valuation of the leaves *)
Theorem C07_one_value_per_point :
  forall ops, ops_ok ops = true -> let s := run ops in
  forall f t1 t2, (f < nfun s)%nat -> In t1 (f_pts (getf s f)) -> In t2 (f_pts (getf s f)) ->
    dict_eqb Nat.eqb (xof t1) (xof t2) = true ->
    forall (E : ips) (rho : nat -> E) (phi : nat -> R), evalE rho phi (vof t1) = evalE rho phi (vof t2).
Proof. exact (fun ops H => inv_I1 (run ops) (inv_partial ops H)). Qed.

(** I2 — a differentiable function (reuse_gradient) has one gradient per point *)
Theorem C07_one_gradient_if_differentiable :
  forall ops, ops_ok ops = true -> let s := run ops in
  forall f t1 t2, (f < nfun s)%nat -> f_reuse (getf s f) = true ->
    In t1 (f_pts (getf s f)) -> In t2 (f_pts (getf s f)) ->
    dict_eqb Nat.eqb (xof t1) (xof t2) = true ->
    forall (E : ips) (rho : nat -> E), veq (evalP rho (gof t1)) (evalP rho (gof t2)).
Proof. exact (fun ops H => inv_I2 (run ops) (inv_partial ops H)). Qed.

(** I3 — every recorded (point, gradient, value) of a weighted sum is the same weighted sum of samples
    recorded at that point for its terms, in every inner-product space, under every valuation *)
Theorem C07_composite_sample_is_weighted_sum :
  forall ops, ops_ok ops = true -> let s := run ops in
  forall F t, (F < nfun s)%nat -> f_leaf (getf s F) = false -> In t (f_pts (getf s F)) ->
    exists ch : nat -> sample,
      (forall i q, In (i, q) (f_w (getf s F)) ->
         In (ch i) (f_pts (getf s i)) /\ dict_eqb Nat.eqb (xof (ch i)) (xof t) = true) /\
      forall (E : ips) (rho : nat -> E) (phi : nat -> R),
        veq (evalP rho (gof t)) (wlin rho (f_w (getf s F)) (fun i => gof (ch i))) /\
        evalE rho phi (vof t) = wsum rho phi (f_w (getf s F)) (fun i => vof (ch i)).
Proof. exact (fun ops H => read_I3 (run ops) (inv_partial ops H)). Qed.

(** I4 — a declared stationary point has zero total gradient *)
Theorem C07_stationary_zero_total_gradient :
  forall ops, ops_ok ops = true -> let s := run ops in
  forall F t, (F < nfun s)%nat -> In t (f_stat (getf s F)) ->
    In t (f_pts (getf s F)) /\ gof t = [] /\
    (f_leaf (getf s F) = false ->
     exists ch : nat -> sample,
       (forall i q, In (i, q) (f_w (getf s F)) ->
          In (ch i) (f_pts (getf s i)) /\ dict_eqb Nat.eqb (xof (ch i)) (xof t) = true) /\
       forall (E : ips) (rho : nat -> E), veq (wlin rho (f_w (getf s F)) (fun i => gof (ch i))) vzero).
Proof.
  intros ops H s F t HF Ht. pose proof (inv_partial ops H) as Hinv. fold s in Hinv.
  destruct (inv_stat s Hinv F t HF Ht) as [Hin Hg]. split; [exact Hin|]. split; [exact Hg|].
  intros Hl. destruct (read_I3 s Hinv F t HF Hl Hin) as (ch & Hc & Hs). exists ch. split; [exact Hc|].
  intros E rho w. destruct (Hs E rho (fun _ => 0)) as [HG _]. rewrite <- HG, Hg. reflexivity.
Qed.

(** I5 — two points with the same decomposition are the same point: the lookup returns the first sample
    whose decomposition is equal (as a Python dict) and nothing else; it gives the same answer for equal
    decompositions; recorded decompositions are in normal form (pruned, unique keys) *)
Theorem C07_lookup_exact :
  forall pts x,
    match find_pt pts x with
    | Some (g, v) => exists x0, In (x0, g, v) pts /\ dict_eqb Nat.eqb x0 x = true
    | None => forall t, In t pts -> dict_eqb Nat.eqb (xof t) x = false
    end.
Proof.
  intros pts x. destruct (find_pt pts x) as [[g v]|] eqn:H; [apply find_pt_Some|apply find_pt_None]; exact H.
Qed.

Theorem C07_equal_decompositions_same_point :
  forall ops, ops_ok ops = true -> let s := run ops in
  forall f p p', (f < nfun s)%nat -> NoDupKeys nat p -> NoDupKeys nat p' -> dict_eqb Nat.eqb p p' = true ->
    find_pt (f_pts (getf s f)) p = find_pt (f_pts (getf s f)) p' /\
    forall t, In t (f_pts (getf s f)) -> NoDup (keys (xof t)) /\ prune (xof t) = xof t.
Proof.
  intros ops H s f p p' Hf Np Np' He. pose proof (inv_samples s (inv_partial ops H) f) as Hwf. split.
  - apply find_pt_congr; auto. intros t Ht. apply (Hwf t Hf Ht).
  - intros t Ht. destruct (Hwf t Hf Ht) as (A & _ & _ & D & _). split; [exact A|apply prune_id, D].
Qed.

(** The lemma that makes the bookkeeping theorems apply to POINTS (vectors) and not only to dictionaries:
    for decompositions in pruned normal form (unique keys, no explicit zero) the comparison of raw
    dictionaries used by the lookup is equality of the two points as vectors, under every valuation of the
    leaf points in every inner-product space.  The normal form of recorded points is part of the invariant
    ([C07_equal_decompositions_same_point]); that of query points is [op_guard] in the model, and on the
    implementation it is CHECKED by the correspondence stream: every Point handed to oracle / gradient /
    value / add_point must have exactly the decomposition [pt t] of the term [t] the user wrote.  [+] and
    [-] always return normal forms ([C07_point_algebra_normal_form]); only a final scaling by 0 does not
    (F-C07b). *)
Theorem C07_lookup_is_vector_equality :
  forall a b : pdict, NoDupKeys nat a -> NoDupKeys nat b -> allnz nat a = true -> allnz nat b = true ->
    (dict_eqb Nat.eqb a b = true <-> forall (E : ips) (rho : nat -> E), veq (evalP rho a) (evalP rho b)).
Proof.
  intros a b Na Nb Za Zb. split.
  - intros He E rho w. rewrite !inner_evalP. apply dict_eqb_dsum; assumption.
  - intros Hv. apply (dict_eqb_char nat Nat.eqb nat_eqb_spec a b Na Nb). intros k.
    pose proof (Hv R1 (fun j => if Nat.eqb j k then 1 else 0) 1) as Hk.
    rewrite !ip_indicator in Hk by assumption. unfold get in Hk.
    destruct (lookup Nat.eqb k a) as [va|] eqn:Ha, (lookup Nat.eqb k b) as [vb|] eqn:Hb; unfold oeq.
    + apply eqR_Qeq. exact Hk.
    + exfalso. apply (lookup_Some_In nat Nat.eqb nat_eqb_spec) in Ha.
      apply (Q2R_nonzero va (allnz_In nat a k va Za Ha)). exact Hk.
    + exfalso. apply (lookup_Some_In nat Nat.eqb nat_eqb_spec) in Hb.
      apply (Q2R_nonzero vb (allnz_In nat b k vb Zb Hb)). symmetry. exact Hk.
    + exact I.
Qed.

Theorem C07_point_algebra_normal_form :
  forall a b : pterm,
    allnz nat (pt (PAdd a b)) = true /\ allnz nat (pt (PSub a b)) = true /\
    NoDupKeys nat (pt (PAdd a b)) /\ NoDupKeys nat (pt (PSub a b)).
Proof.
  intros a b. assert (W : forall t, pND (pt t)) by (intros t; apply compileP_wf; intros v; apply NoDupKeys_single).
  split; [apply allnz_prune|]. split; [apply allnz_prune|]. split; apply W.
Qed.

Theorem C07_dict_equality_is_equivalence :
  forall a b c : pdict, NoDupKeys nat a -> NoDupKeys nat b -> NoDupKeys nat c ->
    dict_eqb Nat.eqb a a = true /\
    (dict_eqb Nat.eqb a b = true -> dict_eqb Nat.eqb b a = true) /\
    (dict_eqb Nat.eqb a b = true -> dict_eqb Nat.eqb b c = true -> dict_eqb Nat.eqb a c = true).
Proof.
  exact (fun a b c Na Nb Nc => conj (peqb_refl a Na) (conj (peqb_sym a b Na Nb) (peqb_trans a b c Na Nb Nc))).
Qed.

(** Leaves that are instances of the 24 shipped classes: the effective flag of [Cls(..., reuse_gradient=d)] is
    [leaf_reuse Cls d = class_forced Cls || d].  The specification [class_forced] agrees, class by class, with
    what the translator reads in the constructors of /repo on every run (Gen/Classes.v, fail-closed: a
    constructor that neither forces True nor forwards its argument is not translated and this file no longer
    compiles); the harness checks the same rule, and the behaviour "same gradient object iff the flag is True",
    on the real objects of all 24 classes. *)
Example C07_class_flags_agree_with_source :
  class_forced "BlockSmoothConvexFunction" = force_reuse_BlockSmoothConvexFunction /\
  class_forced "ConvexFunction" = force_reuse_ConvexFunction /\
  class_forced "ConvexIndicatorFunction" = force_reuse_ConvexIndicatorFunction /\
  class_forced "ConvexLipschitzFunction" = force_reuse_ConvexLipschitzFunction /\
  class_forced "ConvexQGFunction" = force_reuse_ConvexQGFunction /\
  class_forced "ConvexSupportFunction" = force_reuse_ConvexSupportFunction /\
  class_forced "RsiEbFunction" = force_reuse_RsiEbFunction /\
  class_forced "SmoothConvexFunction" = force_reuse_SmoothConvexFunction /\
  class_forced "SmoothConvexLipschitzFunction" = force_reuse_SmoothConvexLipschitzFunction /\
  class_forced "SmoothFunction" = force_reuse_SmoothFunction /\
  class_forced "SmoothStronglyConvexFunction" = force_reuse_SmoothStronglyConvexFunction /\
  class_forced "SmoothStronglyConvexQuadraticFunction" = force_reuse_SmoothStronglyConvexQuadraticFunction /\
  class_forced "StronglyConvexFunction" = force_reuse_StronglyConvexFunction /\
  class_forced "CocoerciveOperator" = force_reuse_CocoerciveOperator /\
  class_forced "CocoerciveStronglyMonotoneOperator" = force_reuse_CocoerciveStronglyMonotoneOperator /\
  class_forced "LinearOperator" = force_reuse_LinearOperator /\
  class_forced "LipschitzOperator" = force_reuse_LipschitzOperator /\
  class_forced "LipschitzStronglyMonotoneOperator" = force_reuse_LipschitzStronglyMonotoneOperator /\
  class_forced "MonotoneOperator" = force_reuse_MonotoneOperator /\
  class_forced "NegativelyComonotoneOperator" = force_reuse_NegativelyComonotoneOperator /\
  class_forced "NonexpansiveOperator" = force_reuse_NonexpansiveOperator /\
  class_forced "SkewSymmetricLinearOperator" = force_reuse_SkewSymmetricLinearOperator /\
  class_forced "StronglyMonotoneOperator" = force_reuse_StronglyMonotoneOperator /\
  class_forced "SymmetricLinearOperator" = force_reuse_SymmetricLinearOperator.
Proof. repeat split; reflexivity. Qed.

(** ... hence a leaf of a class that is differentiable by nature, or declared with reuse_gradient=True, has one
    gradient per point (I2 instantiated with the class rule); for the other declarations I1 still gives one
    value per point and a new subgradient may be returned. *)
Theorem C07_class_leaf_one_gradient :
  forall ops, ops_ok ops = true -> let s := run ops in
  forall (cls : string) (declared : bool) f t1 t2,
    (f < nfun s)%nat -> f_reuse (getf s f) = leaf_reuse cls declared ->
    class_forced cls = true \/ declared = true ->
    In t1 (f_pts (getf s f)) -> In t2 (f_pts (getf s f)) ->
    dict_eqb Nat.eqb (xof t1) (xof t2) = true ->
    forall (E : ips) (rho : nat -> E), veq (evalP rho (gof t1)) (evalP rho (gof t2)).
Proof.
  intros ops Hok s cls d f t1 t2 Hf Hr Hc H1 H2 He.
  refine (inv_I2 s (inv_partial ops Hok) f t1 t2 Hf _ H1 H2 He).
  rewrite Hr. unfold leaf_reuse. destruct Hc as [-> | ->]; [reflexivity|apply orb_true_r].
Qed.

(** I6 — a sum declared differentiable (reuse_gradient) only has differentiable terms.  (The flag is the
    conjunction over all operands of the construction, cancelled ones included, so a sum may be declared
    non-differentiable although its remaining terms are differentiable; the property allows that: "a
    non-differentiable one MAY return a new subgradient".) *)
Theorem C07_differentiable_sum_has_differentiable_terms :
  forall ops, ops_ok ops = true -> let s := run ops in
  forall F, (F < nfun s)%nat -> f_leaf (getf s F) = false -> f_reuse (getf s F) = true ->
    forall k q, In (k, q) (f_w (getf s F)) -> f_reuse (getf s k) = true.
Proof. exact (fun ops H F HF Hl Hr k q => I6_In (run ops) F k q (inv_partial ops H) HF Hl Hr). Qed.

(** Non-vacuity: an accepted sequence with a differentiable and a non-differentiable leaf, the sum
    F = f0 + 2 f1 evaluated after one of its terms, re-evaluated (new subgradient, remainder rule on f1),
    a stationary point of F, a nested sum G = F/2 - f0 (weights {f0: -1/2, f1: 1}) evaluated where its terms
    already are: the guard holds, F has 4 samples (one stationary; the last query (x0 + P1) - P1 is recognised as x0), f1 has 7. *)
Definition x0 : pterm := PVar 0.
Definition ops_example : list op :=
  [NewPoint; NewLeaf true; NewLeaf false; Combine [(0%nat, 1%Q); (1%nat, 2%Q)];
   Oracle 1%nat x0; Oracle 2%nat x0; Gradient 2%nat x0; Stationary 2%nat;
   Combine [(2%nat, (1 # 2)%Q); (0%nat, (-1)%Q)]; Value 3%nat x0; Oracle 3%nat (PSub (PScal (SNum 2) (PVar 0)) (PVar 1));
   Oracle 2%nat (PSub (PAdd x0 (PVar 1)) (PVar 1)); Value 0%nat (PSub (PVar 2) (PSub (PVar 2) x0))].

Example C07_example :
  ops_ok ops_example = true /\ inv_b (run ops_example) = true /\
  let s := run ops_example in
  length (f_pts (getf s 2%nat)) = 4%nat /\ length (f_stat (getf s 2%nat)) = 1%nat /\
  length (f_pts (getf s 1%nat)) = 7%nat /\
  dict_eqb Nat.eqb (f_w (getf s 3%nat)) [(0%nat, (-1 # 2)%Q); (1%nat, 1%Q)] = true /\ f_reuse (getf s 3%nat) = false.
Proof. vm_compute. repeat split; reflexivity. Qed.

(** points that return to an earlier point have the earlier point's decomposition; without the normal form
    the raw comparison is NOT vector equality ({y: 0} vs {}) *)
Example C07_cancellation_returns_to_the_point :
  pt (PSub (PAdd (PVar 0) (PVar 1)) (PVar 1)) = pt (PVar 0) /\
  dict_eqb Nat.eqb (pt (PSub (PVar 1) (PSub (PVar 1) (PVar 0)))) (pt (PVar 0)) = true /\
  dict_eqb Nat.eqb (pt (PAdd (PAdd (PVar 0) (PScal (SNum 2) (PVar 1))) (PNeg (PScal (SNum 2) (PVar 1))))) (pt (PVar 0)) = true /\
  dict_eqb Nat.eqb (pt (PScal (SNum 0) (PVar 1))) [] = false.
Proof. vm_compute. repeat split; reflexivity. Qed.

(** the refuting sequences are well scoped but rejected by the guard *)
Example C07_refuting_sequences_rejected_by_guard :
  ops_ok ops_zero_scaling = false /\ ops_ok ops_all_cancel = false /\ ops_ok ops_zero_query = false /\
  ops_ok ops_ctor_zero_weight = false /\ inv_b (run ops_ctor_zero_weight) = false /\
  inv_b (run ops_zero_scaling) = false /\ inv_b (run ops_all_cancel) = false /\ inv_b (run ops_zero_query) = false.
Proof. vm_compute. repeat split; reflexivity. Qed.

(** REGRESSION (F-C07a, repaired by /repo 5162ea4): [f1.oracle(x); F = f1 + f2 - f2; F.oracle(x)].
    With the current construction ([__add__] prunes: F = {f1: 1}) both sequences are accepted by the guard
    and satisfy the invariant; with the OLD construction ([run_old]: merge without pruning, F = {f1: 1, f2: 0})
    the same sequences break it. *)
Example C07_regression_cancelled_weights :
  ops_ok ops_cancel_nondiff = true /\ inv_b (run ops_cancel_nondiff) = true /\
  ops_ok ops_cancel_diff = true /\ inv_b (run ops_cancel_diff) = true /\
  dict_eqb Nat.eqb (f_w (getf (run ops_cancel_diff) 2%nat)) [(0%nat, 1%Q)] = true /\
  inv_b (run_old ops_cancel_nondiff) = false /\ inv_b (run_old ops_cancel_diff) = false.
Proof. vm_compute. repeat split; reflexivity. Qed.

(** the operator tree is followed: a bare zero scaling keeps its zero, a later [+] prunes it *)
Example C07_construction :
  let s := run [NewLeaf true; NewLeaf false] in
  combine_weights s [(0%nat, 0%Q)] = [(0%nat, (0 * 1)%Q)] /\
  dict_eqb Nat.eqb (combine_weights s [(0%nat, 0%Q); (1%nat, 1%Q)]) [(1%nat, 1%Q)] = true /\
  combine_weights s [(0%nat, 1%Q); (0%nat, (-1)%Q)] = [] /\
  dict_eqb Nat.eqb (combine_weights s [(0%nat, 1%Q); (1%nat, 1%Q); (0%nat, (-1)%Q); (0%nat, 2%Q)])
                   [(1%nat, 1%Q); (0%nat, 2%Q)] = true.
Proof. vm_compute. repeat split; reflexivity. Qed.

Print Assumptions C07_inv_init.
Print Assumptions C07_inv_step.
Print Assumptions C07_inv_partial.
Print Assumptions C07_inv_b_sound.
Print Assumptions C07_inv_refuted_zero_scaling.
Print Assumptions C07_inv_refuted_zero_query.
Print Assumptions C07_inv_refuted_ctor_zero_weight.
Print Assumptions C07_inv_refuted_all_weights_cancel.
Print Assumptions C07_oracle_returns_recorded.
Print Assumptions C07_value_returns_recorded.
Print Assumptions C07_flat.
Print Assumptions C07_one_value_per_point.
Print Assumptions C07_one_gradient_if_differentiable.
Print Assumptions C07_composite_sample_is_weighted_sum.
Print Assumptions C07_stationary_zero_total_gradient.
Print Assumptions C07_lookup_exact.
Print Assumptions C07_equal_decompositions_same_point.
Print Assumptions C07_dict_equality_is_equivalence.
Print Assumptions C07_lookup_is_vector_equality.
Print Assumptions C07_point_algebra_normal_form.
Print Assumptions C07_differentiable_sum_has_differentiable_terms.
Print Assumptions C07_class_leaf_one_gradient.

(** ** STEP calls on leaf and composite functions
    The primitive steps (PEPit/primitive_steps) reach the bookkeeping only through [oracle], [value], [add_point]
    and fresh leaves.  Model/StepsFunc.v runs the step programs that translator/tr_steps.py regenerates from their
    sources (any program of that step language) over THIS model's state; every bookkeeping instruction is one
    op of the op language above with its side conditions ([C07_step_instruction_is_op]; the step hands over the
    dictionary of the point object it built, where the op carries the term), so the invariant is preserved by
    every step applied to any function, leaf or composite, under the guard [StepsFunc.ok_prog] = [op_scoped] and
    [op_guard] of each instruction evaluated along the execution.  Proofs/C08Composite.v; the instances for the
    8 generated programs and the examples on F = f0 + 2 f1 are in Props/C08.v. *)
Theorem C07_step_instruction_is_op :
  forall (a : StepsRT.args) (tp : nat -> pterm) (i : StepsRT.sinstr) (e : StepsRT.env) (s : state) (cs : StepsFunc.clog),
  (forall v, StepsRT.e_p e v = pt (tp v)) ->
  match C08Composite.op_of a tp e i with
  | Some o =>
      (exists e', StepsFunc.exec_s a i (e, (s, cs)) = inl (e', (step s o, cs))) /\
      StepsFunc.guard_s a i (e, (s, cs)) = (op_scoped s o && op_guard s o)%bool
  | None =>
      StepsFunc.guard_s a i (e, (s, cs)) = true /\
      match StepsFunc.exec_s a i (e, (s, cs)) with
      | inl (_, (s', _)) => s' = s
      | inr (_, (_, (s', _))) => s' = s
      end
  end.
Proof. exact C08Composite.exec_s_is_func_op. Qed.

Theorem C07_inv_step_program :
  forall (prog : StepsRT.program) (a : StepsRT.args) (s : state) (cs : StepsFunc.clog),
  inv s -> StepsFunc.ok_prog prog a (s, cs) = true -> inv (StepsFunc.run_state prog a (s, cs)).
Proof. exact C08Composite.run_inv_steps. Qed.

(** oracle / gradient / value / stationary-point / fixed-point / add_point calls in any order, THEN a step *)
Theorem C07_inv_ops_then_step_program :
  forall (ops : list op) (prog : StepsRT.program) (a : StepsRT.args) (cs : StepsFunc.clog),
  ops_ok ops = true -> StepsFunc.ok_prog prog a (run ops, cs) = true ->
  inv (StepsFunc.run_state prog a (run ops, cs)).
Proof. exact C08Composite.run_inv_steps_after_ops. Qed.

(** ... and any further ops after the step (the invariant is all [C07_inv_step] needs) *)
Theorem C07_inv_step_program_then_ops :
  forall (prog : StepsRT.program) (a : StepsRT.args) (s : state) (cs : StepsFunc.clog) (ops : list op),
  inv s -> StepsFunc.ok_prog prog a (s, cs) = true ->
  run_ok (StepsFunc.run_state prog a (s, cs)) ops = true ->
  inv (fold_left step ops (StepsFunc.run_state prog a (s, cs))).
Proof. exact (fun prog a s cs ops Hinv Hok => run_inv ops _ (C08Composite.run_inv_steps prog a s cs Hinv Hok)). Qed.

(** I3 after a step: every sample of every composite is the weighted sum of samples of its terms at that point *)
Theorem C07_step_program_composite_sample_is_weighted_sum :
  forall (prog : StepsRT.program) (a : StepsRT.args) (s : state) (cs : StepsFunc.clog),
  inv s -> StepsFunc.ok_prog prog a (s, cs) = true ->
  let s' := StepsFunc.run_state prog a (s, cs) in
  forall F t, (F < nfun s)%nat -> f_leaf (getf s F) = false -> In t (f_pts (getf s' F)) ->
    exists ch : nat -> sample,
      (forall i q, In (i, q) (f_w (getf s' F)) ->
         In (ch i) (f_pts (getf s' i)) /\ dict_eqb Nat.eqb (xof (ch i)) (xof t) = true) /\
      forall (E : ips) (rho : nat -> E) (phi : nat -> R),
        veq (evalP rho (gof t)) (wlin rho (f_w (getf s' F)) (fun i => gof (ch i))) /\
        evalE rho phi (vof t) = wsum rho phi (f_w (getf s' F)) (fun i => vof (ch i)).
Proof. exact C08Composite.run_composite_samples. Qed.

(** non-vacuity: a hand-written proximal-step program (x = x0 - gx/2; F.add_point((x, gx, fx))) on F = f0 + 2 f1
    after the sequence [ops_example] above (F is function 2, evaluated three times, one stationary point) *)
Example C07_step_program_example :
  let prog := [StepsRT.I (StepsRT.FreshPoint 1); StepsRT.I (StepsRT.FreshExpr 0);
               StepsRT.I (StepsRT.LetP 2 (PSub (PVar 0) (PScal (SPar 0) (PVar 1))));
               StepsRT.I (StepsRT.AddPoint 0 2 1 0); StepsRT.Return [StepsRT.RetP 2; StepsRT.RetP 1; StepsRT.RetX 0]] in
  let a := StepsRT.mk_args [[(0%nat, 1%Q)]] [2%nat] [(1 # 2)%Q] [] in
  ops_ok ops_example = true /\ StepsFunc.ok_prog prog a (run ops_example, []) = true /\
  inv_b (StepsFunc.run_state prog a (run ops_example, [])) = true /\
  length (f_pts (getf (StepsFunc.run_state prog a (run ops_example, [])) 2%nat)) = 5%nat.
Proof. vm_compute. repeat split; reflexivity. Qed.

Print Assumptions C07_step_instruction_is_op.
Print Assumptions C07_inv_step_program.
Print Assumptions C07_inv_ops_then_step_program.
Print Assumptions C07_inv_step_program_then_ops.
Print Assumptions C07_step_program_composite_sample_is_weighted_sum.
