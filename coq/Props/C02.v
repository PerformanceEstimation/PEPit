(** C02 — primal output is a feasible, self-consistent worst-case instance.
    What [eval] returns on coherent caches (the same combination of the operands' values, read in R^n) and that
    it returns a value; the empty combination, whose length follows the class counter (F-C02b); the Gram reading
    of the values, the objective as the minimum of the metrics, leaf (re)assignment; and the factorisation
    eigh / clip / QR: it reproduces the PSD projection of the Gram matrix, within an explicit error.
    Model: Model/Eval.v (the four [eval] methods with their caches, leaf assignment). *)
From Coq Require Import List QArith Reals Lra.
From PV Require Import Base.IPS Model.Dict Model.Terms Model.Dump Model.Eval Model.Resolve Spec.Sem Spec.GramSem
  Proofs.DictLemmas Proofs.C02Vec Proofs.C02Cache Proofs.C02Main Proofs.C02Factor Proofs.C02FactorReading.
From PV Require Spec.KKT.
From PV Require Import Model.FactorPlan Gen.Factor.
Import ListNotations.
Local Open Scope R_scope.

(** For every store, every object [r] whose caches (its own and those of the expressions it refers
    to) are empty or coherent with the current leaf values, every assignment of leaf values in which
    all assigned leaf points have [n] coordinates: whatever [eval] returns is the same linear /
    bilinear combination of the values of the operands, read in the inner-product space R^n
    ([means]: evalP for points -- coordinate by coordinate, and [n] coordinates unless the combination
    is empty --, evalE for expressions / constraints / every LMI entry).  Objects built after the solve
    are just more entries of the store.  Since the repair e997f00 there is NO guard on the class
    counter: leaf points created after the solve do not matter. *)
Theorem C02_eval_hom :
  forall n st r o st' v,
    solved n st -> get_obj st r = Some o -> good (length (lpv st)) st r ->
    eval_obj st r = (st', Ok v) -> means n st (okind_of o) v.
Proof.
  intros n st r o st' v Hs Ho G H. apply (pure_obj_hom n st Hs (length (lpv st))).
  rewrite <- (eval_obj_pure st r o Ho G), H. reflexivity.
Qed.

(** ... and it does return a value as soon as every leaf the object mentions has one. *)
Theorem C02_eval_total :
  forall n st r o,
    solved n st -> get_obj st r = Some o -> good (length (lpv st)) st r ->
    assigned st (okind_of o) -> exists v, snd (eval_obj st r) = Ok v.
Proof.
  intros n st r o Hs Ho G Ha. rewrite (eval_obj_pure st r o Ho G). exact (pure_obj_total n st Hs _ _ Ha).
Qed.

(** empty caches are coherent with any leaf values *)
Theorem C02_clean_is_good : forall m st r, clean st r -> good m st r.
Proof. exact clean_good. Qed.

(** evaluation never touches leaf values, kinds or duals, and keeps coherent objects coherent *)
Theorem C02_eval_frame : forall st r st' x, eval_obj st r = (st', x) -> frame st st'.
Proof. exact eval_obj_frame. Qed.

(** F-C02b (the narrow remainder of F-C02a): the EMPTY combination ([x - x], ...) evaluates to
    [np.zeros(Point.counter)] with the CURRENT class counter ... *)
Theorem C02_empty_point_value :
  forall st r o st' x,
    get_obj st r = Some o -> okind_of o = KPoint [] -> ocache o = None ->
    eval_obj st r = (st', x) -> x = Ok (VVec (repeat 0%Q (length (lpv st)))).
Proof. unfold eval_obj. intros st r o st' x -> -> ->. cbn. intros [= _ <-]. reflexivity. Qed.

(** ... so that, on a reachable state (solve with 2 leaf points, then one more leaf point), it has 3
    coordinates while [x0 - x1], not evaluated before either, has the 2 coordinates of the instance
    (and no error: the trigger of the repaired F-C02a). *)
Theorem C02_empty_point_length_refuted :
  let st := es (final c02b_prog) in
  solved 2 st /\ clean st 0 /\ clean st 1
  /\ snd (eval_obj st 1) = Ok (VVec [1%Q; (-1)%Q])
  /\ snd (eval_obj st 0) = Ok (VVec [0%Q; 0%Q; 0%Q]).
Proof.
  cbv zeta. split; [|split; [|split; [|split]]].
  - intros i v H. destruct i as [|[|[|[|i]]]]; vm_compute in H; try discriminate; injection H as <-; reflexivity.
  - intros o. vm_compute. intros [= <-]. split; [reflexivity|]. intros r' [].
  - intros o. vm_compute. intros [= <-]. split; [reflexivity|]. intros r' [].
  - vm_compute. reflexivity.
  - vm_compute. reflexivity.
Qed.

(** Regression Example about the OLD formula (before e997f00; [old_point_compute] is NOT the model): it
    raised on the state on which the repaired evaluation returns the combination. *)
Example C02_old_formula_regression :
  let st := es (final c02b_prog) in
  old_point_compute st [(0%nat, 1%Q); (1%nat, (-1)%Q)] = Raise EShape
  /\ point_compute (length (lpv st)) st [(0%nat, 1%Q); (1%nat, (-1)%Q)] = Ok [1%Q; (-1)%Q].
Proof. split; vm_compute; reflexivity. Qed.

(** If the leaf vectors reproduce [Gp] (the PSD projection of the solver's Gram matrix: numpy's
    eigh / clipping / QR are trusted for this and MEASURED by the harness on every solve), every
    dictionary has at the returned instance exactly the value the solver saw at (Gp, F). *)
Theorem C02_gram_reading :
  forall n st (Gp : nat -> nat -> R),
    (forall i j, inner (rho_of n st i) (rho_of n st j) = Gp i j) ->
    forall d, evalE (rho_of n st) (phi_of st) d = evalGF Gp (phi_of st) d.
Proof. intros n st Gp H d. apply evalE_evalGF. intros i j _. apply H. Qed.

Theorem C02_gram_reading_holds :
  forall n st Gp c,
    (forall i j, inner (rho_of n st i) (rho_of n st j) = Gp i j) ->
    (holds (rho_of n st) (phi_of st) c <-> holdsGF Gp (phi_of st) c).
Proof. intros n st Gp c H. unfold holds, holdsGF. rewrite (C02_gram_reading n st Gp H). tauto. Qed.

(** Model with metric rows [tau - m_k <= 0] (k = 0..K, at least one), [tau] = a leaf nothing else
    mentions (it is created after everything it is compared with), any other scalar constraints and
    LMIs: at a point that is optimal among the points differing from it in [tau] only, [tau] is the
    smallest metric.  (Optimality is a hypothesis about the solver.) *)
Theorem C02_objective_is_min :
  forall (G : nat -> nat -> R) (o : nat) (m0 : edict) (ms : list edict) (others : list (edict * sense))
         (lmis : list (list (list edict))) (PsdM : list (list R) -> Prop),
    (forall m, In m (m0 :: ms) -> nokey o m /\ NoDupKeys ekey m) ->
    (forall c, In c others -> nokey o (fst c)) ->
    (forall M row d, In M lmis -> In row M -> In d row -> nokey o d) ->
    forall F,
      feasible G o m0 ms others lmis PsdM F ->
      (forall F', (forall e, e <> o -> F' e = F e) -> feasible G o m0 ms others lmis PsdM F' -> F' o <= F o) ->
      F o = minl (evalGF G F m0) (map (evalGF G F) ms).
Proof. exact objective_is_min. Qed.

(** [_eval_points_and_function_values]: leaf point i gets column i of [points_values], leaf expression
    i gets entry i of [F_value] -- total on the registries, the index map is the identity (injective);
    no cache, kind or dual is touched; every vector has as many coordinates as the matrix has rows;
    the second pass over the PEP-level LMIs re-writes the same entries. *)
Theorem C02_leaf_assignment :
  forall st Pm Fv,
    let st' := assign_solution st Pm Fv in
    objs st' = objs st
    /\ length (lpv st') = length (lpv st) /\ length (lev st') = length (lev st)
    /\ (forall i, (i < length (lpv st))%nat -> leafP st' i = Ok (column Pm i))
    /\ (forall i, (i < length (lev st))%nat -> leafE st' i = Ok (nth i Fv 0%Q))
    /\ solved (length Pm) st'.
Proof.
  intros st Pm Fv st'. split; [reflexivity|].
  split; [cbn [st' assign_solution lpv]; rewrite map_length; apply seq_length|].
  split; [cbn [st' assign_solution lev]; rewrite map_length; apply seq_length|].
  split; [|split].
  - intros i Hi. unfold leafP. cbn [st' assign_solution lpv]. rewrite nth_error_map_seq by exact Hi. reflexivity.
  - intros i Hi. unfold leafE. cbn [st' assign_solution lev]. rewrite nth_error_map_seq by exact Hi. reflexivity.
  - intros i v H. cbn [st' assign_solution lpv] in H. rewrite nth_error_map in H.
    destruct (nth_error (seq 0 (length (lpv st))) i); [|discriminate]. injection H as <-. apply map_length.
Qed.

Theorem C02_leaf_reassignment_idempotent :
  forall st Pm Fv i j,
    let st' := assign_solution st Pm Fv in
    (i < length (lpv st))%nat -> (j < length (lev st))%nat ->
    reassign_leafP st' Pm i = st' /\ reassign_leafE st' Fv j = st'.
Proof.
  intros st Pm Fv i j st' Hi Hj. unfold reassign_leafP, reassign_leafE. cbn [st' assign_solution objs lpv lev].
  rewrite !upd_nth_same; [split; reflexivity| |].
  - apply (nth_error_map_seq (fun i => Some (nth i Fv 0%Q))). exact Hj.
  - apply (nth_error_map_seq (fun i => Some (column Pm i))). exact Hi.
Qed.

(** the list dot product the model computes with is bilinear and symmetric *)
Theorem C02_dot_bilinear :
  (forall a b, (dotl a b == dotl b a)%Q)
  /\ (forall a b c, length a = length b -> length a = length c -> (dotl (zipadd a b) c == dotl a c + dotl b c)%Q)
  /\ (forall w a c, (dotl (vscale w a) c == w * dotl a c)%Q).
Proof. exact (conj dotl_sym (conj dotl_zipadd_l dotl_vscale_l)). Qed.

(** Non-vacuity: two leaf points, one leaf expression, d = x0 - x1 and e = |x0 - x1|^2 - 3 f0 built
    AFTER an injected solve; the hypotheses of C02_eval_hom hold and the values are (1,-1) and -1. *)
Definition c02_ex : list op :=
  [NewLeafP; NewLeafP; NewLeafE; AddMetric (ELeaf 0);
   Solve (Some (mkSol [[1%Q; 0%Q]; [0%Q; 1%Q]] [1%Q; 1%Q] [VNum 1%Q]));
   MkPoint [(0%nat, 1%Q); (1%nat, (-1)%Q)];
   MkExpr [(KG 0 0, 1%Q); (KG 0 1, (-2)%Q); (KG 1 1, 1%Q); (KF 0, (-3)%Q)]].
Example C02_example :
  let st := es (final c02_ex) in
  clean st 2 /\ clean st 3 /\ length (lpv st) = 2%nat
  /\ snd (eval_obj st 2) = Ok (VVec [1%Q; (-1)%Q])
  /\ exists q, snd (eval_obj st 3) = Ok (VNum q) /\ (q == -1)%Q.
Proof.
  cbv zeta. split; [|split; [|split; [|split]]].
  - intros o. vm_compute. intros [= <-]. split; [reflexivity|intros r' []].
  - intros o. vm_compute. intros [= <-]. split; [reflexivity|intros r' []].
  - vm_compute. reflexivity.
  - vm_compute. reflexivity.
  - eexists. split; [vm_compute; reflexivity|]. reflexivity.
Qed.

(** The factorisation of pep.py (_eval_points_and_function_values): eigh, clipping, sqrt, QR.  From the
    SPECIFICATIONS of numpy's eigh (V^T V = I, G = V diag(lam) V^T) and qr (M = Q R, Q^T Q = I) -- the routines
    themselves stay trusted and are measured -- for every size n: the columns of [points_values] = R have the
    inner products of Gp = V diag(max(lam,0)) V^T; Gp is PSD; Gp = G when no eigenvalue is negative; G - Gp is
    the negative spectral part, entry-wise at most eps * sum_k |V_ik V_jk| when every eigenvalue is >= -eps. *)
Theorem C02_factor_reproduces_projection :
  forall n G lam V Qm Rm,
    eigh_spec n G lam V -> qr_spec n (scaled_T lam V) Qm Rm ->
    forall i j, (i < n)%nat -> (j < n)%nat ->
      KKT.sumn n (fun b => Rm b i * Rm b j) = proj n lam V i j.
Proof.
  intros n G lam V Qm Rm _ Hq i j Hi Hj. rewrite (qr_gram n _ Qm Rm Hq i j Hi Hj). apply scaled_gram.
Qed.

Theorem C02_projection_psd : forall n lam V, KKT.psd_qf n (proj n lam V).
Proof. intros n lam V. apply spectral_psd. intros k _. apply Rmax_r. Qed.

Theorem C02_projection_is_identity_on_psd :
  forall n G lam V, eigh_spec n G lam V -> (forall k, (k < n)%nat -> 0 <= lam k) ->
    forall i j, (i < n)%nat -> (j < n)%nat -> proj n lam V i j = G i j.
Proof.
  intros n G lam V [_ Hd] Hpos i j Hi Hj. rewrite (Hd i j Hi Hj). unfold proj.
  apply PSDLemmas.sumn_ext. intros k Hk. rewrite Rmax_left by (apply Hpos; exact Hk). reflexivity.
Qed.

Theorem C02_projection_error_bound :
  forall n G lam V eps, eigh_spec n G lam V -> 0 <= eps -> (forall k, (k < n)%nat -> - eps <= lam k) ->
    forall i j, (i < n)%nat -> (j < n)%nat ->
      Rabs (G i j - proj n lam V i j) <= eps * KKT.sumn n (fun k => Rabs (V i k * V j k)).
Proof.
  intros n G lam V eps Hs Heps Hlam i j Hi Hj.
  rewrite (projection_error n G lam V Hs i j Hi Hj). apply spectral_entry_bound. intros k Hk.
  specialize (Hlam k Hk). unfold Rmin. destruct (Rle_dec (lam k) 0).
  - rewrite Rabs_left1 by lra. lra.
  - rewrite Rabs_R0. exact Heps.
Qed.

(** Composition with the Gram reading: when the coordinates of the evaluated leaf points are the columns of that R
    factor (what the leaf assignment gives), every dictionary over the n leaf points has at the returned instance
    exactly the value the solver saw at the PSD projection of its Gram matrix -- at the Gram matrix itself when it has
    no negative eigenvalue.  No hypothesis about numpy is left except the specifications of eigh and qr. *)
Theorem C02_instance_reads_projection :
  forall n st G lam V Qm Rm,
    eigh_spec n G lam V -> qr_spec n (scaled_T lam V) Qm Rm ->
    (forall k b, (k < n)%nat -> (b < n)%nat -> (rho_of n st k : nat -> R) b = Rm b k) ->
    forall d, keys_below n d ->
      evalE (rho_of n st) (phi_of st) d = evalGF (proj n lam V) (phi_of st) d.
Proof.
  intros n st G lam V Qm Rm _ Hq Hcols d Hk. apply evalE_evalGF. intros i j Hin.
  destruct (Hk i j Hin) as [Hi Hj]. exact (columns_inner n st lam V Qm Rm Hq Hcols i j Hi Hj).
Qed.

Theorem C02_instance_reads_gram :
  forall n st G lam V Qm Rm,
    eigh_spec n G lam V -> qr_spec n (scaled_T lam V) Qm Rm ->
    (forall k, (k < n)%nat -> 0 <= lam k) ->
    (forall k b, (k < n)%nat -> (b < n)%nat -> (rho_of n st k : nat -> R) b = Rm b k) ->
    forall d, keys_below n d ->
      evalE (rho_of n st) (phi_of st) d = evalGF G (phi_of st) d.
Proof.
  intros n st G lam V Qm Rm He Hq Hpos Hcols d Hk. apply evalE_evalGF. intros i j Hin.
  destruct (Hk i j Hin) as [Hi Hj]. rewrite <- (C02_projection_is_identity_on_psd n G lam V He Hpos i j Hi Hj).
  exact (columns_inner n st lam V Qm Rm Hq Hcols i j Hi Hj).
Qed.

(** Tie of the factorisation theorems to the source: the plan REGENERATED from pep.py on every run is eigh, clipping
    of the negative eigenvalues, QR of (sqrt(eig_val) * eig_vec)^T keeping R -- what [eigh_spec] / [scaled_T] /
    [qr_spec] formalise -- and every leaf value assigned afterwards is column x.counter of that R (points) or
    entry x.counter of F (expressions), nothing else. *)
Theorem C02_factor_plan_modelled :
  factor_plan_ok factor_plan = true /\ value_assignments_ok value_assignments = true.
Proof. split; vm_compute; reflexivity. Qed.

Example C02_factor_example :
  eigh_spec 2 ex_G ex_lam delta /\ qr_spec 2 (scaled_T ex_lam delta) delta (scaled_T ex_lam delta)
  /\ proj 2 ex_lam delta 1 1 = 0 /\ ex_G 1%nat 1%nat = -1.
Proof.
  split; [split; [apply delta_orthonormal|]|split; [apply qr_spec_id|split; [|reflexivity]]].
  - apply PSDLemmas.below_2; cbn [KKT.sumn ex_G ex_lam]; unfold delta; cbn; lra.
  - unfold proj. cbn [KKT.sumn ex_lam]. unfold delta. cbn.
    rewrite (Rmax_right (-1) 0) by lra. rewrite (Rmax_left 2 0) by lra. lra.
Qed.

Print Assumptions C02_eval_hom.
Print Assumptions C02_eval_total.
Print Assumptions C02_clean_is_good.
Print Assumptions C02_eval_frame.
Print Assumptions C02_empty_point_value.
Print Assumptions C02_empty_point_length_refuted.
Print Assumptions C02_gram_reading.
Print Assumptions C02_gram_reading_holds.
Print Assumptions C02_objective_is_min.
Print Assumptions C02_leaf_assignment.
Print Assumptions C02_leaf_reassignment_idempotent.
Print Assumptions C02_dot_bilinear.
Print Assumptions C02_factor_reproduces_projection.
Print Assumptions C02_projection_psd.
Print Assumptions C02_projection_is_identity_on_psd.
Print Assumptions C02_projection_error_bound.
Print Assumptions C02_factor_plan_modelled.
Print Assumptions C02_instance_reads_projection.
Print Assumptions C02_instance_reads_gram.
