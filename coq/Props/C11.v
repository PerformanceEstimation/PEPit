(** C11 -- both solver back-ends solve the same problem and report duals in one convention.
    The property theorems, from the lemmas of Proofs/C11Run.v (executable side: the emission run call by call on a
    task whose fields are variables) and Proofs/C11Sem.v (meaning of the rows, duals); the models of the examples
    are in Proofs/C11Regress.v.  Model: Model/Mosek.v.

    MOSEK is not installed: its API semantics ([step]) and its dual convention ([dual_eq], [Sbar_pair]) are
    ASSUMPTIONS, stated in harness/standin/mosek/__init__.py (A1-A3) and implemented there for the real wrapper
    code to run against. *)
From Coq Require Import List Reals Qreals Lra.
From PV Require Import Model.Dict Model.Terms Model.Sent Model.Matrices Model.Mosek Spec.GramSem
     Proofs.DictLemmas Proofs.C05Spec Proofs.C11Run Proofs.C11Sem Proofs.C11Regress.
Import ListNotations.
Local Open Scope nat_scope.

(** For EVERY declared model (any number of scalar constraints and LMIs of any size in any interleaving, any
    creation order of the PSDMatrix objects, leaf expressions created before or after the objective), any numbers of
    leaf points / leaf expressions, the Task calls issued by MosekWrapper are all accepted by the API and the task
    denotes EXACTLY the declared SDP: one row per scalar constraint with its sense and bound, n*n coupling rows per LMI
    attached to that LMI's own matrix variable, free leaf-expression variables, objective = the objective leaf,
    maximise.  Hypothesis [guard] -- no conjunct excludes a defect:
      - what is sent is well formed (existing leaves, valid sparse triples, square LMIs: true of every PEPit object),
      - the objective leaf exists ([obj < ec]),
      - the number of rows is at most 2^31: row indices are built as int32, the native index type of the MOSEK API
        itself (a problem with more rows cannot be expressed in that API at all). *)
Theorem C11_same_sdp :
  forall (l : sent) (pc ec obj : nat),
    guard l pc ec obj = true ->
    task_denote (emit l pc ec obj) = Some (sdp_of l pc ec obj).
Proof. exact same_sdp. Qed.

(** What the declared SDP's rows mean: for symmetric G = X 0 and symmetric matrix variables X (k+1), all rows hold
    iff every scalar constraint holds in the Gram reading ([evalGF], the reading of the cvxpy path, C05) and every
    entry of every LMI's matrix variable equals its expression: M_k[i][j] = e_ij(G,F). *)
Theorem C11_rows_meaning :
  forall (x : nat -> R) (X : nat -> nat -> nat -> R), (forall j, symG (X j)) ->
  forall (l : sent) (kb : nat), wfR l ->
    (Forall (row_holds x X) (rows_of kb l) <-> sat_items x X kb l).
Proof. exact rows_meaning. Qed.

(** the -1 (diagonal) and -1/2 (off-diagonal, lower-triangular storage) weights give exactly -M[i][j] *)
Theorem C11_coupling_weights :
  forall (M : nat -> nat -> R) (i j : nat), symG M -> tri_read M [coupling_triple i j] = (- M i j)%R.
Proof. exact coupling_read. Qed.

(** Duals.  Under MOSEK's dual equations A^T y = c (on the free variables) and Sbar_j = Cbar_j - sum_i y_i Abar_ij,
    the triple PEPit's _recover_dual_values exposes -- y[row_c] for each scalar constraint, -getbarsj(k+1) for the
    k-th LMI, -getbarsj(0) as residual -- satisfies, for every symmetric G and every F, with M_k := E_k(G,F):
        objective - tau  =  sum_c y[row_c] * e_c(G,F)  -  <-Sbar_0, G>  -  sum_k <-Sbar_{k+1}, E_k(G,F)>
    with tau = sum_i y_i * bound_i (MOSEK's dual objective): the certificate identity of the cvxpy path
    (C01: objective - tau = sum lambda_c e_c - <S0,G> - sum <S_k,E_k>), same constraints, same signs. *)
Theorem C11_duals :
  forall (y x : nat -> R) (X : nat -> nat -> nat -> R), (forall j, symG (X j)) ->
  forall (l : sent) (pc ec obj : nat),
    wfR l -> couplings_hold x X 1 l -> dual_eq (sdp_of l pc ec obj) y ->
    (x obj - dual_obj y (rows_of 1 l) 0
     = cert_scalars y x X 0 l - exposed y l 0 (X 0%nat)
       - sumn (length (lmis l)) (fun k => exposed y l (S k) (X (S k))))%R.
Proof.
  intros y x X Xsym l pc ec obj Hwf Hc Hd.
  rewrite (lagrangian_declared l pc ec obj y Hd x X), (ysum_rows_of y x X Xsym l 1 0 Hwf Hc). lra.
Qed.

(** Entry duals (after bd99691: PSDMatrix.entries_dual_variable_value = -y[first : first + n*n].reshape(n, n) on the
    MOSEK path, the raw multipliers of the rows M[i][j] - e_ij on the cvxpy path).  One convention, for EVERY LMI,
    symmetric as written or not:
    - MOSEK (by its dual equation Sbar_k = - sum_i y_i Abar_ik): the reported dual -Sbar_k of the LMI owning bar
      variable j pairs with every symmetric Z as  sum_ij U[i][j] * Z[i][j],  U[i][j] = -y[row of entry (i,j)]:
      reported dual = sym(entries_dual); *)
Theorem C11_entry_duals_mosek :
  forall (y : nat -> R) (Z : nat -> nat -> R) (j : nat), symG Z -> (1 <= j)%nat ->
  forall l, exposed y l j Z = entries_pair y (fun a b _ => Z a b) j 1 0 l.
Proof. intros y Z j Hs Hj l. exact (exposed_is_sym_entries y Z j Hs Hj l 1 0). Qed.

(**  - cvxpy (Lagrangian constant in the symmetric matrix variable, cvxpy's sign convention): the same; *)
Theorem C11_entry_duals_cvxpy_convention :
  forall n (S u E : nat -> nat -> R),
    (forall M, symG M -> cvx_lag n S u E M = cvx_lag n S u E (fun _ _ => 0%R)) ->
    forall Z, symG Z -> msum n (fun i j => (S i j * Z i j)%R) = msum n (fun i j => (u i j * Z i j)%R).
Proof.
  intros n S u E H Z HZ. specialize (H Z HZ). unfold cvx_lag in H.
  rewrite (msum_ext n (fun i j => u i j * (Z i j - E i j)) (fun i j => u i j * Z i j - u i j * E i j))%R in H
    by (intros; lra).
  rewrite (msum_ext n (fun i j => u i j * (0 - E i j)) (fun i j => 0 - u i j * E i j))%R in H by (intros; lra).
  rewrite (msum_ext n (fun i j => S i j * 0) (fun _ _ => 0))%R in H by (intros; lra).
  rewrite !msum_minus, !msum_zero in H. lra.
Qed.

(**  - hence, when both back-ends report the same dual matrix, their entry duals have the same symmetric part. *)
Theorem C11_entry_duals_agree :
  forall (y : nat -> R) l j n (S u E : nat -> nat -> R),
    (1 <= j)%nat ->
    (forall M, symG M -> cvx_lag n S u E M = cvx_lag n S u E (fun _ _ => 0%R)) ->
    (forall Z, symG Z -> exposed y l j Z = msum n (fun a b => (S a b * Z a b)%R)) ->
    forall Z, symG Z -> entries_pair y (fun a b _ => Z a b) j 1 0 l = msum n (fun a b => (u a b * Z a b)%R).
Proof.
  intros y l j n S u E Hj Hc Hsame Z HZ.
  rewrite <- (C11_entry_duals_mosek y Z j HZ Hj l), (Hsame Z HZ).
  exact (C11_entry_duals_cvxpy_convention n S u E Hc Z HZ).
Qed.

(** The certificate identity with the entry duals combined with the entries' expressions (what the repaired
    check_feasibility reconstructs): NO symmetry requirement on the matrices of expressions.
        objective - tau = sum_c y[row_c] e_c(G,F) - <-Sbar_0, G> - sum_k sum_ij U_k[i][j] * e_kij(G,F) *)
Theorem C11_duals_entries :
  forall (y x : nat -> R) (G : nat -> nat -> R), symG G ->
  forall (l : sent) (pc ec obj : nat),
    wfR l -> dual_eq (sdp_of l pc ec obj) y ->
    (x obj - dual_obj y (rows_of 1 l) 0
     = cert_scalars y x (XG G) 0 l - exposed y l 0 G - cert_entries y x G 0 l)%R.
Proof.
  intros y x G Gsym l pc ec obj Hwf Hd.
  rewrite (lagrangian_declared l pc ec obj y Hd x (XG G)), (ysum_rows_of_entries y x G Gsym l 1 0 (le_n 1) Hwf).
  rewrite exposed_lmis_XG. cbn [XG Nat.eqb]. lra.
Qed.

(** the general statement behind it: for ANY task, MOSEK's dual equations make the Lagrangian collapse *)
Theorem C11_lagrangian :
  forall (d : sdp) (y : nat -> R), bars_in_range d -> dual_eq d y ->
  forall x X, obj_val d x X
              = (ysum y (row_val x X) (d_rows d) 0 + sumn (length (d_bars d)) (fun j => Sbar_pair d y j (X j)))%R.
Proof. exact lagrangian_identity. Qed.

(** Dimension reduction.  For every such model (row index of the extra row must still fit int32), after
    prepare_heuristic and heuristic(W) the task denotes the declared second problem: minimise <W,G> over the same
    rows plus  -tau <= -(wc - tol)  -- wherever the objective leaf sits among the leaf expressions. *)
Theorem C11_heuristic :
  forall (l : sent) (pc ec obj : nat) (v : Q) (W : list triple),
    guard l pc ec obj = true -> int32_ok (total_rows l) = true -> valid_triples pc W = true ->
    task_denote (emit l pc ec obj ++ solve_reads ++ recover_reads l
                 ++ emit_prepare pc ec obj (total_rows l) (total_syms l) v
                 ++ emit_heuristic pc (S (total_syms l)) W)
    = Some (sdp_heur l pc ec obj v W).
Proof.
  intros l pc ec obj v W Hg Hlt HW. unfold task_denote.
  rewrite run_app, (run_emit _ _ _ _ Hg), app_assoc, run_app, run_reads, run_app.
  apply guard_spec in Hg as (_ & Hobj & _). rewrite (run_prepare l pc ec obj v Hobj Hlt).
  rewrite <- (syms_of_length pc l), <- (last_length _ (pc, sG (sp (heur_edict obj v)))), run_heuristic by exact HW.
  reflexivity.
Qed.

(** the value solve() returns is the objective's variable *)
Theorem C11_readout :
  forall (xx : list Q) (obj : nat) (st : prosta), mosek_solve_value xx obj st = Some (nth obj xx 0%Q).
Proof. reflexivity. Qed.

(** OPEN finding F-C11d: the returned value does not depend on the problem status; the cvxpy path returns None. *)
Theorem C11_status_refuted :
  exists xx obj st v, st <> PrimAndDualFeas /\ mosek_solve_value xx obj st <> None /\ cvxpy_solve_value v st = None.
Proof. exists [0%Q; 0%Q], 0, PrimInfeas, 0%Q. repeat split; cbn; discriminate. Qed.

(** Non-vacuity and REGRESSION examples (the latter restate the index expressions used before the repairs
    067bbb4 / 88e1f86 / 54e4665 -- see Proofs/C11Regress.v -- and show them wrong where the current ones are right).
    C11_example_duals: the hypotheses of C11_duals are satisfiable: model  tau <= <p0,p0> ; <p0,p0> <= 1  with
    y = (1, 1): A^T y = c, and the identity reads  tau - 1 = (tau - G00) + (G00 - 1). *)
Example C11_example_guard :
  guard w_sent 1 2 1 = true /\ task_denote (emit w_sent 1 2 1) = Some (sdp_of w_sent 1 2 1).
Proof.
  assert (H : guard w_sent 1 2 1 = true) by reflexivity. exact (conj H (C11_same_sdp _ _ _ _ H)).
Qed.

Example C11_regression_barvar_index :
  let before := prologue 1 2 ++ emit_sc 1 0 0 [(KF 1, 1%Q); (KF 0, (- (1))%Q)] Ineq ++ [TAppendBarvars [2]] in
  run (before ++ emit_entries 1 2 (old_bar_index 1) 1 1 (entries w_lmi)) t0 = None
  /\ (exists st, run (before ++ emit_entries 1 2 (2 - 1) 1 1 (entries w_lmi)) t0 = Some st).
Proof. cbv zeta. split; [vm_compute; reflexivity|]. eexists. vm_compute. reflexivity. Qed.

Example C11_regression_int8 :
  old_int8_ok 128 = false /\ int32_ok 128 = true
  /\ guard w_many 1 1 0 = true /\ task_denote (emit w_many 1 1 0) = Some (sdp_of w_many 1 1 0).
Proof.
  assert (H : guard w_many 1 1 0 = true) by reflexivity.
  exact (conj eq_refl (conj eq_refl (conj H (C11_same_sdp _ _ _ _ H)))).
Qed.

Example C11_regression_objective_index :
  old_readout_index 4 <> 1
  /\ put_c 4 [(1, 1%Q)] [3 - 1] [0%Q] = Some [(1, 1%Q); (2, 0%Q)]
  /\ put_c 4 [(1, 1%Q)] [1] [0%Q] = Some [(1, 0%Q)]
  /\ guard w_leaf 1 3 1 = true
  /\ task_denote (emit w_leaf 1 3 1 ++ solve_reads ++ recover_reads w_leaf
                  ++ emit_prepare 1 3 1 (total_rows w_leaf) (total_syms w_leaf) (1 # 2)
                  ++ emit_heuristic 1 (S (total_syms w_leaf)) (identity_triples 1))
     = Some (sdp_heur w_leaf 1 3 1 (1 # 2) (identity_triples 1)).
Proof.
  assert (H : guard w_leaf 1 3 1 = true) by reflexivity.
  split; [discriminate|]. split; [reflexivity|]. split; [reflexivity|]. split; [exact H|].
  apply C11_heuristic; [exact H|reflexivity|reflexivity].
Qed.

Example C11_example_recover :
  lmi_first_index 0 w_two = [1; 3] /\ sc_index 0 w_two = [0; 2]
  /\ recover w_two 1 [10#1; 11#1; 12#1; 13#1; 14#1; 15#1; 16#1]%Q
             (fun j => nth j [[7#1]; [5#1]; [1#1; 2#1; 3#1]]%Q [])
     = ([[- (7#1)]]%Q,
        [RScalar (10#1); RLmi [[- (5#1)]]%Q [[- (11#1)]]%Q; RScalar (12#1);
         RLmi [[- (1#1); - (2#1)]; [- (2#1); - (3#1)]]%Q [[- (13#1); - (14#1)]; [- (15#1); - (16#1)]]%Q]).
Proof. vm_compute. repeat split; reflexivity. Qed.

Example C11_example_duals :
  let l := [SC [(KF 0, 1%Q); (KG 0 0, (- (1))%Q)] Ineq; SC [(KG 0 0, 1%Q); (K1, (- (1))%Q)] Ineq] in
  wfR l /\ dual_eq (sdp_of l 1 1 0) (fun _ => 1%R) /\ guard l 1 1 0 = true.
Proof.
  cbv zeta. split; [|split].
  - repeat constructor; cbn; intros H; repeat (destruct H as [H|H]; [discriminate|]); exact H.
  - intros x. unfold c_val. cbn [sdp_of d_rows d_c lsum fst snd].
    set (rs := rows_of 1 _). vm_compute in rs. subst rs.
    cbn [ysum lin_val r_lin lsum fst snd]. lra.
  - reflexivity.
Qed.

Print Assumptions C11_same_sdp.
Print Assumptions C11_rows_meaning.
Print Assumptions C11_coupling_weights.
Print Assumptions C11_duals.
Print Assumptions C11_lagrangian.
Print Assumptions C11_entry_duals_mosek.
Print Assumptions C11_entry_duals_cvxpy_convention.
Print Assumptions C11_entry_duals_agree.
Print Assumptions C11_duals_entries.
Print Assumptions C11_heuristic.
Print Assumptions C11_readout.
Print Assumptions C11_status_refuted.
