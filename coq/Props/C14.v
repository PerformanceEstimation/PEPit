(** C14 — dimension-reduction post-processing keeps the guarantee it started from.
    The property theorems, proved from the lemmas of Proofs/C14PostSolve.v (over the GENERATED
    Gen/PostSolve.v) and Proofs/C14Heuristic.v (over Model/Cvxpy.v's prepare_heuristic / heuristic). *)
From Coq Require Import List String Reals Qreals Lra Lia.
From PV Require Import Model.Dict Model.Terms Model.Sent Model.Cvxpy Spec.GramSem Spec.KKT
     Gen.PostSolve Proofs.C14Run Proofs.C14PostSolve Proofs.C14Heuristic Proofs.C14Examples.
From PV Require Import Model.EntryPlan Gen.Entry.
Import ListNotations.

(** For EVERY configuration (any heuristic string or None, any number of logdet iterations, any return
    mode, any answer of the solver): either nothing touched the duals (early return of an unbounded first
    solve / nothing reached), or assign_dual_values was called exactly once, reading the FIRST solve, before
    every prepare_heuristic / heuristic event; and a returned value is either that early None or, in dual
    mode, check_feasibility's reconstruction from the duals of solve 1. *)
Theorem C14_cert_unchanged :
  forall c : cfg,
    let s := exec c post_solve init in
    trace_ok (trace s)
    /\ forall v, out s = Returned v ->
         v = VNone \/ (assigned_once_first (trace s) /\ (c_mode c = "dual"%string -> v = VDualObjective (Some (Some 1%nat)))).
Proof. apply well_ordered_sound. exact (proj2 (proj2 check_rejects)). Qed.

(** the same for every program that passes the syntactic check (the generated one does, by computation) *)
Theorem C14_check_sound :
  forall p : list top, well_ordered p = true ->
  forall c : cfg,
    let s := exec c p init in
    trace_ok (trace s)
    /\ forall v, out s = Returned v ->
         v = VNone \/ (assigned_once_first (trace s) /\ (c_mode c = "dual"%string -> v = VDualObjective (Some (Some 1%nat)))).
Proof. exact well_ordered_sound. Qed.

(** the heuristic problem: objective replaced by Minimize <W,G>, constraint list = original + one row *)
Theorem C14_heuristic_problem :
  forall obj l wc tol W,
    let w := heuristic (prepare_heuristic (generate_problem obj l) wc tol) W in
    p_obj (w_prob w) = OMinW W
    /\ p_rows (w_prob w) = emit l ++ [RObjGe obj (wc - tol)%Q]
    /\ List.length (p_rows (w_prob w)) = S (List.length (p_rows (w_prob (generate_problem obj l)))).
Proof. intros obj l wc tol W. cbn. split; [reflexivity|]. split; [reflexivity|]. rewrite app_length. cbn. lia. Qed.

(** feasible set of the heuristic problem = feas(original) cut by objective >= wc - tol; hence the returned
    instance satisfies every constraint of the declared model and its objective is >= wc - tol *)
Theorem C14_feasible_subset :
  forall np obj l wc tol W G F M,
    rows_feasible np (p_rows (w_prob (heuristic (prepare_heuristic (generate_problem obj l) wc tol) W))) G F M
    <-> (rows_feasible np (emit l) G F M /\ (Q2R wc - Q2R tol <= evalGF G F obj)%R).
Proof. exact feasible_subset. Qed.

Theorem C14_instance_satisfies_declared_model :
  forall np obj l wc tol W G F M,
    Forall square_item l ->
    rows_feasible np (p_rows (w_prob (heuristic (prepare_heuristic (generate_problem obj l) wc tol) W))) G F M ->
    feasible np l G F /\ (Q2R wc - Q2R tol <= evalGF G F obj)%R.
Proof.
  intros np obj l wc tol W G F M Hsq H. apply feasible_subset in H as [H1 H2]. split; [|exact H2].
  exact (emitted_feasible_is_feasible np l G F M Hsq H1).
Qed.

(** for tol >= 0 the first optimum is feasible for the heuristic problem, so a minimiser of <W,G> over it
    (solver optimality of the second solve: explicit hypothesis) has <W,G2> <= <W,G1>; W = identity: the trace *)
Theorem C14_trace :
  forall np obj l wc tol W G1 F1 M1 G2 F2 M2,
    (0 <= tol)%Q ->
    rows_feasible np (emit l) G1 F1 M1 -> evalGF G1 F1 obj = Q2R wc ->
    (let rows2 := p_rows (w_prob (heuristic (prepare_heuristic (generate_problem obj l) wc tol) W)) in
     rows_feasible np rows2 G2 F2 M2
     /\ forall G F M, rows_feasible np rows2 G F M -> (hvalue W G2 <= hvalue W G)%R) ->
    (hvalue W G2 <= hvalue W G1)%R.
Proof.
  intros np obj l wc tol W G1 F1 M1 G2 F2 M2 Htol H1 Hobj [_ Hopt]. apply (Hopt G1 F1 M1).
  apply feasible_subset. split; [exact H1|].
  rewrite Hobj. apply Qle_Rle in Htol. rewrite RMicromega.Q2R_0 in Htol. lra.
Qed.

(** "trace" selects the trace branch, "logdet"++digits the loop over int(digits) iterations (digits =
    everything after the 6th character), any other string the ValueError *)
Theorem C14_options :
  exists branches orelse,
    dispatch_of post_solve = Some (branches, orelse)
    /\ select branches orelse "trace"
       = [L1 (AHeuristic WIdentity); L1 ASolve; L1 AGetPrimal; L1 AEig]
    /\ (forall ds, select branches orelse ("logdet" ++ ds)%string
                   = [L1Loop 6 [AComputeW; AHeuristic WVar; ASolve; AGetPrimal; AEig]])
    /\ (forall ds, substring 6 (String.length ("logdet" ++ ds)%string - 6) ("logdet" ++ ds)%string = ds)
    /\ (forall s, String.eqb s "trace" = false -> prefix "logdet" s = false ->
                  select branches orelse s = [L1 ARaiseValueError]).
Proof. exact options. Qed.

Theorem C14_options_else_raises :
  forall s mode int, s <> ""%string -> String.eqb s "trace" = false -> prefix "logdet" s = false ->
    out (exec (cfg_of (Some s) mode int) post_solve init) = RaisedValueError.
Proof.
  intros s mode int Hne H1 H2.
  assert (Ht : truthy (cfg_of (Some s) mode int) = true).
  { unfold truthy, cfg_of. cbn. destruct (String.eqb_spec s ""); [contradiction|reflexivity]. }
  unfold post_solve, exec. cbn [fold_left exec_top]. rewrite Ht.
  cbn [exec_l2s fold_left exec_l2 hstring cfg_of c_h select test_holds]. rewrite H1, H2. reflexivity.
Qed.

Theorem C14_options_none_skips :
  forall h mode int, (h = None \/ h = Some ""%string) ->
    let s := exec (cfg_of h mode int) post_solve init in
    n_solves s = 1%nat /\ forallb (fun e => negb (is_heur e)) (trace s) = true.
Proof.
  intros h mode int Hh.
  assert (Ht : truthy (cfg_of h mode int) = false) by (destruct Hh as [->| ->]; reflexivity).
  unfold post_solve, exec. cbn [fold_left exec_top]. rewrite Ht.
  rewrite (proj1 (return_switch_keeps _ _ _)), (proj2 (return_switch_keeps _ _ _)).
  split; reflexivity.
Qed.

(** Non-vacuity: complete runs ("trace": 2 solves, duals of solve 1; "logdet2": 3 solves; primal mode; bad
    options; unbounded first solve), and two programs the check rejects (duals assigned after the heuristic
    block - which indeed returns the reconstruction from solve 2 -, wc_value returned in dual mode). *)
Example C14_example_runs :
  (let s := exec (cfg_of (Some "trace"%string) "dual" int2) post_solve init in
   out s = Returned (VDualObjective (Some (Some 1%nat))) /\ n_solves s = 2%nat)
  /\ (let s := exec (cfg_of (Some "logdet2"%string) "dual" int2) post_solve init in
      out s = Returned (VDualObjective (Some (Some 1%nat))) /\ n_solves s = 3%nat)
  /\ out (exec (cfg_of (Some "trace"%string) "primal" int2) post_solve init) = Returned (VWc 2)
  /\ out (exec (cfg_of (Some "logdetx"%string) "dual" int2) post_solve init) = RaisedValueError
  /\ well_ordered moved_assign = false /\ well_ordered returns_wc = false
  /\ out (exec (cfg_of (Some "trace"%string) "dual" int2) moved_assign init) = Returned (VDualObjective (Some (Some 2%nat))).
Proof.
  split; [split; apply run_trace|]. split; [split; apply run_logdet2|]. split; [apply run_primal_mode|].
  split; [apply run_bad_option|]. split; [apply check_rejects|]. split; [apply check_rejects|].
  apply moved_assign_reads_second_solve.
Qed.

(** The public entry point.  PEP.solve -- REGENERATED from pep.py on every run (translator/tr_entry.py, fail-closed) -- only
    selects the back-end (lower-cased name; fall-back to cvxpy when the package or its licence is missing), stores it, and
    calls _solve_with_wrapper ONCE, handing over every option under its own name, unchanged, together with **kwargs; both
    signatures declare the same constant defaults.  Hence the tolerance, the regularisation, the heuristic string and the return mode that the post-solve program (Gen/PostSolve.v) dispatches on are the values the caller passed, or the documented constant defaults. *)
Theorem C14_options_travel_unchanged :
  entry_ok entry_plan forwarded solve_defaults inner_defaults = true.
Proof. vm_compute. reflexivity. Qed.

Print Assumptions C14_cert_unchanged.
Print Assumptions C14_check_sound.
Print Assumptions C14_heuristic_problem.
Print Assumptions C14_feasible_subset.
Print Assumptions C14_instance_satisfies_declared_model.
Print Assumptions C14_trace.
Print Assumptions C14_options.
Print Assumptions C14_options_else_raises.
Print Assumptions C14_options_none_skips.
Print Assumptions C14_options_travel_unchanged.
