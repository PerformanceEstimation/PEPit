(** C16 — no number without a solution: failures are reported, not fabricated.
    The property theorems, proved from the lemmas of Proofs/C16Accessors.v.  The accessor shapes [h_Point_eval],
    [h_Expression_eval], [h_Constraint_eval], [h_PSDMatrix_eval], [h_Constraint_eval_dual],
    [h_PSDMatrix_eval_dual], the plan [post_solve_plan], [value_writers], [writer_callers], [opt_return],
    [opt_heuristic], [handlers] and [step_option_dispatches] (Gen/Handlers.v) are regenerated from PEPit's sources on every check. *)
From Coq Require Import List String Bool.
From PV Require Import Model.Accessors Gen.Handlers Proofs.C16Accessors.
From PV Require Import Model.EntryPlan Gen.Entry.
Import ListNotations.
Open Scope string_scope.

(** the accessors of the six DSL classes, with the control structure read from the sources *)
Definition point_eval (dim : nat) := eval_point h_Point_eval dim.
Definition expression_eval (dim : nat) := eval_expr h_Point_eval h_Expression_eval dim.
Definition constraint_eval (dim : nat) := eval_constraint h_Point_eval h_Expression_eval h_Constraint_eval dim.
Definition psd_eval (dim : nat) := eval_psd h_Point_eval h_Expression_eval h_PSDMatrix_eval dim.
Definition constraint_eval_dual := eval_dual_constraint h_Constraint_eval_dual.
Definition psd_eval_dual := eval_dual_psd h_PSDMatrix_eval_dual.

(** the six shapes read from the sources honour the contract *)
Lemma shapes_ok :
  point_shape_ok h_Point_eval = true /\ expr_shape_ok h_Expression_eval = true
  /\ try_shape_ok h_Constraint_eval = true /\ try_shape_ok h_PSDMatrix_eval = true
  /\ dual_shape_ok h_Constraint_eval_dual = true /\ dual_shape_ok h_PSDMatrix_eval_dual = true.
Proof. repeat split. Qed.

(** Unsolved objects raise ValueError -- never another class, never a number.
    For every point (leaf, or combination of points of ANY depth), every expression / constraint / LMI the
    API can build (keys: leaf expressions, pairs of leaf points, constants), whatever [Point.counter] is:
    if evaluation reaches a leaf that has no value before a cache answers ([pending_*]; in particular: no
    solve has succeeded since the object's leaves were created), the primal accessor raises ValueError; a
    constraint / LMI without dual value raises ValueError from eval_dual. *)
Theorem C16_unsolved :
  forall dim : nat,
    (forall p, pending_p p = true -> point_eval dim p = Raise ValueError)
    /\ (forall e, wf_e e = true -> pending_e e = true -> expression_eval dim e = Raise ValueError)
    /\ (forall c, c_cached c = false -> wf_e (c_expr c) = true -> pending_e (c_expr c) = true ->
                  constraint_eval dim c = Raise ValueError)
    /\ (forall m, m_cached m = false -> forallb (forallb wf_e) (m_entries m) = true ->
                  existsb (existsb pending_e) (m_entries m) = true -> psd_eval dim m = Raise ValueError)
    /\ (forall c, c_dual c = false -> constraint_eval_dual c = Raise ValueError)
    /\ (forall m, m_dual m = false -> psd_eval_dual m = Raise ValueError).
Proof.
  intro dim. destruct shapes_ok as [Hp [He [Hc [Hm [Hcd Hmd]]]]].
  split; [exact (point_pending _ dim Hp)|].
  split; [exact (expr_pending _ _ dim Hp He)|].
  split; [intros c; exact (constraint_pending _ _ _ dim Hp He c Hc)|].
  split; [intros m; exact (psd_pending _ _ _ dim Hp He m Hm)|].
  split.
  - intros c H. unfold constraint_eval_dual, eval_dual_constraint. rewrite H. now apply dual_unsolved.
  - intros m H. unfold psd_eval_dual, eval_dual_psd. rewrite H. now apply dual_unsolved.
Qed.

(** The accessors never raise anything but ValueError on such objects even when SOME leaves have values
    (a partially valued object): points raise only ValueError; well-formed expressions return a value or
    raise ValueError. *)
Theorem C16_only_value_error :
  forall dim : nat,
    (forall p e, point_eval dim p = Raise e -> e = ValueError)
    /\ (forall x e, wf_e x = true -> expression_eval dim x = Raise e -> e = ValueError).
Proof.
  intro dim. destruct shapes_ok as [Hp [He _]]. split.
  - intros p e H. pose proof (point_contract _ dim Hp p) as C. unfold point_eval in H. rewrite H in C. exact C.
  - intros x e Hw H. pose proof (expr_contract _ _ dim Hp He x Hw) as C. unfold expression_eval in H.
    rewrite H in C. exact C.
Qed.

(** The same theorem for ANY accessor code of the three shapes whose unsolved branch raises ValueError and
    whose [except] matcher is a class (or tuple of classes, or bare) that catches ValueError. *)
Theorem C16_unsolved_generic :
  forall shp she shc shm dim,
    point_shape_ok shp = true -> expr_shape_ok she = true -> try_shape_ok shc = true -> try_shape_ok shm = true ->
    (forall c, c_cached c = false -> wf_e (c_expr c) = true -> pending_e (c_expr c) = true ->
               eval_constraint shp she shc dim c = Raise ValueError)
    /\ (forall m, m_cached m = false -> forallb (forallb wf_e) (m_entries m) = true ->
                  existsb (existsb pending_e) (m_entries m) = true -> eval_psd shp she shm dim m = Raise ValueError).
Proof.
  intros shp she shc shm dim Hp He Hc Hm. split.
  - intros c. exact (constraint_pending _ _ _ dim Hp He c Hc).
  - intros m. exact (psd_pending _ _ _ dim Hp He m Hm).
Qed.

(** What the model says about the code before commit 8173fdc ([except ValueError("..."):], an instance as
    matcher): Constraint.eval on an unsolved constraint raises TypeError, not the documented ValueError. *)
Theorem C16_instance_matcher_raises_TypeError :
  forall dim c k r,
    c_cached c = false -> wf_e (c_expr c) = true -> pending_e (c_expr c) = true ->
    eval_constraint h_Point_eval h_Expression_eval (ATryInner (MInstance k) r) dim c = Raise TypeError.
Proof.
  intros dim c k r. destruct shapes_ok as [Hp [He _]].
  exact (constraint_instance_matcher _ _ dim Hp He c k r).
Qed.

(** Behaviour, not a violation: an object that mentions no leaf at all (a constant expression, x - x) has
    a value in every state -- its constant -- whether or not anything was solved. *)
Theorem C16_constant_only_has_value :
  forall dim e, const_only e = true -> expression_eval dim e = Value VNum.
Proof. intros dim e. destruct shapes_ok as [Hp [He _]]. exact (const_only_value _ _ dim He e). Qed.

(** Every eval / eval_dual method that exists in PEPit is one of the six modelled ones. *)
Theorem C16_accessors_complete :
  map (fun t => fst t) handlers =
  [("Constraint", "eval"); ("Constraint", "eval_dual"); ("Expression", "eval"); ("Point", "eval");
   ("PSDMatrix", "eval"); ("PSDMatrix", "eval_dual")].
Proof. reflexivity. Qed.

(** No value, no assignment.  In _solve_with_wrapper the test [if wc_value is None: return wc_value] comes
    right after the solver call (only prints in between): when the wrapper reports no value, solve returns
    None and neither duals nor primal values are assigned.  Values, duals and LMI entry duals
    ([_value], [_dual_variable_value], [entries_dual_variable_value]) of DSL objects are assigned by four
    functions only; every call of one of them sits in _solve_with_wrapper (after the guard) or in
    Wrapper.assign_dual_values, itself one of the four. *)
Theorem C16_none :
  run_plan post_solve_plan None = {| returned := Some None ; writes := [] |}
  /\ value_writers = [("pep.py", "PEP._eval_points_and_function_values"); ("wrapper.py", "Wrapper.assign_dual_values");
                      ("wrappers/cvxpy_wrapper.py", "CvxpyWrapper._recover_dual_values");
                      ("wrappers/mosek_wrapper.py", "MosekWrapper._recover_dual_values")]
  /\ forallb writer_call_ok writer_callers = true.
Proof. split; [apply run_plan_guard; reflexivity|]. split; [reflexivity|vm_compute; reflexivity]. Qed.

Theorem C16_none_generic :
  forall plan, guard_first plan = true -> run_plan plan None = {| returned := Some None ; writes := [] |}.
Proof. exact run_plan_guard. Qed.

(** Invalid option strings: anything but "dual"/"primal", resp. "trace"/"logdet..." ends in
    [raise ValueError]. *)
Theorem C16_options :
  (forall v, v <> "dual" -> v <> "primal" -> check_option opt_return v = Raise ValueError)
  /\ (forall v, existsb (String.eqb v) (accepted opt_heuristic) = false ->
                existsb (fun p => String.prefix p v) (prefixes opt_heuristic) = false ->
                check_option opt_heuristic v = Raise ValueError).
Proof.
  split.
  - intros v Hd Hp. apply (check_option_rejects opt_return); [|reflexivity]. cbn.
    destruct (String.eqb_spec v "dual"); [contradiction|]. destruct (String.eqb_spec v "primal"); [contradiction|].
    reflexivity.
  - intros v Ha Hp. now apply (check_option_rejects opt_heuristic).
Qed.

(** Option strings of the primitive steps ([inexact_gradient_step(notion=)], [inexact_proximal_step(opt=)]):
    the dispatch `if p == "a": .. elif .. else: raise ValueError` is a top-level statement of the step, its
    else branch raises ValueError, and NO `return` precedes it in the function -- so no path accepts an
    invalid literal; these are the only `raise ValueError` sites of PEPit/primitive_steps. *)
Theorem C16_step_options :
  map (fun d => snd (fst d)) step_option_dispatches = ["inexact_gradient_step:notion"; "inexact_proximal_step:opt"]
  /\ forallb step_dispatch_ok step_option_dispatches = true
  /\ (forall d v, In d step_option_dispatches ->
                  existsb (String.eqb v) (accepted (snd d)) = false -> check_option (snd d) v = Raise ValueError).
Proof.
  assert (H2 : forallb step_dispatch_ok step_option_dispatches = true) by (vm_compute; reflexivity).
  split; [reflexivity|]. split; [exact H2|].
  intros d v Hin Ha. rewrite forallb_forall in H2. specialize (H2 d Hin). unfold step_dispatch_ok in H2.
  apply andb_true_iff in H2. destruct H2 as [He _]. apply exn_eqb_eq in He. rewrite <- He.
  apply check_option_rejects; [exact Ha|].
  assert (Hp : forallb (fun d => match prefixes (snd d) with [] => true | _ => false end) step_option_dispatches = true)
    by (vm_compute; reflexivity).
  rewrite forallb_forall in Hp. specialize (Hp d Hin). destruct (prefixes (snd d)); [reflexivity|discriminate].
Qed.

(** Non-vacuity.  (x0 - xs)^2 <= 1 with unvalued leaves raises ValueError from every accessor; with valued
    leaves it has a value; a successful solve assigns duals then values and returns a number; invalid
    options are rejected, valid ones accepted. *)
Example C16_example :
  let x0 := PLeaf None in let xs := PLeaf None in
  let d := PLin None [x0; PLin None [xs]] in
  let e := ELin false [TInner x0 x0; TInner x0 xs; TInner xs x0; TInner xs xs; TConst] in
  let c := {| c_cached := false ; c_dual := false ; c_expr := e |} in
  let m := {| m_cached := false ; m_dual := false ; m_entries := [[e; ELin false [TConst]]; [ELin false [TConst]; ELeaf false]] |} in
  let ev := ELin false [TInner (PLeaf (Some 2)) (PLeaf (Some 2)); TExpr (ELeaf true); TConst] in
  pending_p d = true /\ point_eval 2 d = Raise ValueError
  /\ wf_e e = true /\ pending_e e = true /\ expression_eval 2 e = Raise ValueError
  /\ constraint_eval 2 c = Raise ValueError /\ constraint_eval_dual c = Raise ValueError
  /\ psd_eval 2 m = Raise ValueError /\ psd_eval_dual m = Raise ValueError
  /\ expression_eval 2 ev = Value VNum
  /\ point_eval 2 (PLin None [PLeaf (Some 2); PLeaf (Some 2)]) = Value (VVec 2)
  /\ run_plan post_solve_plan (Some tt) = {| returned := Some (Some tt) ; writes := [GotDuals; GotValues] |}
  /\ check_option opt_return "both" = Raise ValueError /\ check_option opt_return "primal" = Value VNum
  /\ check_option opt_heuristic "rank" = Raise ValueError /\ check_option opt_heuristic "logdet3" = Value VNum.
Proof. cbv zeta. vm_compute. tauto. Qed.

(** The public entry point.  PEP.solve -- REGENERATED from pep.py on every run (translator/tr_entry.py, fail-closed) -- only
    selects the back-end (lower-cased name; fall-back to cvxpy when the package or its licence is missing), stores it, and
    calls _solve_with_wrapper ONCE, handing over every option under its own name, unchanged, together with **kwargs; both
    signatures declare the same constant defaults.  Hence the option strings checked by the dispatches of _solve_with_wrapper (C16_options) are exactly the caller's: no normalisation, truncation or defaulting happens on the way, and an unknown back-end name can only fall back to cvxpy. *)
Theorem C16_options_reach_dispatch :
  entry_ok entry_plan forwarded solve_defaults inner_defaults = true.
Proof. vm_compute. reflexivity. Qed.

Print Assumptions C16_unsolved.
Print Assumptions C16_only_value_error.
Print Assumptions C16_unsolved_generic.
Print Assumptions C16_instance_matcher_raises_TypeError.
Print Assumptions C16_constant_only_has_value.
Print Assumptions C16_accessors_complete.
Print Assumptions C16_none.
Print Assumptions C16_none_generic.
Print Assumptions C16_options.
Print Assumptions C16_step_options.
Print Assumptions C16_options_reach_dispatch.
