(** C17 — dual tables report each multiplier at the pair of points it belongs to.
    The lemmas about the generators and the tables are in Proofs/ClassGenLemmas.v and Proofs/C17Lemmas.v.

    Model: a table cell holds the scalar 0 ([None]) or a Constraint *object*; an object is identified by its
    position in list_of_class_constraints ([Some (p, c)]).  [duals_table dual t] is
    get_class_constraints_duals() for one table, [dual p] being the multiplier of the p-th class constraint.
    [C17_named_tabulated]: no class constraint is left unnamed or outside the tables (F-C17b was repaired in
    /repo 763e32e). *)
From Coq Require Import List QArith String.
From PV Require Import Model.Dict Model.Terms Model.ClassGen Model.ClassDump Proofs.ClassGenLemmas Proofs.C17Lemmas.
From PV Require Import Gen.Classes.
Import ListNotations.
Local Open Scope nat_scope.

(** After set_class_constraints(), for every plan (every class): each cell of each table of
    tables_of_constraints that holds an object holds the object at the recorded position of
    list_of_class_constraints. *)
Theorem C17_tables_hold_objects :
  forall plan st t, In t (g_tables (run_plan plan st)) ->
    forall i j p c, table_cell t i j = Some (Some (p, c)) -> nth_error (g_cons (run_plan plan st)) p = Some c.
Proof. exact run_plan_tables_ok. Qed.

(** Pair conditions (add_constraints_from_two_lists_of_points), for all lists of all lengths: one table under the
    condition name, of shape |list1| x |list2| with the point names as labels; cell (i, j) holds the constraint
    generated for that ordered pair -- the very object of list_of_class_constraints -- exactly when the pair is
    selected, the scalar 0 otherwise; the dual table reports at (i, j) that constraint's multiplier, 0 otherwise. *)
Theorem C17_pairs_table :
  forall plan st pre it post l1 l2 cname f sym,
    plan = pre ++ it :: post ->
    let s1 := g_state (run_plan pre st) in
    item_core s1 it = Some (Pairs l1 l2 cname f sym) ->
    get_list s1 l1 <> [] ->
    exists t, In t (g_tables (run_plan plan st)) /\ t_name t = cname /\
      t_index t = labels (get_list s1 l1) /\ t_columns t = labels (get_list s1 l2) /\
      List.length (t_rows t) = List.length (get_list s1 l1) /\
      (forall i row, nth_error (t_rows t) i = Some row -> List.length row = List.length (get_list s1 l2)) /\
      forall i j si sj, nth_error (get_list s1 l1) i = Some si -> nth_error (get_list s1 l2) j = Some sj ->
        forall dual,
        if skip_pair sym i j si sj
        then table_cell t i j = Some None /\ cell (duals_table dual t) i j = Some 0%Q
        else exists p, let c := mkC (Some (pair_name s1 cname si sj i j)) (inst s1 f si sj) in
               table_cell t i j = Some (Some (p, c)) /\ nth_error (g_cons (run_plan plan st)) p = Some c /\
               cell (duals_table dual t) i j = Some (dual p).
Proof.
  intros plan st pre it post l1 l2 cname f sym Hplan s1 Hcore Hne.
  set (off := List.length (g_cons (run_plan pre st))).
  set (rows := gen_pairs s1 (get_list s1 l1) (get_list s1 l2) cname f sym).
  set (t := mkT cname (number_rows off rows) (labels (get_list s1 l1)) (labels (get_list s1 l2)) ("IC_" ++ f_id s1)).
  assert (Hin : In t (item_tables s1 off (Pairs l1 l2 cname f sym))).
  { cbn [item_tables]. destruct (get_list s1 l1); [congruence|left; reflexivity]. }
  destruct (plan_core_tables plan st pre it post _ t Hplan Hcore Hin) as [Hg Hok].
  exists t. split; [exact Hg|]. do 3 (split; [reflexivity|]). unfold t. cbn [t_rows]. split; [|split].
  - rewrite number_rows_length. apply gen_pairs_shape.
  - intros i row Hr. apply number_rows_row, nth_error_In, gen_pairs_shape in Hr. rewrite map_length in Hr. exact Hr.
  - intros i j si sj Hi Hj dual. pose proof (number_rows_cell rows off i j) as Hc.
    unfold rows in Hc at 2. rewrite (gen_pairs_cell _ _ _ _ _ _ i j si sj Hi Hj) in Hc.
    pose proof (table_cell_reports _ dual t i j _ Hok Hc) as Hrep. destruct (skip_pair sym i j si sj); exact Hrep.
Qed.

(** One-point conditions: a 1 x n table. *)
Theorem C17_singles_table :
  forall plan st pre it post l cname f,
    plan = pre ++ it :: post ->
    let s1 := g_state (run_plan pre st) in
    item_core s1 it = Some (Singles l cname f) ->
    exists t, In t (g_tables (run_plan plan st)) /\ t_name t = cname /\
      t_columns t = labels (get_list s1 l) /\ List.length (t_rows t) = 1 /\
      (forall row, nth_error (t_rows t) 0 = Some row -> List.length row = List.length (get_list s1 l)) /\
      forall i si, nth_error (get_list s1 l) i = Some si -> forall dual,
        exists p, let c := mkC (Some (single_name s1 cname si i)) (inst s1 f si si) in
          table_cell t 0 i = Some (Some (p, c)) /\ nth_error (g_cons (run_plan plan st)) p = Some c /\
          cell (duals_table dual t) 0 i = Some (dual p).
Proof.
  intros plan st pre it post l cname f Hplan s1 Hcore.
  set (off := List.length (g_cons (run_plan pre st))).
  set (rows := [map Some (gen_singles s1 (get_list s1 l) cname f)]).
  set (t := mkT cname (number_rows off rows) ["0"%string] (labels (get_list s1 l)) ("IC_" ++ f_id s1)).
  destruct (plan_core_tables plan st pre it post _ t Hplan Hcore (or_introl eq_refl)) as [Hg Hok].
  exists t. split; [exact Hg|]. do 2 (split; [reflexivity|]). unfold t. cbn [t_rows]. split; [|split].
  - apply number_rows_length.
  - intros row Hr. apply number_rows_row in Hr. injection Hr as Hr. apply (f_equal (@List.length _)) in Hr.
    rewrite !map_length in Hr. rewrite <- Hr. apply gen_singles_length.
  - intros i si Hi dual. pose proof (number_rows_cell rows off 0 i) as Hc.
    unfold rows in Hc at 2. rewrite (gen_singles_cell _ _ _ _ i si Hi) in Hc. exact (table_cell_reports _ dual t 0 i _ Hok Hc).
Qed.

(** BlockSmoothConvexFunction: one n x n table per block k. *)
Theorem C17_block_tables :
  forall plan st pre it post cprefix f k,
    plan = pre ++ it :: post ->
    let s1 := g_state (run_plan pre st) in
    item_core s1 it = Some (BlockPairs cprefix f) ->
    f_points s1 <> [] -> k < f_nblocks s1 ->
    exists t, In t (g_tables (run_plan plan st)) /\ t_name t = (cprefix ++ nat_to_string k)%string /\
      t_index t = labels (f_points s1) /\ t_columns t = labels (f_points s1) /\
      List.length (t_rows t) = List.length (f_points s1) /\
      forall i j si sj, nth_error (f_points s1) i = Some si -> nth_error (f_points s1) j = Some sj ->
        forall dual,
        if same_tuple si sj
        then table_cell t i j = Some None /\ cell (duals_table dual t) i j = Some 0%Q
        else exists p, let c := mkC (Some (block_name s1 cprefix k si sj i j)) (instB s1 f k si sj) in
               table_cell t i j = Some (Some (p, c)) /\ nth_error (g_cons (run_plan plan st)) p = Some c /\
               cell (duals_table dual t) i j = Some (dual p).
Proof.
  intros plan st pre it post cprefix f k Hplan s1 Hcore Hne Hk.
  set (t := block_table s1 cprefix f (f_points s1) (List.length (g_cons (run_plan pre st))) k).
  destruct (plan_core_tables plan st pre it post _ t Hplan Hcore (block_item_tables_in _ _ _ _ _ Hne Hk))
    as [Hg Hok].
  exists t. split; [exact Hg|]. do 3 (split; [reflexivity|]). split.
  - unfold t, block_table, block_grid. cbn [t_rows]. rewrite map_length, number_rows_length, map_length.
    apply enumerate_length.
  - intros i j si sj Hi Hj dual.
    pose proof (table_cell_reports _ dual t i j _ Hok (block_table_cell _ _ _ _ _ _ i j si sj Hi Hj)) as Hrep.
    destruct (same_tuple si sj); exact Hrep.
Qed.

(** get_class_constraints_duals(): same shape as the table of constraints; each cell is the multiplier of the
    object in the corresponding cell, 0 for the scalar 0.  [dual] is an ARBITRARY assignment of rationals to the
    class constraints -- negative values included (equality conditions have sign-free multipliers, solvers return
    slightly negative ones for inactive inequalities): the accessor is the identity on what is stored, it neither
    clips nor rounds.  The same quantification over [dual] holds in [C17_pairs_table], [C17_singles_table],
    [C17_block_tables]. *)
Theorem C17_duals_cell :
  forall dual t i j,
    cell (duals_table dual t) i j
    = option_map (fun o => match o with Some (p, _) => dual p | None => 0%Q end) (table_cell t i j).
Proof. exact duals_table_cell. Qed.

Theorem C17_duals_shape :
  forall dual t,
    List.length (duals_table dual t) = List.length (t_rows t) /\
    forall i, option_map (@List.length Q) (nth_error (duals_table dual t) i)
              = option_map (@List.length _) (nth_error (t_rows t) i).
Proof.
  intros dual t. unfold duals_table. split; [apply map_length|]. intros i. rewrite nth_error_map.
  destruct (nth_error (t_rows t) i); cbn; [rewrite map_length|]; reflexivity.
Qed.

(** For every shipped class the condition names are pairwise distinct, so the dictionary
    tables_of_constraints keeps every table and a lookup by condition name returns it. *)
Theorem C17_table_lookup :
  forall name plan st t,
    In (name, plan) all_plans -> In t (g_tables (run_plan plan st)) ->
    tables_dict (g_tables (run_plan plan st)) = g_tables (run_plan plan st) /\
    table_get (t_name t) (tables_dict (g_tables (run_plan plan st))) = Some t.
Proof.
  intros name plan st t Hin Ht.
  assert (Hnd : NoDup (map t_name (g_tables (run_plan plan st)))).
  { apply plan_names_nodup. exact (proj1 (forallb_forall _ _) all_plans_names_ok _ Hin). }
  rewrite (tables_dict_nodup _ Hnd). split; [reflexivity|]. apply table_get_in; assumption.
Qed.

(** Names: "IC_<function id>_<condition>(<xi>, <xj>)"; within one function and condition the name determines
    the pair (i, j) of unnamed samples (decimal printing of indices is injective) ... *)
Theorem C17_pair_name_inj :
  forall st cname si sj i j si' sj' i' j',
    s_name si = None -> s_name sj = None -> s_name si' = None -> s_name sj' = None ->
    pair_name st cname si sj i j = pair_name st cname si' sj' i' j' -> i = i' /\ j = j'.
Proof.
  intros st cname si sj i j si' sj' i' j' H1 H2 H3 H4 H. unfold pair_name in H. do 5 apply append_inj_l in H.
  exact (point_pair_inj _ _ _ _ _ _ _ _ H1 H2 H3 H4 H).
Qed.

Theorem C17_single_name_inj :
  forall st cname si i si' i',
    s_name si = None -> s_name si' = None -> single_name st cname si i = single_name st cname si' i' -> i = i'.
Proof.
  intros st cname si i si' i' H1 H2 H. unfold single_name in H. do 5 apply append_inj_l in H.
  exact (point_single_inj si i si' i' H1 H2 H).
Qed.

Theorem C17_block_name_inj :
  forall st cprefix k si sj i j si' sj' i' j',
    s_name si = None -> s_name sj = None -> s_name si' = None -> s_name sj' = None ->
    block_name st cprefix k si sj i j = block_name st cprefix k si' sj' i' j' -> i = i' /\ j = j'.
Proof.
  intros st cprefix k si sj i j si' sj' i' j' H1 H2 H3 H4 H.
  exact (proj2 (block_name_inj st cprefix k si sj i j k si' sj' i' j' H1 H2 H3 H4 H)).
Qed.

Theorem C17_nat_to_string_inj : forall n m, nat_to_string n = nat_to_string m -> n = m.
Proof. exact nat_to_string_inj. Qed.

(** ... and carries the function id and the condition name. *)
Theorem C17_pair_name_prefix :
  forall st cname si sj i j,
    exists rest, pair_name st cname si sj i j = ("IC_" ++ f_id st ++ "_" ++ cname ++ "(" ++ rest)%string.
Proof. intros. eexists. reflexivity. Qed.

Theorem C17_single_name_prefix :
  forall st cname si i,
    exists rest, single_name st cname si i = ("IC_" ++ f_id st ++ "_" ++ cname ++ "(" ++ rest)%string.
Proof. intros. eexists. reflexivity. Qed.

Theorem C17_block_name_prefix :
  forall st cprefix k si sj i j,
    exists rest, block_name st cprefix k si sj i j
                 = ("IC_" ++ f_id st ++ "_" ++ (cprefix ++ nat_to_string k) ++ "(" ++ rest)%string.
Proof. intros. eexists. unfold block_name. rewrite append_assoc. reflexivity. Qed.

(** Every class constraint generated by any plan (so by every shipped class, LinearOperator's adjoint equalities
    included since /repo 763e32e) carries a name and is the object held by some cell of some table of
    tables_of_constraints, at its own position of list_of_class_constraints. *)
Theorem C17_named_tabulated :
  forall plan st c,
    In c (g_cons (run_plan plan st)) ->
    (exists nm, c_name c = Some nm) /\
    exists t i j p, In t (g_tables (run_plan plan st)) /\ table_cell t i j = Some (Some (p, c)) /\
                    nth_error (g_cons (run_plan plan st)) p = Some c.
Proof.
  intros plan st c Hc. apply run_plan_items_spec in Hc as (pre & it & post & Heq & Hsrc).
  destruct (item_src_tabulated _ (List.length (g_cons (run_plan pre st))) it c Hsrc)
    as [Hnm (t & i & j & Hin & Hcell)].
  split; [exact Hnm|]. destruct (plan_item_tables plan st pre it post t Heq Hin) as [Hg Hok].
  apply cell_object in Hcell as [p Hp]. exists t, i, j, p. split; [exact Hg|]. split; [exact Hp|exact (Hok i j p c Hp)].
Qed.

(** regression for the repaired F-C17b: one sample of a LinearOperator and one of its transpose *)
Example C17_linear_adjoint_regression :
  map c_name (g_cons (run_plan plan_LinearOperator lin_witness)) = [Some "IC_Function_0_adjoint(Point_0, Point_0)"%string] /\
  map t_name (g_tables (run_plan plan_LinearOperator lin_witness)) = ["adjoint"%string] /\
  map (duals_table (fun p => inject_Z (Z.of_nat p + 7))) (g_tables (run_plan plan_LinearOperator lin_witness))
  = [[[7%Q]]].
Proof. repeat split; vm_compute; reflexivity. Qed.

(** * non-vacuity: a convex function with three unnamed samples; the 3 x 3 table has 0 on the diagonal and the
    six constraints, in row-major order, elsewhere; the dual table reads the (signed) tags back *)
Definition ex_s (k : nat) : sample :=
  mkSample [(k, 1%Q)] [((k + 3)%nat, 1%Q)] [(KF k, 1%Q)] None k (10 + k) (20 + k) [].
Definition ex_state : fstate :=
  mkF "f" (fun _ => 1%Q) (fun _ => false) [ex_s 0; ex_s 1; ex_s 2] [] [] None 6 3 30 0 (fun _ => 0%Q).

(** (a hand-written plan and formula, so that the example does not depend on the generated plans) *)
Definition ex_f : cterm := CGe (XSub (XVar 0) (XVar 1)) (XInner (PVar 3) (PSub (PVar 0) (PVar 2))).
Definition ex_plan : list plan_item := [Pairs LPoints LPoints "convexity" ex_f false].

Example C17_example :
  let out := run_plan ex_plan ex_state in
  ex_plan = [] ++ Pairs LPoints LPoints "convexity" ex_f false :: [] /\
  get_list ex_state LPoints <> [] /\
  (exists t, g_tables out = [t] /\
     duals_table Model.ClassDump.dual_tag t
     = [[0; (-1) # 4; 3 # 4]; [(-5) # 4; 0; 7 # 4]; [(-9) # 4; 11 # 4; 0]]%Q /\
     t_index t = ["Point_0"; "Point_1"; "Point_2"]%string) /\
  map c_name (g_cons out)
  = [Some "IC_f_convexity(Point_0, Point_1)"; Some "IC_f_convexity(Point_0, Point_2)";
     Some "IC_f_convexity(Point_1, Point_0)"; Some "IC_f_convexity(Point_1, Point_2)";
     Some "IC_f_convexity(Point_2, Point_0)"; Some "IC_f_convexity(Point_2, Point_1)"]%string.
Proof.
  cbv zeta. split; [reflexivity|]. split; [discriminate|]. split.
  - eexists. split; [reflexivity|]. split; vm_compute; reflexivity.
  - vm_compute. reflexivity.
Qed.

Print Assumptions C17_tables_hold_objects.
Print Assumptions C17_pairs_table.
Print Assumptions C17_singles_table.
Print Assumptions C17_block_tables.
Print Assumptions C17_duals_cell.
Print Assumptions C17_duals_shape.
Print Assumptions C17_table_lookup.
Print Assumptions C17_pair_name_inj.
Print Assumptions C17_single_name_inj.
Print Assumptions C17_block_name_inj.
Print Assumptions C17_nat_to_string_inj.
Print Assumptions C17_pair_name_prefix.
Print Assumptions C17_single_name_prefix.
Print Assumptions C17_block_name_prefix.
Print Assumptions C17_named_tabulated.
