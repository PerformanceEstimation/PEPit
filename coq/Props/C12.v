(** C12 — a model's result does not depend on what happened earlier in the process.
    The property theorems, proved from the lemmas of Proofs/C12Reset.v.  The lists [class_attrs], [mutations],
    [reset_fields], [module_objects], [module_object_writes], [module_object_uses], [opaque_writes],
    [container_writes], [init_resets_first], [statements_before_reset] (Gen/Globals.v) and [verbose_uses] (Gen/Guards.v) are regenerated from PEPit's sources on every check. *)
From Coq Require Import List String ZArith.
From PV Require Import Model.Reset Gen.Globals Gen.Guards Proofs.C12Reset.
Import ListNotations.
Open Scope string_scope.

(** The reset is total.  (1) Every counter and registry declared in any class body of PEPit is assigned by
    [PEP._reset_classes], to the value it has in a fresh interpreter (PEP.counter included).  (2) Every class
    attribute that is written anywhere in PEPit -- declared in a class body or created on the fly -- is
    assigned by it.  (3) No class state is written in a way the scan cannot attribute (cls.x, type(self).x,
    setattr, global, mutable default arguments), no module-level container is written, and
    [self._reset_classes()] is the first statement of [PEP.__init__].  (4) Consequently, after [PEP()] each
    declared counter / registry holds its fresh-interpreter value whatever the state before. *)
Theorem C12_reset_total :
  (forall c a i, In (c, a, i) class_attrs -> is_mutable i = true -> In (c, a, i) reset_fields)
  /\ (forall c a o, In (c, a, o) mutations -> exists i, In (c, a, i) reset_fields)
  /\ (opaque_writes = [] /\ container_writes = [] /\ init_resets_first = true /\ statements_before_reset = [])
  /\ (forall g c a i, In (c, a, i) class_attrs -> is_mutable i = true ->
                      reset_with (fields_of reset_fields) g (c, a) = val_of_init i).
Proof.
  assert (Hr : reset_to_initial reset_fields class_attrs = true) by (vm_compute; reflexivity).
  split; [exact (reset_to_initial_In _ _ Hr)|].
  split; [apply mutated_are_reset_In; vm_compute; reflexivity|]. split; [repeat split|].
  apply (reset_restores_initial _ _ Hr). vm_compute. reflexivity.
Qed.

(** The state machine of Model/Reset.v leaves no global out: its operations touch exactly the class
    attributes that PEPit's code writes, and all of them are declared in class bodies. *)
Theorem C12_model_covers_sources :
  covers model_keys (keys3 mutations) = true /\ covers (keys3 mutations) model_keys = true
  /\ covers (keys3 class_attrs) model_keys = true.
Proof. repeat split; vm_compute; reflexivity. Qed.

(** the generated reset assigns every attribute the operations touch *)
Lemma reset_covers : covers (map fst (fields_of reset_fields)) model_keys = true.
Proof. vm_compute. reflexivity. Qed.

(** History cannot leak through class-level state: for ALL states s, s' (whatever models were built,
    solved, failed or abandoned before) and ALL programs that start with [PEP()] and do not evaluate the
    shared [null_point], the indices handed out, the globals read by solve() and the final registries are
    the same.  [reset_fields] is the generated list of assignments of [_reset_classes]. *)
Theorem C12_noninterference :
  forall (prog : list op) (s s' : pstate),
    no_null_eval prog = true ->
    fst (run (fields_of reset_fields) (NewPEP :: prog) s) = fst (run (fields_of reset_fields) (NewPEP :: prog) s')
    /\ (forall k, In k model_keys ->
                  glob (snd (run (fields_of reset_fields) (NewPEP :: prog) s)) k
                  = glob (snd (run (fields_of reset_fields) (NewPEP :: prog) s')) k).
Proof.
  intros prog s s' Hn. destruct (noninterference _ reset_covers prog s s') as [_ [A B]]. exact (conj (A Hn) B).
Qed.

(** The outputs, for an arbitrary reset list: they do not depend on the history as soon as the reset assigns every
    attribute the operations touch (this is what a deleted line of [_reset_classes] falsifies). *)
Theorem C12_noninterference_generic :
  forall fields, covers (map fst fields) model_keys = true ->
  forall (prog : list op) (s s' : pstate),
    no_null_eval prog = true ->
    fst (run fields (NewPEP :: prog) s) = fst (run fields (NewPEP :: prog) s').
Proof. intros fields Hc prog s s'. exact (proj1 (proj2 (noninterference fields Hc prog s s'))). Qed.

(** Residual state.  The only process-global DSL objects outside the classes are the two null objects;
    they are not reset, and no function of PEPit writes to them (no attribute / dictionary write, no
    set_name, no class defines an in-place operator such as __iadd__).  The cached value of [null_point] leaks: the program
    [PEP(); Point(); null_point.eval()] yields a vector of length 1 in a fresh interpreter and of length 3
    after the history [PEP(); Point() x3; null_point.eval()]  (finding F-C12a). *)
Theorem C12_residual_is_null_objects :
  map (fun t => snd (fst t)) module_objects = ["null_expression"; "null_point"]
  /\ module_object_writes = [].
Proof. split; reflexivity. Qed.

(** ... and no function of PEPit hands a null object out: in the sources (regenerated list of every read of them inside a
    function) they only start an accumulation (`acc = null_point; acc += p`) or are an operand of + / -, which build new
    objects; none is returned, recorded in a sample, stored or passed on, so their never-reset value cache cannot become
    the value of a user-visible gradient or block. *)
Theorem C12_null_objects_do_not_escape : forallb use_ok module_object_uses = true.
Proof. reflexivity. Qed.

(** The cached value of [null_point] leaks nowhere else: for ALL programs starting with [PEP()] (null_point.eval() allowed), every
    output other than the length returned by null_point.eval() itself, and every counter / registry, is the
    same from any two states: the cache cannot reach the solver input. *)
Theorem C12_null_cache_stays_out_of_globals :
  forall (prog : list op) (s s' : pstate),
    map mask (fst (run (fields_of reset_fields) (NewPEP :: prog) s))
    = map mask (fst (run (fields_of reset_fields) (NewPEP :: prog) s'))
    /\ (forall k, In k model_keys ->
                  glob (snd (run (fields_of reset_fields) (NewPEP :: prog) s)) k
                  = glob (snd (run (fields_of reset_fields) (NewPEP :: prog) s')) k).
Proof.
  intros prog s s'. destruct (noninterference _ reset_covers prog s s') as [A [_ B]]. exact (conj A B).
Qed.

Theorem C12_null_point_leak_refuted :
  exists (hist prog : list op) (s0 : pstate),
    hd_error prog = Some NewPEP /\
    fst (run (fields_of reset_fields) prog s0)
    <> fst (run (fields_of reset_fields) prog (snd (run (fields_of reset_fields) hist s0))).
Proof.
  exists [NewPEP; NewPoint; NewPoint; NewPoint; EvalNull], [NewPEP; NewPoint; EvalNull],
         (init_state (fields_of class_attrs)).
  split; [reflexivity|]. vm_compute. discriminate.
Qed.

(** Verbosity.  Every use of [verbose] in pep.py, wrapper.py and wrappers/*.py is a parameter declaration,
    the test of a print-only block, the forwarding to a wrapper constructor / to a method of the same
    class / into [self.verbose], or the test of a block that only switches the solver's own log on; and a
    program in which verbose occurs only in these ways sends the same data for every verbosity. *)
Theorem C12_verbosity :
  forallb (fun u => vuse_ok (snd u)) verbose_uses = true
  /\ (forall p, vclean p = true -> forall v v', sent (vexec v p) = sent (vexec v' p)).
Proof. split; [reflexivity|exact vexec_sent_indep]. Qed.

(** Non-vacuity: a program with every kind of constructor, run from a fresh interpreter and after a
    history that used every counter; the outputs (indices 0.., the globals) are equal and non-trivial. *)
Example C12_example :
  let prog := [NewPoint; NewExpression; NewFunction true; NewLinearOperator; NewFunction false; NewConstraint;
               NewPSD; NewPartition; NewPoint; ReadGlobals] in
  let hist := [NewPEP; NewPoint; NewPoint; NewFunction true; NewLinearOperator; NewPSD; NewPSD; NewConstraint;
               NewPartition; NewExpression] in
  let f := fields_of reset_fields in
  no_null_eval prog = true
  /\ fst (run f (NewPEP :: prog) (init_state (fields_of class_attrs)))
     = fst (run f (NewPEP :: prog) (snd (run f hist (init_state (fields_of class_attrs)))))
  /\ fst (run f (NewPEP :: prog) (init_state (fields_of class_attrs)))
     = [OIdx 0; OIdx 0; OIdx 0; OIdx 0; OIdx 1; ONone; OIdx 0; OIdx 0; OIdx 0; OIdx 1;
        OState [VN 2; VL [Some 0; Some 1]; VN 1; VL [Some 0]; VN 2; VL [Some 0; Some 1; None; None]; VN 1; VN 1;
                VN 1; VL [Some 0]; VN 1]]%Z
  /\ fst (run f prog (snd (run f hist (init_state (fields_of class_attrs)))))
     <> fst (run f prog (init_state (fields_of class_attrs))).
Proof.
  cbv zeta. split; [reflexivity|]. split; [apply C12_noninterference; reflexivity|].
  split; [vm_compute; reflexivity|]. vm_compute. discriminate.
Qed.

Print Assumptions C12_reset_total.
Print Assumptions C12_model_covers_sources.
Print Assumptions C12_noninterference.
Print Assumptions C12_noninterference_generic.
Print Assumptions C12_residual_is_null_objects.
Print Assumptions C12_null_cache_stays_out_of_globals.
Print Assumptions C12_null_point_leak_refuted.
Print Assumptions C12_verbosity.
Print Assumptions C12_null_objects_do_not_escape.
