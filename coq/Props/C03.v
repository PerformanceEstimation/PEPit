(** C03 — class constraints never exclude a real member of the class.
    The property theorems; the proofs of the class theorems and of the examples live in Proofs/C03Core.v,
    Proofs/C03Assembly.v, Proofs/C03Examples.v, Proofs/C03Rotation.v (on top of ClassGenLemmas.v,
    SemLemmas.v, FormulaEq.v, Members{A,B,C}.v).

    Reading guide.  [plan_<Class>] and the formulas inside it are regenerated from /repo on every run
    (Gen/Classes.v).  [run_plan plan st] is the executable model of [Function.set_class_constraints()]
    (Model/ClassGen.v, tied to PEPit by the class-generation correspondence stream); [st : fstate] holds
    the recorded samples as coefficient dictionaries over leaf points / leaf expressions, the parameter
    table [f_par] and the [np.inf] flags [f_inf].  A valuation [(rho, phi)] gives every leaf point a
    vector of an arbitrary real inner-product space E and every leaf expression a real number;
    [sval rho phi s = (value of x, value of g, value of f)] of a recorded sample s.
    [all_satisfied rho phi o]: EVERY scalar constraint in [g_cons o] holds under the valuation and EVERY
    LMI in [g_lmis o] evaluates (entrywise) to a symmetric positive semidefinite real matrix.
    [wf_state]: the recorded dictionaries have unique keys (Python dicts).  [par_is st p v]: parameter
    number p of the function (0 L, 1 mu, 2 M, 3 D, 4 beta, 5 rho) has the real value v.
    The member definitions ([smooth_convex_member], [genuine_grad], ...) are first-principles
    definitions in Spec/Classes.v, not the interpolation inequalities.
    Each theorem quantifies over ALL lists of samples: any number, order, repetitions, stationary
    points, fixed points. *)
From Coq Require Import List Reals Lra.
From PV Require Import Base.IPS Model.Dict Model.Terms Model.ClassGen Spec.Sem Spec.Reference Spec.Classes.
From PV Require Import Proofs.DictLemmas Proofs.SemLemmas Proofs.ClassGenLemmas Proofs.C04Lemmas.
From PV Require Import Proofs.MembersB Proofs.MembersC.
From PV Require Import Proofs.C03Core Proofs.C03Assembly Proofs.C03Examples Proofs.C03Rotation.
From PV Require Import Gen.Classes.
Import ListNotations.
Local Open Scope R_scope.

(** * the generic step: a plan whose items are sound on all recorded samples generates only satisfied
      constraints and LMIs *)
Theorem C03_plan_sound :
  forall (E : ips) (rho : nat -> E) (phi : nat -> R) plan st,
    auto_head_only plan = true ->
    Forall (item_ok rho phi (start_state plan st)) plan ->
    all_satisfied rho phi (run_plan plan st).
Proof. exact @plan_sound. Qed.
Print Assumptions C03_plan_sound.

Theorem C03_ConvexFunction :
  forall (E : ips) (rho : nat -> E) (phi : nat -> R) (F : fn) (st : fstate),
    wf_state st ->
    (forall s, In s (f_points st) -> genuine_sub F (sval rho phi s)) ->
    all_satisfied rho phi (run_plan plan_ConvexFunction st).
Proof. exact @c03_ConvexFunction. Qed.
Print Assumptions C03_ConvexFunction.

Theorem C03_StronglyConvexFunction :
  forall (E : ips) (rho : nat -> E) (phi : nat -> R) (mu : R) (F : fn) (st : fstate),
    0 <= mu -> strongly_convex_member mu F ->
    par_is st 1 mu -> wf_state st ->
    (forall s, In s (f_points st) -> genuine_sub F (sval rho phi s)) ->
    all_satisfied rho phi (run_plan plan_StronglyConvexFunction st).
Proof. exact @c03_StronglyConvexFunction. Qed.
Print Assumptions C03_StronglyConvexFunction.

Theorem C03_ConvexLipschitzFunction :
  forall (E : ips) (rho : nat -> E) (phi : nat -> R) (M : R) (F : fn) (st : fstate),
    0 <= M -> lipschitz_fn M F ->
    par_is st 2 M -> wf_state st ->
    (forall s, In s (f_points st) -> genuine_sub F (sval rho phi s)) ->
    all_satisfied rho phi (run_plan plan_ConvexLipschitzFunction st).
Proof. exact @c03_ConvexLipschitzFunction. Qed.
Print Assumptions C03_ConvexLipschitzFunction.

(** [D = None] is [D = np.inf] ([opt_par_is]: the flag [f_inf st 3] is set exactly then; the plan's guard
    removes the diameter conditions) *)
Theorem C03_ConvexIndicatorFunction :
  forall (E : ips) (rho : nat -> E) (phi : nat -> R) (D : option R) (F : fn) (st : fstate),
    indicator_member D F ->
    opt_par_is st 3 D -> wf_state st ->
    (forall s, In s (f_points st) -> genuine_sub F (sval rho phi s)) ->
    all_satisfied rho phi (run_plan plan_ConvexIndicatorFunction st).
Proof. exact @c03_ConvexIndicatorFunction. Qed.
Print Assumptions C03_ConvexIndicatorFunction.

(** support function sigma of a set C inside the ball of radius M ([None]: unbounded) *)
Theorem C03_ConvexSupportFunction :
  forall (E : ips) (rho : nat -> E) (phi : nat -> R) (M : option R) (C : E -> Prop) (sigma : E -> R) (st : fstate),
    support_member M C sigma ->
    opt_par_is st 2 M -> wf_state st ->
    (forall s, In s (f_points st) -> genuine_support C sigma (sval rho phi s)) ->
    all_satisfied rho phi (run_plan plan_ConvexSupportFunction st).
Proof. exact @c03_ConvexSupportFunction. Qed.
Print Assumptions C03_ConvexSupportFunction.

(** ConvexQGFunction: the plan begins with "if no stationary point was recorded, declare one".  The
    hypotheses are about the state the generator then works on, [start_state plan st]: [st] itself if a
    stationary sample was recorded, [st] plus [fresh_stationary st] otherwise (the valuation of the two
    fresh leaves is quantified too).  The two corollaries spell the two cases out. *)
Theorem C03_ConvexQGFunction :
  forall (E : ips) (rho : nat -> E) (phi : nat -> R) (L : R) (F : fn) (st : fstate),
    0 < L -> qg_member L F ->
    par_is st 0 L -> wf_state st ->
    (forall s, In s (f_points (start_state plan_ConvexQGFunction st)) -> genuine_sub F (sval rho phi s)) ->
    (forall s, In s (f_stat (start_state plan_ConvexQGFunction st)) -> genuine_sub F (px rho s, vzero, pf rho phi s)) ->
    all_satisfied rho phi (run_plan plan_ConvexQGFunction st).
Proof. exact @c03_ConvexQGFunction. Qed.
Print Assumptions C03_ConvexQGFunction.

Theorem C03_ConvexQGFunction_recorded :
  forall (E : ips) (rho : nat -> E) (phi : nat -> R) (L : R) (F : fn) (st : fstate),
    0 < L -> qg_member L F -> par_is st 0 L -> wf_state st -> f_stat st <> [] ->
    (forall s, In s (f_points st) -> genuine_sub F (sval rho phi s)) ->
    (forall s, In s (f_stat st) -> genuine_sub F (px rho s, vzero, pf rho phi s)) ->
    all_satisfied rho phi (run_plan plan_ConvexQGFunction st).
Proof. exact @c03_ConvexQGFunction_recorded. Qed.
Print Assumptions C03_ConvexQGFunction_recorded.

Theorem C03_ConvexQGFunction_auto :
  forall (E : ips) (rho : nat -> E) (phi : nat -> R) (L : R) (F : fn) (st : fstate),
    0 < L -> qg_member L F -> par_is st 0 L -> wf_state st -> f_stat st = [] ->
    (forall s, In s (f_points st) -> genuine_sub F (sval rho phi s)) ->
    genuine_sub F (px rho (fresh_stationary st), vzero, pf rho phi (fresh_stationary st)) ->
    all_satisfied rho phi (run_plan plan_ConvexQGFunction st).
Proof. exact @c03_ConvexQGFunction_auto. Qed.
Print Assumptions C03_ConvexQGFunction_auto.

Theorem C03_SmoothConvexFunction :
  forall (E : ips) (rho : nat -> E) (phi : nat -> R) (L : R) (F : dfn) (st : fstate),
    0 < L -> smooth_convex_member L F ->
    par_is st 0 L -> wf_state st ->
    (forall s, In s (f_points st) -> genuine_grad F (sval rho phi s)) ->
    all_satisfied rho phi (run_plan plan_SmoothConvexFunction st).
Proof. exact @c03_SmoothConvexFunction. Qed.
Print Assumptions C03_SmoothConvexFunction.

Theorem C03_SmoothFunction :
  forall (E : ips) (rho : nat -> E) (phi : nat -> R) (L : R) (F : dfn) (st : fstate),
    0 < L -> smooth_member L F ->
    par_is st 0 L -> wf_state st ->
    (forall s, In s (f_points st) -> genuine_grad F (sval rho phi s)) ->
    all_satisfied rho phi (run_plan plan_SmoothFunction st).
Proof. exact @c03_SmoothFunction. Qed.
Print Assumptions C03_SmoothFunction.

Theorem C03_SmoothStronglyConvexFunction :
  forall (E : ips) (rho : nat -> E) (phi : nat -> R) (mu L : R) (F : dfn) (st : fstate),
    0 <= mu < L -> smooth_strongly_convex_member mu L F ->
    par_is st 0 L -> par_is st 1 mu -> wf_state st ->
    (forall s, In s (f_points st) -> genuine_grad F (sval rho phi s)) ->
    all_satisfied rho phi (run_plan plan_SmoothStronglyConvexFunction st).
Proof. exact @c03_SmoothStronglyConvexFunction. Qed.
Print Assumptions C03_SmoothStronglyConvexFunction.

Theorem C03_SmoothConvexLipschitzFunction :
  forall (E : ips) (rho : nat -> E) (phi : nat -> R) (L M : R) (F : dfn) (st : fstate),
    0 < L -> 0 <= M -> smooth_convex_lipschitz_member L M F ->
    par_is st 0 L -> par_is st 2 M -> wf_state st ->
    (forall s, In s (f_points st) -> genuine_grad F (sval rho phi s)) ->
    all_satisfied rho phi (run_plan plan_SmoothConvexLipschitzFunction st).
Proof. exact @c03_SmoothConvexLipschitzFunction. Qed.
Print Assumptions C03_SmoothConvexLipschitzFunction.

(** RsiEbFunction: [rsi_eb_member mu L F xs] is relative to ONE stationary point xs; PEPit instantiates the
    two conditions on every pair (stationary sample, sample), so the guard is: F is a member relative to the
    value of every recorded stationary sample (e.g. all of them valued at the member's xs, second theorem).
    Automatic stationary point as for ConvexQGFunction. *)
Theorem C03_RsiEbFunction :
  forall (E : ips) (rho : nat -> E) (phi : nat -> R) (mu L : R) (F : dfn) (st : fstate),
    par_is st 0 L -> par_is st 1 mu -> wf_state st ->
    (forall s, In s (f_stat (start_state plan_RsiEbFunction st)) -> rsi_eb_member mu L F (px rho s)) ->
    (forall s, In s (f_points (start_state plan_RsiEbFunction st)) -> genuine_grad F (sval rho phi s)) ->
    (forall s, In s (f_stat (start_state plan_RsiEbFunction st)) -> genuine_grad F (sval rho phi s)) ->
    all_satisfied rho phi (run_plan plan_RsiEbFunction st).
Proof. exact @c03_RsiEbFunction. Qed.
Print Assumptions C03_RsiEbFunction.

Theorem C03_RsiEbFunction_one_xs :
  forall (E : ips) (rho : nat -> E) (phi : nat -> R) (mu L : R) (F : dfn) (xs : E) (st : fstate),
    rsi_eb_member mu L F xs ->
    par_is st 0 L -> par_is st 1 mu -> wf_state st -> f_stat st <> [] ->
    (forall s, In s (f_stat st) -> px rho s = xs) ->
    (forall s, In s (f_points st) -> genuine_grad F (sval rho phi s)) ->
    (forall s, In s (f_stat st) -> genuine_grad F (sval rho phi s)) ->
    all_satisfied rho phi (run_plan plan_RsiEbFunction st).
Proof. exact @c03_RsiEbFunction_one_xs. Qed.
Print Assumptions C03_RsiEbFunction_one_xs.

Theorem C03_RsiEbFunction_auto :
  forall (E : ips) (rho : nat -> E) (phi : nat -> R) (mu L : R) (F : dfn) (st : fstate),
    rsi_eb_member mu L F (px rho (fresh_stationary st)) ->
    par_is st 0 L -> par_is st 1 mu -> wf_state st -> f_stat st = [] ->
    (forall s, In s (f_points st) -> genuine_grad F (sval rho phi s)) ->
    genuine_grad F (sval rho phi (fresh_stationary st)) ->
    all_satisfied rho phi (run_plan plan_RsiEbFunction st).
Proof. exact @c03_RsiEbFunction_auto. Qed.
Print Assumptions C03_RsiEbFunction_auto.

(** F x = fs + 1/2 <x - xs, Q (x - xs)>; (xs, fs) = values of the first stationary sample (the one the
    constructor declares and the formulas refer to) *)
Theorem C03_SmoothStronglyConvexQuadraticFunction :
  forall (E : ips) (rho : nat -> E) (phi : nat -> R) (mu L : R) (Q : E -> E) (st : fstate),
    sa_bounded mu L Q ->
    par_is st 0 L -> par_is st 1 mu -> wf_state st ->
    (forall s, In s (f_points st) -> genuine_quad Q (stat_x rho st) (stat_f rho phi st) (sval rho phi s)) ->
    all_satisfied rho phi (run_plan plan_SmoothStronglyConvexQuadraticFunction st).
Proof. exact @c03_SmoothStronglyConvexQuadraticFunction. Qed.
Print Assumptions C03_SmoothStronglyConvexQuadraticFunction.

(** K = [f_nblocks st] blocks with block projections P_k; block k of every recorded gradient is valued at
    P_k (value of the gradient); L_k = [f_Lk st k] > 0.  Covers every block k and every ordered pair. *)
Theorem C03_BlockSmoothConvexFunction :
  forall (E : ips) (rho : nat -> E) (phi : nat -> R) (P : nat -> E -> E) (Ls : nat -> R) (F : dfn) (st : fstate),
    block_smooth_convex_member (f_nblocks st) P Ls F ->
    (forall k, (k < f_nblocks st)%nat -> 0 < Ls k /\ Q2R (f_Lk st k) = Ls k) ->
    wf_state st -> wf_blocks st ->
    (forall s, In s (f_points st) -> genuine_grad F (sval rho phi s)) ->
    (forall s k, In s (f_points st) -> (k < f_nblocks st)%nat -> veq (pgk rho k s) (P k (pg rho s))) ->
    all_satisfied rho phi (run_plan plan_BlockSmoothConvexFunction st).
Proof. exact @c03_BlockSmoothConvexFunction. Qed.
Print Assumptions C03_BlockSmoothConvexFunction.

Theorem C03_MonotoneOperator :
  forall (E : ips) (rho : nat -> E) (phi : nat -> R) (A : graph) (st : fstate),
    monotone_op A -> wf_state st ->
    (forall s, In s (f_points st) -> genuine_op A (sval rho phi s)) ->
    all_satisfied rho phi (run_plan plan_MonotoneOperator st).
Proof. exact @c03_MonotoneOperator. Qed.
Print Assumptions C03_MonotoneOperator.

Theorem C03_StronglyMonotoneOperator :
  forall (E : ips) (rho : nat -> E) (phi : nat -> R) (mu : R) (A : graph) (st : fstate),
    strongly_monotone_op mu A -> par_is st 1 mu -> wf_state st ->
    (forall s, In s (f_points st) -> genuine_op A (sval rho phi s)) ->
    all_satisfied rho phi (run_plan plan_StronglyMonotoneOperator st).
Proof. exact @c03_StronglyMonotoneOperator. Qed.
Print Assumptions C03_StronglyMonotoneOperator.

Theorem C03_CocoerciveOperator :
  forall (E : ips) (rho : nat -> E) (phi : nat -> R) (beta : R) (A : graph) (st : fstate),
    cocoercive_op beta A -> par_is st 4 beta -> wf_state st ->
    (forall s, In s (f_points st) -> genuine_op A (sval rho phi s)) ->
    all_satisfied rho phi (run_plan plan_CocoerciveOperator st).
Proof. exact @c03_CocoerciveOperator. Qed.
Print Assumptions C03_CocoerciveOperator.

Theorem C03_NegativelyComonotoneOperator :
  forall (E : ips) (rho : nat -> E) (phi : nat -> R) (rh : R) (A : graph) (st : fstate),
    neg_comonotone_op rh A -> par_is st 5 rh -> wf_state st ->
    (forall s, In s (f_points st) -> genuine_op A (sval rho phi s)) ->
    all_satisfied rho phi (run_plan plan_NegativelyComonotoneOperator st).
Proof. exact @c03_NegativelyComonotoneOperator. Qed.
Print Assumptions C03_NegativelyComonotoneOperator.

Theorem C03_LipschitzOperator :
  forall (E : ips) (rho : nat -> E) (phi : nat -> R) (L : R) (A : graph) (st : fstate),
    lipschitz_op L A -> par_is st 0 L -> wf_state st ->
    (forall s, In s (f_points st) -> genuine_op A (sval rho phi s)) ->
    all_satisfied rho phi (run_plan plan_LipschitzOperator st).
Proof. exact @c03_LipschitzOperator. Qed.
Print Assumptions C03_LipschitzOperator.

Theorem C03_LipschitzStronglyMonotoneOperator :
  forall (E : ips) (rho : nat -> E) (phi : nat -> R) (mu L : R) (A : graph) (st : fstate),
    lipschitz_strongly_monotone_op mu L A ->
    par_is st 0 L -> par_is st 1 mu -> wf_state st ->
    (forall s, In s (f_points st) -> genuine_op A (sval rho phi s)) ->
    all_satisfied rho phi (run_plan plan_LipschitzStronglyMonotoneOperator st).
Proof. exact @c03_LipschitzStronglyMonotoneOperator. Qed.
Print Assumptions C03_LipschitzStronglyMonotoneOperator.

Theorem C03_CocoerciveStronglyMonotoneOperator :
  forall (E : ips) (rho : nat -> E) (phi : nat -> R) (mu beta : R) (A : graph) (st : fstate),
    cocoercive_strongly_monotone_op mu beta A ->
    par_is st 1 mu -> par_is st 4 beta -> wf_state st ->
    (forall s, In s (f_points st) -> genuine_op A (sval rho phi s)) ->
    all_satisfied rho phi (run_plan plan_CocoerciveStronglyMonotoneOperator st).
Proof. exact @c03_CocoerciveStronglyMonotoneOperator. Qed.
Print Assumptions C03_CocoerciveStronglyMonotoneOperator.

(** with or without a declared infimal displacement vector [self.v] ([f_v st]) *)
Theorem C03_NonexpansiveOperator :
  forall (E : ips) (rho : nat -> E) (phi : nat -> R) (A : graph) (st : fstate),
    nonexpansive_op A ->
    (forall d, f_v st = Some d -> inf_displacement A (evalP rho d)) ->
    wf_state st ->
    (forall s, In s (f_points st) -> genuine_op A (sval rho phi s)) ->
    all_satisfied rho phi (run_plan plan_NonexpansiveOperator st).
Proof. exact @c03_NonexpansiveOperator. Qed.
Print Assumptions C03_NonexpansiveOperator.

Theorem C03_LinearOperator :
  forall (E : ips) (rho : nat -> E) (phi : nat -> R) (L : R) (M Mt : E -> E) (st : fstate),
    bounded_pair L M Mt -> par_is st 0 L -> wf_state st ->
    (forall s, In s (f_points st) -> genuine_lin M (sval rho phi s)) ->
    (forall s, In s (f_tpoints st) -> genuine_lin Mt (sval rho phi s)) ->
    all_satisfied rho phi (run_plan plan_LinearOperator st).
Proof. exact @c03_LinearOperator. Qed.
Print Assumptions C03_LinearOperator.

Theorem C03_SkewSymmetricLinearOperator :
  forall (E : ips) (rho : nat -> E) (phi : nat -> R) (L : R) (A : E -> E) (st : fstate),
    skew_bounded L A -> par_is st 0 L -> wf_state st ->
    (forall s, In s (f_points st) -> genuine_lin A (sval rho phi s)) ->
    all_satisfied rho phi (run_plan plan_SkewSymmetricLinearOperator st).
Proof. exact @c03_SkewSymmetricLinearOperator. Qed.
Print Assumptions C03_SkewSymmetricLinearOperator.

Theorem C03_SymmetricLinearOperator :
  forall (E : ips) (rho : nat -> E) (phi : nat -> R) (mu L : R) (Q : E -> E) (st : fstate),
    sa_bounded mu L Q -> par_is st 0 L -> par_is st 1 mu -> wf_state st ->
    (forall s, In s (f_points st) -> genuine_lin Q (sval rho phi s)) ->
    all_satisfied rho phi (run_plan plan_SymmetricLinearOperator st).
Proof. exact @c03_SymmetricLinearOperator. Qed.
Print Assumptions C03_SymmetricLinearOperator.

(** the table of statements covers exactly the translated classes (a class added to PEPit without a
    theorem breaks this, and [C03_all_classes]) *)
Theorem C03_covered_classes :
  forall (E : ips) (rho : nat -> E) (phi : nat -> R),
    map fst (c03_table rho phi) = translated_classes /\ map fst all_plans = translated_classes.
Proof. exact @c03_covered_classes. Qed.
Print Assumptions C03_covered_classes.

(** [c03_statement rho phi name plan] is the statement of the theorem of class [name] above, about [plan]
    ([False] for an unknown name) *)
Theorem C03_all_classes :
  forall (E : ips) (rho : nat -> E) (phi : nat -> R) name plan,
    In (name, plan) all_plans -> c03_statement rho phi name plan.
Proof. exact @c03_all_classes. Qed.
Print Assumptions C03_all_classes.

(** * non-vacuity: concrete members, states with three samples, valuations meeting every hypothesis *)

Example C03_SmoothConvexFunction_nonvacuous :
  0 < 2 /\ smooth_convex_member 2 ex1_F /\ par_is ex1_st 0 2 /\ wf_state ex1_st /\
  (forall s, In s (f_points ex1_st) -> genuine_grad ex1_F (sval ex1_rho ex1_phi s)) /\
  all_satisfied ex1_rho ex1_phi (run_plan plan_SmoothConvexFunction ex1_st) /\
  List.length (g_cons (run_plan plan_SmoothConvexFunction ex1_st)) = 6%nat.
Proof. exact ex_SmoothConvexFunction. Qed.

Example C03_ConvexFunction_nonvacuous :
  wf_state ex2_st /\
  (forall s, In s (f_points ex2_st) -> genuine_sub ex2_F (sval ex2_rho ex2_phi s)) /\
  all_satisfied ex2_rho ex2_phi (run_plan plan_ConvexFunction ex2_st) /\
  List.length (g_cons (run_plan plan_ConvexFunction ex2_st)) = 10%nat.
Proof. exact ex_ConvexFunction. Qed.

Example C03_ConvexIndicatorFunction_nonvacuous :
  indicator_member (Some 2) ex3_F /\ opt_par_is ex3_st 3 (Some 2) /\ wf_state ex3_st /\
  (forall s, In s (f_points ex3_st) -> genuine_sub ex3_F (sval ex3_rho ex3_phi s)) /\
  all_satisfied ex3_rho ex3_phi (run_plan plan_ConvexIndicatorFunction ex3_st) /\
  List.length (g_cons (run_plan plan_ConvexIndicatorFunction ex3_st)) = 15%nat.
Proof. exact ex_ConvexIndicatorFunction. Qed.

Example C03_CocoerciveOperator_nonvacuous :
  cocoercive_op (1 / 2) ex4_A /\ par_is ex4_st 4 (1 / 2) /\ wf_state ex4_st /\
  (forall s, In s (f_points ex4_st) -> genuine_op ex4_A (sval ex4_rho (fun _ => 0) s)) /\
  all_satisfied ex4_rho (fun _ => 0) (run_plan plan_CocoerciveOperator ex4_st) /\
  List.length (g_cons (run_plan plan_CocoerciveOperator ex4_st)) = 3%nat.
Proof. exact ex_CocoerciveOperator. Qed.

Example C03_LinearOperator_nonvacuous :
  bounded_pair 1 ex5_J ex5_Jt /\ par_is ex5_st 0 1 /\ wf_state ex5_st /\
  (forall s, In s (f_points ex5_st) -> genuine_lin ex5_J (sval ex5_rho (fun _ => 0) s)) /\
  (forall s, In s (f_tpoints ex5_st) -> genuine_lin ex5_Jt (sval ex5_rho (fun _ => 0) s)) /\
  all_satisfied ex5_rho (fun _ => 0) (run_plan plan_LinearOperator ex5_st) /\
  List.length (g_cons (run_plan plan_LinearOperator ex5_st)) = 2%nat /\
  List.length (g_lmis (run_plan plan_LinearOperator ex5_st)) = 2%nat.
Proof. exact ex_LinearOperator. Qed.

Example C03_SmoothStronglyConvexQuadraticFunction_nonvacuous :
  sa_bounded 1 3 ex6_Q /\ par_is ex6_st 0 3 /\ par_is ex6_st 1 1 /\ wf_state ex6_st /\
  (forall s, In s (f_points ex6_st) ->
             genuine_quad ex6_Q (stat_x ex6_rho ex6_st) (stat_f ex6_rho ex6_phi ex6_st) (sval ex6_rho ex6_phi s)) /\
  all_satisfied ex6_rho ex6_phi (run_plan plan_SmoothStronglyConvexQuadraticFunction ex6_st) /\
  List.length (g_cons (run_plan plan_SmoothStronglyConvexQuadraticFunction ex6_st)) = 6%nat /\
  List.length (g_lmis (run_plan plan_SmoothStronglyConvexQuadraticFunction ex6_st)) = 1%nat.
Proof. exact ex_SmoothStronglyConvexQuadraticFunction. Qed.

(** * Non-gradient members: the scaled rotations a I + b J of the plane ([rot_graph a b], Proofs/C03Rotation.v) sit on
      the boundary of the monotone-type classes and are not gradients (b <> 0).  They are what separates the operator
      classes from the classes of gradient fields; the failing-input search of this check (harness/members.py)
      samples exactly these members numerically. *)
Theorem C03_rotation_scaled_strongly_monotone :
  forall a b : R, strongly_monotone_op a (rot_graph a b).
Proof. exact rotation_scaled_strongly_monotone. Qed.
Print Assumptions C03_rotation_scaled_strongly_monotone.

Theorem C03_rotation_scaled_cocoercive :
  forall a b : R, 0 < a * a + b * b -> cocoercive_op (a / (a * a + b * b)) (rot_graph a b).
Proof. exact rotation_scaled_cocoercive. Qed.
Print Assumptions C03_rotation_scaled_cocoercive.

Theorem C03_rotation_scaled_cocoercive_strongly_monotone :
  forall a b : R, 0 < a * a + b * b ->
    cocoercive_strongly_monotone_op a (a / (a * a + b * b)) (rot_graph a b).
Proof. exact rotation_scaled_cocoercive_strongly_monotone. Qed.
Print Assumptions C03_rotation_scaled_cocoercive_strongly_monotone.

Theorem C03_rotation_scaled_lipschitz :
  forall a b L : R, a * a + b * b <= L ^ 2 -> lipschitz_op L (rot_graph a b).
Proof. exact rotation_scaled_lipschitz. Qed.
Print Assumptions C03_rotation_scaled_lipschitz.

(** a < 0: exactly rho-negatively comonotone with rho = -a / (a^2 + b^2) *)
Theorem C03_rotation_scaled_neg_comonotone :
  forall a b : R, 0 < a * a + b * b -> neg_comonotone_op (- a / (a * a + b * b)) (rot_graph a b).
Proof.
  intros a b Hr x u y v Hu Hv. destruct (rot_inner a b x u y v Hu Hv) as [H1 H2]. rewrite H1, H2.
  right. field. lra.
Qed.
Print Assumptions C03_rotation_scaled_neg_comonotone.

(** a member of CocoerciveStronglyMonotoneOperator(1, 1/2) on which the inequality valid for gradients of
    mu-strongly convex 1/beta-smooth functions, <dg,dx> >= (beta |dg|^2 + mu |dx|^2)/(1 + mu beta), fails: generating
    that inequality for the class would exclude a real member *)
Theorem C03_rotation_violates_gradient_only_inequality :
  let A := rot_graph 1 1 in
  cocoercive_strongly_monotone_op 1 (1 / 2) A /\
  exists x u y v, A x u /\ A y v /\
    ~ (inner (vsub u v) (vsub x y) >= (1 / 2 * nrm2 (vsub u v) + 1 * nrm2 (vsub x y)) / (1 + 1 * (1 / 2))).
Proof. exact rotation_violates_gradient_only_inequality. Qed.
Print Assumptions C03_rotation_violates_gradient_only_inequality.

Example C03_rotation_member_nonvacuous :
  cocoercive_strongly_monotone_op 1 (1 / 2) (rot_graph 1 1) /\ par_is rot_st 1 1 /\ par_is rot_st 4 (1 / 2) /\
  wf_state rot_st /\
  (forall s, In s (f_points rot_st) -> genuine_op (rot_graph 1 1) (sval rot_rho (fun _ => 0) s)) /\
  all_satisfied rot_rho (fun _ => 0) (run_plan plan_CocoerciveStronglyMonotoneOperator rot_st) /\
  List.length (g_cons (run_plan plan_CocoerciveStronglyMonotoneOperator rot_st)) = 6%nat.
Proof. exact rotation_member_example. Qed.
